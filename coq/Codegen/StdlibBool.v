(* write(bool) of the regenerated runtime library prints "true"/"false" and returns, leaving the
   state section untouched outside r0..r2.  For every word size w >= 2. *)
From Coq Require Import ZArith List Lia.
From HidV Require Import Machine WordLemmas MemLemmas GenStdlib StepTactics StdlibBase.
Import ListNotations.
Open Scope Z_scope.

Definition str_false : list Z := [102; 97; 108; 115; 101].
Definition str_true : list Z := [116; 114; 117; 101].

Section Bool.
Variables (w : Z) (code : Z -> option instr) (cmem : mem) (B : Z).
Hypothesis Hw : 2 <= w.
Hypothesis CA : lib_at w code B.
Hypothesis B_range : lib_range w B.

Notation act := (Machine.act w code cmem).
Notation runs := (Halts.runs act).
Notation lw := (Machine.lw w).
Notation sw := (Machine.sw w).

Theorem write_bool_spec m F :
  frame_ok w m F 1 ->
  let b := Machine.lb m (F - w - 1) in
  let ra := lw m (F - w) in
  exists m', runs (mk (B + off_write_bool) m)
                  (map EOut (if b =? 0 then str_false else str_true)) (mk ra m')
             /\ agree w m' m /\ wf_mem m'.
Proof.
  intros Fr b ra.
  pose proof (lib_sub off_write_bool 11 CA eq_refl) as C.
  pose proof (lib_sub off_write_bool_is_true 8 CA eq_refl) as CT.
  pose proof (frame_regs Hw Fr ltac:(lia)) as G.
  destruct Fr as (Hwf & _ & HF1 & _). unfold stack_start in HF1.
  assert (Hb : 0 <= b < 256) by apply Hwf. pose proof (W_ge w ltac:(lia)) as HW.
  pose proof (regs_put Hw G SR0 b ltac:(lia)) as G1.
  (* lbso [r0],[fp],-1w-1 *)
  assert (S0 : runs (mk (B + off_write_bool) m) [] (mk (B + (off_write_bool + 1)) (sw m (2 * w) b))).
  { subst b. replace (F - w - 1) with (F + (- (1 * w) - 1)) by lia.
    apply (step_arg Hw G SR0 (C 0%nat _ eq_refl)); lia. }
  (* j is_true; hne [r0],0;  is_true: heq [r0],0 *)
  pose proof (step_branch (C 1%nat _ eq_refl) (C 2%nat _ eq_refl) (CT 0%nat _ eq_refl)
                (lib_label off_write_bool_is_true B_range eq_refl)
                (oval_reg (cmem := cmem) Hw G1 SR0) (oval_byte Hw 0 eq_refl)) as BR.
  cbn [Machine.cond_holds] in BR.
  destruct (b =? 0); cbn [negb] in BR.
  - exact (lands_after (silent_then S0 (silent_then BR (yields_runs Hw (cs := str_false) (block_sub 3 5 C) eq_refl)))
                       (ret_runs cmem Hw G1 (block_sub 8 3 C))).
  - exact (lands_after (silent_then S0 (silent_then BR (yields_runs Hw (cs := str_true) (block_sub 1 4 CT) eq_refl)))
                       (ret_runs cmem Hw G1 (block_sub 5 3 CT))).
Qed.

End Bool.

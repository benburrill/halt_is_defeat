(* Satisfiability witnesses for the hypotheses of the C17 theorems: one concrete machine
   (w = 2, the library at code address 0, a 64-byte state section) per routine, and, for
   write(bool), write(string) and write(int), the theorem applied to it. *)
From Coq Require Import ZArith List Lia.
From HidV Require Import Machine MemLemmas GenStdlib StepTactics StdlibBase StdlibBool StdlibBytes StdlibInt.
Import ListNotations.
Open Scope Z_scope.

Notation sw2 := (Machine.sw 2).
Notation lw2 := (Machine.lw 2).

Ltac wf_ex := repeat first [ apply wf_sw; [|lia] | apply wf_sb; [|lia] | apply wf_zmem ].
(* a conjunction of closed comparisons, each evaluated on its own *)
Ltac atoms := cbv zeta; repeat apply conj; vm_compute; congruence.

(* frame pointer 40: RA word at 38, arguments below *)
Definition ex_bool : mem := sw2 (Machine.sb (sw2 (zmem 64) 2 40) 37 1) 38 7.
Example ex_bool_ok : frame_ok 2 ex_bool 40 1.
Proof. split; [wf_ex | atoms]. Qed.

Definition ex_int (v : Z) : mem := sw2 (sw2 (sw2 (zmem 64) 2 40) 36 v) 38 7.
Example ex_int_ok : frame_ok 2 (ex_int 12345) 40 2 /\ write_int_room 2 40 (Machine.sgn 2 (lw2 (ex_int 12345) 36)).
Proof. split; [split; [wf_ex | atoms] | atoms]. Qed.
(* the most negative 16-bit value *)
Example ex_int_min_ok : frame_ok 2 (ex_int 32768) 40 2 /\ write_int_room 2 40 (Machine.sgn 2 (lw2 (ex_int 32768) 36))
  /\ Machine.sgn 2 (lw2 (ex_int 32768) 36) = -32768.
Proof. split; [split; [wf_ex | atoms] | atoms]. Qed.

(* byte array of length 3 at state address 50 / const address 4 *)
Definition ex_arr : mem := sw2 (sw2 (sw2 (sw2 (zmem 64) 2 40) 34 50) 36 3) 38 7.
Example ex_state_arr_ok : frame_ok 2 ex_arr 40 (2 * 2) /\
  let p := lw2 ex_arr (40 - 3 * 2) in let len := Machine.sgn 2 (lw2 ex_arr (40 - 2 * 2)) in
  0 < len /\ p + len <= msize ex_arr /\ p + len <= Machine.W 2 /\ (p + len <= 2 * 2 \/ 5 * 2 <= p).
Proof. split; [split; [wf_ex | atoms] | cbv zeta; repeat apply conj; [atoms .. | right; atoms]]. Qed.
Definition ex_arr_c : mem := sw2 (sw2 (sw2 (sw2 (zmem 64) 2 40) 34 4) 36 3) 38 7.
Example ex_const_arr_ok : frame_ok 2 ex_arr_c 40 (2 * 2) /\ wf_mem (zmem 16) /\
  let p := lw2 ex_arr_c (40 - 3 * 2) in let len := Machine.sgn 2 (lw2 ex_arr_c (40 - 2 * 2)) in
  0 < len /\ p + len <= msize (zmem 16) /\ p + len <= Machine.W 2.
Proof. split; [split; [wf_ex | atoms] | split; [apply wf_zmem | atoms]]. Qed.

(* string object at const address 4: length word 3, then the bytes *)
Definition ex_cmem : mem := Machine.sb (Machine.sb (Machine.sb (sw2 (zmem 16) 4 3) 6 104) 7 105) 8 33.
Definition ex_str : mem := sw2 (sw2 (sw2 (zmem 64) 2 40) 36 4) 38 7.
Example ex_string_ok : frame_ok 2 ex_str 40 2 /\ wf_mem ex_cmem /\
  let sp := lw2 ex_str (40 - 2 * 2) in let len := Machine.sgn 2 (lw2 ex_cmem sp) in
  sp + 2 <= msize ex_cmem /\ 0 < len /\ sp + 2 + len <= msize ex_cmem /\ sp + 2 + len <= Machine.W 2.
Proof. split; [split; [wf_ex | atoms] | split; [unfold ex_cmem; wf_ex | atoms]]. Qed.

(* an instance of a routine's theorem on the machine with the library at address 0, its events
   and return address evaluated *)
Notation runs2 c := (Halts.runs (Machine.act 2 (lib_code 2) c)).
Lemma evaluated {act s evs ra Q} evs' ra' : lands act s evs ra Q -> evs = evs' -> ra = ra' ->
  exists m', Halts.runs act s evs' (mk ra' m').
Proof. intros (m' & R & _) <- <-. exists m'. exact R. Qed.

Example write_int_instance : exists m',
  runs2 (zmem 0) (mk off_write_int (ex_int 12345)) (map EOut [49; 50; 51; 52; 53]) (mk 7 m').
Proof.
  destruct ex_int_ok as [Hf Hr].
  refine (evaluated _ _ (write_int_spec 2 (lib_code 2) (zmem 0) 0 ltac:(lia) (lib_code_at 2) lib_range_2 _ 40 Hf Hr) _ _);
    vm_compute; reflexivity.
Qed.
Example write_int_min_instance : exists m',
  runs2 (zmem 0) (mk off_write_int (ex_int 32768)) (map EOut [45; 51; 50; 55; 54; 56]) (mk 7 m').
Proof.
  destruct ex_int_min_ok as (Hf & Hr & _).
  refine (evaluated _ _ (write_int_spec 2 (lib_code 2) (zmem 0) 0 ltac:(lia) (lib_code_at 2) lib_range_2 _ 40 Hf Hr) _ _);
    vm_compute; reflexivity.
Qed.
Example write_string_instance : exists m',
  runs2 ex_cmem (mk off_write_string ex_str) (map EOut [104; 105; 33]) (mk 7 m').
Proof.
  destruct ex_string_ok as (Hf & Hc & Hh & Hp & Hs).
  refine (evaluated _ _ (write_string_spec 2 (lib_code 2) ex_cmem 0 ltac:(lia) (lib_code_at 2) lib_range_2 _ 40
                           Hf Hc Hh (fun _ => Hs)) _ _);
    vm_compute; reflexivity.
Qed.
Example write_bool_instance : exists m',
  runs2 (zmem 0) (mk off_write_bool ex_bool) (map EOut str_true) (mk 7 m').
Proof.
  refine (evaluated _ _ (write_bool_spec 2 (lib_code 2) (zmem 0) 0 ltac:(lia) (lib_code_at 2) lib_range_2 _ 40
                           ex_bool_ok) _ _);
    vm_compute; reflexivity.
Qed.

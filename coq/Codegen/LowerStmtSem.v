(* Component `lowerstmt`: the SOURCE SEMANTICS of the statement / function fragment: stores,
   expression evaluation (left to right, short-circuit, wrap-around, signed comparison), a big-step
   relation exec / execs / callf with outcomes Normal / Break / Continue / Return v / Fault f,
   output bytes as events and the stack accounting of a checked build; a fuelled interpreter
   istmt / istmts / icall.  What the interpreter returns is a run of the relation (interp_run,
   stated on the result itself, so that each case of the interpreter is met by the rule it
   mirrors; interp_sound is its usual form).  The interpreter is extracted
   (Extract/ExtractLowerStmt.v): tools/corr_lowerstmt.py runs it against the real compiler's
   output on the verified VM.  Nothing here speaks of the lowering: of LowerBoolProofs only `b2z`
   is used. *)
From Coq Require Import ZArith List Bool Lia.
From HidV Require Import GenTables OpTables DecimalSpec StdlibBool LowerBoolModel LowerBoolProofs LowerStmtModel.
Import ListNotations.
Open Scope Z_scope.

(* a store: the values of the int locals in scope (signed, in range) and of the bool locals
   (0 / 1), in declaration order (si, sb); those of the int and the bool globals (sg, sgb) *)
Record store := mkstore { si : list Z; sb : list Z; sg : list Z; sgb : list Z }.
(* the global part of a store *)
Definition gstore := (list Z * list Z)%type.
Definition gs_of (s : store) : gstore := (sg s, sgb s).
Fixpoint upd (i : nat) (v : Z) (l : list Z) : list Z :=
  match l, i with
  | [], _ => []
  | _ :: r, O => v :: r
  | x :: r, S k => x :: upd k v r
  end.
(* leaving a block: the locals declared inside disappear *)
Definition trunc (s0 s : store) : store :=
  mkstore (firstn (length (si s0)) (si s)) (firstn (length (sb s0)) (sb s)) (sg s) (sgb s).

(* how a run of a statement list can end.  Faults are the run-time checks of a checked build. *)
Inductive fault := FDivZero | FStackOverflow.
Inductive outcome := ONormal | OBreak | OContinue | OReturn (v : option Z) | OFault (f : fault).
(* how a call ends: a result and the globals as the callee left them, or a fault *)
Inductive cres := CRet (v : option Z) (G : gstore) | CFault (f : fault).
(* outcomes that leave the enclosing function *)
Definition leaves (out : outcome) : Prop := match out with OReturn _ | OFault _ => True | _ => False end.

Section Source.
Variable w : Z.
Variable funs : list fundef.           (* the program: function 0 is the entry point *)
(* two's-complement wrap-around of the word size *)
Definition swrap (v : Z) : Z := Machine.sgn w (Machine.wrap w v).
Fixpoint ieval (s : store) (o : iopd) : Z :=
  match o with
  | OLit _ z => z
  | OVar i => nth i (si s) 0
  | OArith op x y => swrap (arith_sem op (ieval s x) (ieval s y))
  | OUn UNeg x => swrap (- ieval s x)
  | OUn UPos x => ieval s x
  | OGlob g => nth g (sg s) 0
  | OTrunc x => ieval s x mod 256                    (* (x is byte) is int: truncation to the low byte *)
  | OByte (YSlot j) => nth j (sb s) 0                (* the byte, zero-extended *)
  | OByte (YLow i) => nth i (si s) 0 mod 256          (* the low byte of an int: truncation *)
  end.
Fixpoint bevals (s : store) (e : bexpr) : bool :=
  match e with
  | BLit b => b
  | BVar (BLocal j) => negb (nth j (sb s) 0 =? 0)
  | BVar (BGlobal h) => negb (nth h (sgb s) 0 =? 0)
  | BCmp op a b => cmp_sem op (ieval s a) (ieval s b)
  | BNot e1 => negb (bevals s e1)
  | BAnd e1 e2 => bevals s e1 && bevals s e2          (* right operand has no effects: && is short-circuit *)
  | BOr e1 e2 => bevals s e1 || bevals s e2
  end.
Definition wbyte (s : store) (x : wexpr) : Z :=
  match x with WrLit z => z mod 256 | WrChar c => c mod 256 | WrByte o => ieval s o mod 256 end.

(* STACK ACCOUNTING.  The checked build guards every function entry: the function faults with
   stack_overflow unless the bytes between its frame pointer and the bottom of the stack are at
   least its frame size `fun_need` (the constant of its guard).  The semantics carries d, the
   number of bytes available to the current frame; the frame in use is the return address and the
   locals in scope. *)
Definition frame_top (s : store) : Z := w * (1 + Z.of_nat (length (si s))) + Z.of_nat (length (sb s)).
(* what a call leaves in the caller's store *)
Definition with_g (s : store) (G : gstore) : store := mkstore (si s) (sb s) (fst G) (snd G).
Definition set_g (s : store) (g : nat) (v : Z) : store := mkstore (si s) (sb s) (upd g v (sg s)) (sgb s).
Definition set_gb (s : store) (h : nat) (v : Z) : store := mkstore (si s) (sb s) (sg s) (upd h v (sgb s)).
Definition dest_store (dst : dest) (v : option Z) (s s' : store) : Prop :=
  match dst with
  | DAssignG g => exists x, v = Some x /\ (g < length (sg s))%nat /\ s' = set_g s g x
  | DNone => s' = s
  | DDecl => exists x, v = Some x /\ s' = mkstore (si s ++ [x]) (sb s) (sg s) (sgb s)
  | DAssign i => exists x, v = Some x /\ (i < length (si s))%nat /\ s' = mkstore (upd i x (si s)) (sb s) (sg s) (sgb s)
  end.

(* exec d s σ out_bytes outcome σ' *)
Inductive exec : Z -> stmt -> store -> list Z -> outcome -> store -> Prop :=
| X_decli d o s : exec d (SDeclI o) s [] ONormal (mkstore (si s ++ [ieval s o]) (sb s) (sg s) (sgb s))
| X_assi d i o s : (i < length (si s))%nat ->
    exec d (SAssignI i o) s [] ONormal (mkstore (upd i (ieval s o) (si s)) (sb s) (sg s) (sgb s))
| X_declb d e s : exec d (SDeclB e) s [] ONormal (mkstore (si s) (sb s ++ [b2z (bevals s e)]) (sg s) (sgb s))
| X_assb d j e s : (j < length (sb s))%nat ->
    exec d (SAssignB j e) s [] ONormal (mkstore (si s) (upd j (b2z (bevals s e)) (sb s)) (sg s) (sgb s))
| X_write d x s : exec d (SWrite x) s [wbyte s x] ONormal s
| X_writeln d s : exec d SWriteln s [10] ONormal s
| X_writei d ln o s :                                 (* the decimal representation of the value *)
    exec d (SWriteI ln o) s (decimal (ieval s o) ++ (if ln then [10] else [])) ONormal s
| X_writeb d ln e s :                                 (* "true" / "false" *)
    exec d (SWriteB ln e) s ((if bevals s e then str_true else str_false) ++ (if ln then [10] else [])) ONormal s
| X_if d c s1 s2 s evs out s' :
    execs d (if bevals s c then s1 else s2) s evs out s' -> exec d (SIf c s1 s2) s evs out (trunc s s')
| X_while_false d c b k s : bevals s c = false -> exec d (SWhile c b k) s [] ONormal s
| X_while_break d c b k s evs s1 : bevals s c = true ->
    execs d b s evs OBreak s1 -> exec d (SWhile c b k) s evs ONormal (trunc s s1)
| X_while_leave d c b k s evs out s1 : bevals s c = true ->          (* the body returns or faults *)
    execs d b s evs out s1 -> leaves out -> exec d (SWhile c b k) s evs out (trunc s s1)
| X_while_cont_exit d c b k s e1 out1 s1 e2 out2 s2 : bevals s c = true ->
    execs d b s e1 out1 s1 -> out1 = ONormal \/ out1 = OContinue ->
    execs d k (trunc s s1) e2 out2 s2 -> out2 <> ONormal ->          (* the continuation does not complete *)
    exec d (SWhile c b k) s (e1 ++ e2) out2 (trunc s s2)
| X_while_next d c b k s e1 out1 s1 e2 s2 e3 out3 s3 : bevals s c = true ->
    execs d b s e1 out1 s1 -> out1 = ONormal \/ out1 = OContinue ->  (* the body completes or continues *)
    execs d k (trunc s s1) e2 ONormal s2 ->                          (* the continuation of a `for` *)
    exec d (SWhile c b k) (trunc s s2) e3 out3 s3 ->
    exec d (SWhile c b k) s (e1 ++ e2 ++ e3) out3 s3
| X_block d ss s evs out s' : execs d ss s evs out s' -> exec d (SBlock ss) s evs out (trunc s s')
| X_break d s : exec d SBreak s [] OBreak s
| X_continue d s : exec d SContinue s [] OContinue s
(* division in a checked build: a zero divisor is the fault division_by_zero *)
| X_decldiv d op a b s : ieval s b <> 0 ->
    exec d (SDeclDiv op a b) s [] ONormal (mkstore (si s ++ [swrap (arith_sem op (ieval s a) (ieval s b))]) (sb s) (sg s) (sgb s))
| X_decldiv_fault d op a b s : ieval s b = 0 -> exec d (SDeclDiv op a b) s [] (OFault FDivZero) s
| X_assdiv d i op a b s : (i < length (si s))%nat -> ieval s b <> 0 ->
    exec d (SAssignDiv i op a b) s [] ONormal (mkstore (upd i (swrap (arith_sem op (ieval s a) (ieval s b))) (si s)) (sb s) (sg s) (sgb s))
| X_assdiv_fault d i op a b s : ieval s b = 0 -> exec d (SAssignDiv i op a b) s [] (OFault FDivZero) s
(* calls: the arguments are evaluated left to right in the caller's store *)
| X_call d dst f args s evs v G' s' :                  (* the callee sees and may change the globals *)
    callf (d - frame_top s) f (map (ieval s) args) (gs_of s) evs (CRet v G') -> dest_store dst v (with_g s G') s' ->
    exec d (SCall dst f args) s evs ONormal s'
| X_call_fault d dst f args s evs ft :
    callf (d - frame_top s) f (map (ieval s) args) (gs_of s) evs (CFault ft) ->
    exec d (SCall dst f args) s evs (OFault ft) s
(* assignment to an int global *)
| X_assg d g o s : (g < length (sg s))%nat -> exec d (SAssignG g o) s [] ONormal (set_g s g (ieval s o))
| X_assgdiv d g op a b s : (g < length (sg s))%nat -> ieval s b <> 0 ->
    exec d (SAssignGDiv g op a b) s [] ONormal (set_g s g (swrap (arith_sem op (ieval s a) (ieval s b))))
| X_assgdiv_fault d g op a b s : ieval s b = 0 -> exec d (SAssignGDiv g op a b) s [] (OFault FDivZero) s
(* assignment to a bool global *)
| X_assbg d h e s : (h < length (sgb s))%nat -> exec d (SAssignBG h e) s [] ONormal (set_gb s h (b2z (bevals s e)))
| X_return d s : exec d (SReturn None) s [] (OReturn None) s
| X_return_val d o s : exec d (SReturn (Some o)) s [] (OReturn (Some (ieval s o))) s
with execs : Z -> stmts -> store -> list Z -> outcome -> store -> Prop :=
| XS_nil d s : execs d SNil s [] ONormal s
| XS_cons d s r s0 e1 s1 e2 out s2 :
    exec d s s0 e1 ONormal s1 -> execs d r s1 e2 out s2 -> execs d (SCons s r) s0 (e1 ++ e2) out s2
| XS_exit d s r s0 e1 out s1 :
    exec d s s0 e1 out s1 -> out <> ONormal -> execs d (SCons s r) s0 e1 out s1
(* callf d f args events result: function f called with d bytes below its frame pointer *)
with callf : Z -> nat -> list Z -> gstore -> list Z -> cres -> Prop :=
| CF_overflow d f vs G fd : nth_error funs f = Some fd -> d < fun_need w fd ->
    callf d f vs G [] (CFault FStackOverflow)
| CF_return d f vs G fd evs v s1 : nth_error funs f = Some fd -> fun_need w fd <= d ->
    execs d (fn_body fd) (mkstore vs [] (fst G) (snd G)) evs (OReturn v) s1 -> callf d f vs G evs (CRet v (gs_of s1))
| CF_fault d f vs G fd evs ft s1 : nth_error funs f = Some fd -> fun_need w fd <= d ->
    execs d (fn_body fd) (mkstore vs [] (fst G) (snd G)) evs (OFault ft) s1 -> callf d f vs G evs (CFault ft).
End Source.
Scheme exec_ind2 := Minimality for exec Sort Prop
  with execs_ind2 := Minimality for execs Sort Prop
  with callf_ind2 := Minimality for callf Sort Prop.
Combined Scheme exec_execs_callf_ind from exec_ind2, execs_ind2, callf_ind2.

Section Interp.
Variable w : Z.
Variable funs : list fundef.
Fixpoint istmt (fuel : nat) (d : Z) (s : stmt) (s0 : store) : option (list Z * outcome * store) :=
  match fuel with
  | O => None
  | S f =>
    match s with
    | SDeclI o => Some ([], ONormal, mkstore (si s0 ++ [ieval w s0 o]) (sb s0) (sg s0) (sgb s0))
    | SAssignI i o => if (i <? length (si s0))%nat then Some ([], ONormal, mkstore (upd i (ieval w s0 o) (si s0)) (sb s0) (sg s0) (sgb s0)) else None
    | SDeclB e => Some ([], ONormal, mkstore (si s0) (sb s0 ++ [b2z (bevals w s0 e)]) (sg s0) (sgb s0))
    | SAssignB j e => if (j <? length (sb s0))%nat then Some ([], ONormal, mkstore (si s0) (upd j (b2z (bevals w s0 e)) (sb s0)) (sg s0) (sgb s0)) else None
    | SWrite x => Some ([wbyte w s0 x], ONormal, s0)
    | SWriteln => Some ([10], ONormal, s0)
    | SWriteI ln o => Some (decimal (ieval w s0 o) ++ (if ln then [10] else []), ONormal, s0)
    | SWriteB ln e => Some ((if bevals w s0 e then str_true else str_false) ++ (if ln then [10] else []), ONormal, s0)
    | SIf c s1 s2 =>
        match istmts f d (if bevals w s0 c then s1 else s2) s0 with
        | Some (e, out, s') => Some (e, out, trunc s0 s')
        | None => None
        end
    | SWhile c b k =>
        if bevals w s0 c then
          match istmts f d b s0 with
          | Some (e1, OBreak, s1) => Some (e1, ONormal, trunc s0 s1)
          | Some (e1, OReturn v, s1) => Some (e1, OReturn v, trunc s0 s1)
          | Some (e1, OFault ft, s1) => Some (e1, OFault ft, trunc s0 s1)
          | Some (e1, _, s1) =>
              match istmts f d k (trunc s0 s1) with
              | Some (e2, ONormal, s2) =>
                  match istmt f d (SWhile c b k) (trunc s0 s2) with
                  | Some (e3, out3, s3) => Some (e1 ++ e2 ++ e3, out3, s3)
                  | None => None
                  end
              | Some (e2, out2, s2) => Some (e1 ++ e2, out2, trunc s0 s2)
              | None => None
              end
          | None => None
          end
        else Some ([], ONormal, s0)
    | SBlock ss =>
        match istmts f d ss s0 with
        | Some (e, out, s') => Some (e, out, trunc s0 s')
        | None => None
        end
    | SBreak => Some ([], OBreak, s0)
    | SContinue => Some ([], OContinue, s0)
    | SDeclDiv op a b =>
        if ieval w s0 b =? 0 then Some ([], OFault FDivZero, s0)
        else Some ([], ONormal, mkstore (si s0 ++ [swrap w (arith_sem op (ieval w s0 a) (ieval w s0 b))]) (sb s0) (sg s0) (sgb s0))
    | SAssignDiv i op a b =>
        if ieval w s0 b =? 0 then Some ([], OFault FDivZero, s0)
        else if (i <? length (si s0))%nat
             then Some ([], ONormal, mkstore (upd i (swrap w (arith_sem op (ieval w s0 a) (ieval w s0 b))) (si s0)) (sb s0) (sg s0) (sgb s0))
             else None
    | SCall dst g args =>
        match icall f (d - frame_top w s0) g (map (ieval w s0) args) (gs_of s0) with
        | Some (e, CRet v G') =>
            match dst, v with
            | DNone, _ => Some (e, ONormal, with_g s0 G')
            | DDecl, Some x => Some (e, ONormal, mkstore (si s0 ++ [x]) (sb s0) (fst G') (snd G'))
            | DAssign i, Some x => if (i <? length (si s0))%nat then Some (e, ONormal, mkstore (upd i x (si s0)) (sb s0) (fst G') (snd G')) else None
            | DAssignG k, Some x => if (k <? length (fst G'))%nat then Some (e, ONormal, set_g (with_g s0 G') k x) else None
            | _, None => None
            end
        | Some (e, CFault ft) => Some (e, OFault ft, s0)
        | None => None
        end
    | SAssignG k o => if (k <? length (sg s0))%nat then Some ([], ONormal, set_g s0 k (ieval w s0 o)) else None
    | SAssignGDiv k op a b =>
        if ieval w s0 b =? 0 then Some ([], OFault FDivZero, s0)
        else if (k <? length (sg s0))%nat
             then Some ([], ONormal, set_g s0 k (swrap w (arith_sem op (ieval w s0 a) (ieval w s0 b))))
             else None
    | SAssignBG k e => if (k <? length (sgb s0))%nat then Some ([], ONormal, set_gb s0 k (b2z (bevals w s0 e))) else None
    | SReturn None => Some ([], OReturn None, s0)
    | SReturn (Some o) => Some ([], OReturn (Some (ieval w s0 o)), s0)
    end
  end
with istmts (fuel : nat) (d : Z) (ss : stmts) (s0 : store) : option (list Z * outcome * store) :=
  match fuel with
  | O => None
  | S f =>
    match ss with
    | SNil => Some ([], ONormal, s0)
    | SCons s r =>
        match istmt f d s s0 with
        | Some (e1, ONormal, s1) =>
            match istmts f d r s1 with
            | Some (e2, out, s2) => Some (e1 ++ e2, out, s2)
            | None => None
            end
        | Some (e1, out, s1) => Some (e1, out, s1)
        | None => None
        end
    end
  end
with icall (fuel : nat) (d : Z) (g : nat) (vs : list Z) (G : gstore) : option (list Z * cres) :=
  match fuel with
  | O => None
  | S f =>
    match nth_error funs g with
    | None => None
    | Some fd =>
        if d <? fun_need w fd then Some ([], CFault FStackOverflow)
        else match istmts f d (fn_body fd) (mkstore vs [] (fst G) (snd G)) with
             | Some (e, OReturn v, s1) => Some (e, CRet v (gs_of s1))
             | Some (e, OFault ft, _) => Some (e, CFault ft)
             | _ => None
             end
    end
  end.

Lemma outcome_normal_dec (out : outcome) : {out = ONormal} + {out <> ONormal}.
Proof. destruct out; [left; reflexivity | right; discriminate ..]. Qed.
Lemma interp_run fuel :
  (forall d s s0, match istmt fuel d s s0 with Some (e, out, s1) => exec w funs d s s0 e out s1 | None => True end) /\
  (forall d ss s0, match istmts fuel d ss s0 with Some (e, out, s1) => execs w funs d ss s0 e out s1 | None => True end) /\
  (forall d g vs G, match icall fuel d g vs G with Some (e, res) => callf w funs d g vs G e res | None => True end).
Proof.
  induction fuel as [|f [IHs [IHss IHc]]]; [split; [|split]; intros; exact I|]. split; [|split].
  - intros d s s0.
    destruct s as [o|i o|b|j b|x| |ln o|ln b|c t1 t2|c b k|ss| | |op a b|i op a b|dst g args|r|k o|k op a b|k b]; cbn [istmt].
    + constructor.
    + destruct (Nat.ltb_spec i (length (si s0))); [constructor; assumption | exact I].
    + constructor.
    + destruct (Nat.ltb_spec j (length (sb s0))); [constructor; assumption | exact I].
    + constructor.
    + constructor.
    + constructor.
    + constructor.
    + pose proof (IHss d (if bevals w s0 c then t1 else t2) s0) as X.
      destruct (istmts f d (if bevals w s0 c then t1 else t2) s0) as [[[e' out'] s']|]; [constructor; exact X | exact I].
    + destruct (bevals w s0 c) eqn:Ec; [|apply X_while_false; exact Ec].
      pose proof (IHss d b s0) as Xb. destruct (istmts f d b s0) as [[[e1 out1] s1']|]; [|exact I].
      destruct out1; [|eapply X_while_break; eassumption| |eapply X_while_leave; [eassumption.. | exact I] ..].
      (* the body completed or continued: the continuation, then the loop again *)
      all: pose proof (IHss d k (trunc s0 s1')) as Xk; destruct (istmts f d k (trunc s0 s1')) as [[[e2 out2] s2]|]; [|exact I].
      all: destruct (outcome_normal_dec out2) as [-> | N2]; [|destruct out2; try contradiction; eapply X_while_cont_exit; eauto].
      all: pose proof (IHs d (SWhile c b k) (trunc s0 s2)) as Xw; destruct (istmt f d (SWhile c b k) (trunc s0 s2)) as [[[e3 out3] s3]|]; [|exact I].
      all: eapply X_while_next; eauto.
    + pose proof (IHss d ss s0) as X. destruct (istmts f d ss s0) as [[[e' out'] s']|]; [constructor; exact X | exact I].
    + constructor.
    + constructor.
    + destruct (Z.eqb_spec (ieval w s0 b) 0); constructor; assumption.
    + destruct (Z.eqb_spec (ieval w s0 b) 0); [constructor; assumption|].
      destruct (Nat.ltb_spec i (length (si s0))); [constructor; assumption | exact I].
    + pose proof (IHc (d - frame_top w s0) g (map (ieval w s0) args) (gs_of s0)) as X.
      destruct (icall f (d - frame_top w s0) g (map (ieval w s0) args) (gs_of s0)) as [[e' [v G'|ft]]|]; [|eapply X_call_fault; exact X | exact I].
      destruct dst as [| |i|k].
      * eapply X_call; [exact X | reflexivity].
      * destruct v as [x|]; [|exact I]. eapply X_call; [exact X | exists x; auto].
      * destruct v as [x|]; [|exact I]. destruct (Nat.ltb_spec i (length (si s0))) as [Hi|]; [|exact I].
        eapply X_call; [exact X | exists x; auto].
      * destruct v as [x|]; [|exact I]. destruct (Nat.ltb_spec k (length (fst G'))) as [Hk|]; [|exact I].
        eapply X_call; [exact X | exists x; auto].
    + destruct r; constructor.
    + destruct (Nat.ltb_spec k (length (sg s0))); [constructor; assumption | exact I].
    + destruct (Z.eqb_spec (ieval w s0 b) 0); [constructor; assumption|].
      destruct (Nat.ltb_spec k (length (sg s0))); [constructor; assumption | exact I].
    + destruct (Nat.ltb_spec k (length (sgb s0))); [constructor; assumption | exact I].
  - intros d ss s0. destruct ss as [|s r]; cbn [istmts]; [constructor|].
    pose proof (IHs d s s0) as X1. destruct (istmt f d s s0) as [[[e1 out1] s1']|]; [|exact I].
    destruct (outcome_normal_dec out1) as [-> | N1].
    + pose proof (IHss d r s1') as X2. destruct (istmts f d r s1') as [[[e2 out2] s2]|]; [|exact I]. eapply XS_cons; eassumption.
    + destruct out1; try contradiction; apply XS_exit; assumption.
  - intros d g vs G. cbn [icall]. destruct (nth_error funs g) as [fd|] eqn:Eg; [|exact I].
    destruct (Z.ltb_spec d (fun_need w fd)) as [Lt|Ge]; [eapply CF_overflow; eassumption|].
    pose proof (IHss d (fn_body fd) (mkstore vs [] (fst G) (snd G))) as X.
    destruct (istmts f d (fn_body fd) (mkstore vs [] (fst G) (snd G))) as [[[e' out'] s']|]; [|exact I].
    destruct out'; try exact I; [eapply CF_return | eapply CF_fault]; eassumption.
Qed.
Theorem interp_sound fuel :
  (forall d s s0 e out s1, istmt fuel d s s0 = Some (e, out, s1) -> exec w funs d s s0 e out s1) /\
  (forall d ss s0 e out s1, istmts fuel d ss s0 = Some (e, out, s1) -> execs w funs d ss s0 e out s1) /\
  (forall d g vs G e res, icall fuel d g vs G = Some (e, res) -> callf w funs d g vs G e res).
Proof.
  destruct (interp_run fuel) as [Hs [Hss Hc]]. split; [|split].
  - intros d s s0 e out s1 H. specialize (Hs d s s0). rewrite H in Hs. exact Hs.
  - intros d ss s0 e out s1 H. specialize (Hss d ss s0). rewrite H in Hss. exact Hss.
  - intros d g vs G e res H. specialize (Hc d g vs G). rewrite H in Hc. exact Hc.
Qed.
End Interp.

(* the static side conditions of the theorems, executable (soundness: LowerStmtProofs.scoped_b_ok, checked_callable) *)
Section CheckDefs.
Variable w : Z.
Variable ng : nat.                 (* the number of int globals *)
Variable nbg : nat.                (* the number of bool globals *)
Variable cfb : nat -> nat -> bool.  (* cfb f n: function f may be called with n arguments (cf_b below) *)
Fixpoint oscoped_b (ni nb : nat) (o : iopd) : bool :=
  match o with
  | OLit ch z => (- (Machine.W w / 2) <=? z) && (z <? Machine.W w / 2) && (negb ch || ((0 <=? z) && (z <=? 255)))
  | OVar i => (i <? ni)%nat
  | OArith op x y => match op with SAdd | SSub | SMul => true | _ => false end && oscoped_b ni nb x && oscoped_b ni nb y
  | OUn _ x => oscoped_b ni nb x
  | OGlob g => (g <? ng)%nat
  | OTrunc x => oscoped_b ni nb x && match x with OGlob _ | OArith _ _ _ | OUn _ _ => true | _ => false end
  | OByte (YSlot j) => (j <? nb)%nat
  | OByte (YLow i) => (i <? ni)%nat
  end.
Definition not_trunc_b (o : iopd) : bool := match o with OTrunc _ => false | _ => true end.
Fixpoint bscoped_b (ni nb : nat) (e : bexpr) : bool :=
  match e with
  | BLit _ => true
  | BVar (BLocal j) => (j <? nb)%nat
  | BVar (BGlobal h) => (h <? nbg)%nat
  | BCmp _ a b => oscoped_b ni nb a && oscoped_b ni nb b
  | BNot e1 => bscoped_b ni nb e1
  | BAnd e1 e2 | BOr e1 e2 => bscoped_b ni nb e1 && bscoped_b ni nb e2
  end.
Definition divop_b (op : src_arith) : bool := match op with SDiv | SMod => true | _ => false end.
Fixpoint sscoped_b (ni nb : nat) (inloop : bool) (s : stmt) : bool :=
  match s with
  | SDeclI o => oscoped_b ni nb o && not_trunc_b o
  | SAssignI i o => (i <? ni)%nat && oscoped_b ni nb o
  | SDeclB e => bscoped_b ni nb e
  | SAssignB j e => (j <? nb)%nat && bscoped_b ni nb e
  | SWrite (WrByte o) => oscoped_b ni nb o
  | SWrite _ | SWriteln => true
  | SWriteI _ o => oscoped_b ni nb o && not_trunc_b o
  | SWriteB _ e => bscoped_b ni nb e
  | SIf c s1 s2 => bscoped_b ni nb c && ssscoped_b ni nb inloop s1 && ssscoped_b ni nb inloop s2
  | SWhile c b k => bscoped_b ni nb c && ssscoped_b ni nb true b && ssscoped_b ni nb inloop k
  | SBlock ss => ssscoped_b ni nb inloop ss
  | SBreak | SContinue => inloop
  | SDeclDiv op a b => divop_b op && oscoped_b ni nb a && oscoped_b ni nb b
  | SAssignDiv i op a b => (i <? ni)%nat && divop_b op && oscoped_b ni nb a && oscoped_b ni nb b
  | SCall dst f args =>
      match dst with DAssign i => (i <? ni)%nat | DAssignG g => (g <? ng)%nat | _ => true end && cfb f (length args) && forallb (oscoped_b ni nb) args && forallb not_trunc_b args
  | SReturn (Some o) => oscoped_b ni nb o
  | SReturn None => true
  | SAssignG g o => (g <? ng)%nat && oscoped_b ni nb o
  | SAssignGDiv g op a b => (g <? ng)%nat && divop_b op && oscoped_b ni nb a && oscoped_b ni nb b
  | SAssignBG h e => (h <? nbg)%nat && bscoped_b ni nb e
  end
with ssscoped_b (ni nb : nat) (inloop : bool) (ss : stmts) : bool :=
  match ss with
  | SNil => true
  | SCons s r =>
      sscoped_b ni nb inloop s &&
      match s with
      | SDeclI _ | SDeclDiv _ _ _ | SCall DDecl _ _ => ssscoped_b (S ni) nb inloop r
      | SDeclB _ => ssscoped_b ni (S nb) inloop r
      | _ => ssscoped_b ni nb inloop r
      end
  end.

End CheckDefs.
Definition cf_b (funs : list fundef) (ord : list nat) (f n : nat) : bool :=
  existsb (Nat.eqb f) ord && match nth_error funs f with Some fd => Nat.eqb (fn_params fd) n | None => false end.
Definition fun_ok_b (w : Z) (ng nbg : nat) (funs : list fundef) (ord : list nat) (f : nat) : bool :=
  match nth_error funs f with
  | Some fd => (0 <=? fun_need w fd) && (fun_need w fd <? Machine.W w / 2) &&
               ssscoped_b w ng nbg (cf_b funs ord) (fn_params fd) 0 false (fn_body fd)
  | None => false
  end.
Definition prog_ok_b (w : Z) (ng nbg : nat) (funs : list fundef) (nargs : nat) : bool :=
  let ord := program_order funs in
  match ord with 0%nat :: _ => true | _ => false end &&
  forallb (fun_ok_b w ng nbg funs ord) ord && cf_b funs ord 0 nargs.

(* all hypotheses of the program theorem that concern the program, the stack size and the number
   of arguments, as one boolean (used by the correspondence to select the runs the theorem covers).
   stack + nargs + 6 words is the state section hidc emits up to stack_end: ap, fp, r0, r1, r2, the
   stack, the entry arguments, the return address of the entry point *)
Definition run_ok_b (w : Z) (ng nbg : nat) (funs : list fundef) (stack : Z) (nargs : nat) : bool :=
  prog_ok_b w ng nbg funs nargs && (0 <=? stack) &&
  (size (lower_program w funs) + GenStdlib.stdlib_len <=? Machine.W w) &&
  ((stack + Z.of_nat nargs + 6) * w <? Machine.W w / 2).

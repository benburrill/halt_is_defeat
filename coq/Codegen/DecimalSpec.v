(* SPECIFICATION of signed decimal printing, independent of any routine: `decimal v` is the list
   of ASCII codes of v in base ten - a '-' for negative numbers, then the digits most significant
   first, "0" for zero, no padding.  The sanity theorems say what it computes: the digits are
   '0'..'9', they denote |v| (Horner), there is no leading '0' except for the number 0 itself, and
   the sign is there exactly for v < 0.  `ndigits`, with its bounds, is the length that the printing
   routine's buffer is measured against. *)
From Coq Require Import ZArith List Lia.
Import ListNotations.
Open Scope Z_scope.
(* lia is to know n / 10 and n mod 10 by their equations; the setting reaches every importer *)
Ltac Zify.zify_post_hook ::= Z.to_euclidean_division_equations.

(* digits of n >= 0; fuel bounds the number of digits; [] only when the fuel runs out, which
   `udec` excludes by construction (udec_step below is fuel-free) *)
Fixpoint udigits (fuel : nat) (n : Z) : list Z :=
  match fuel with
  | O => []
  | S f => if n <? 10 then [48 + n] else udigits f (n / 10) ++ [48 + n mod 10]
  end.
Definition dfuel (n : Z) : nat := S (Z.to_nat (Z.log2 n)).
Definition udec (n : Z) : list Z := udigits (dfuel n) n.
Definition decimal (v : Z) : list Z := if v <? 0 then 45 :: udec (- v) else udec v.

Lemma pow2_S f : 2 ^ Z.of_nat (S f) = 2 * 2 ^ Z.of_nat f.
Proof. rewrite Nat2Z.inj_succ. apply Z.pow_succ_r. lia. Qed.

Lemma udigits_fuel : forall f1 f2 n, 0 <= n < 2 ^ Z.of_nat (S f1) -> n < 2 ^ Z.of_nat (S f2) ->
  udigits (S f1) n = udigits (S f2) n.
Proof.
  induction f1 as [|f1 IH]; intros f2 n H1 H2; cbn [udigits]; destruct (Z.ltb_spec n 10) as [Hlt|Hge]; try reflexivity.
  - change (2 ^ Z.of_nat 1) with 2 in H1. lia.
  - destruct f2 as [|f2]; [change (2 ^ Z.of_nat 1) with 2 in H2; lia|].
    rewrite (pow2_S (S f1)) in H1. rewrite (pow2_S (S f2)) in H2.
    f_equal. apply IH; lia.
Qed.
Lemma dfuel_ok n : 0 <= n -> n < 2 ^ Z.of_nat (dfuel n).
Proof.
  intros Hn. unfold dfuel. rewrite Nat2Z.inj_succ, Z2Nat.id by apply Z.log2_nonneg.
  destruct (Z.eq_dec n 0) as [->|Hnz]; [reflexivity|]. apply Z.log2_spec. lia.
Qed.

Lemma udec_small n : 0 <= n < 10 -> udec n = [48 + n].
Proof. intros H. unfold udec, dfuel. cbn [udigits]. destruct (Z.ltb_spec n 10); [reflexivity | lia]. Qed.
Lemma udec_step n : 10 <= n -> udec n = udec (n / 10) ++ [48 + n mod 10].
Proof.
  intros H. unfold udec at 1. unfold dfuel at 1. cbn [udigits]. destruct (Z.ltb_spec n 10); [lia|].
  f_equal. pose proof (dfuel_ok n ltac:(lia)) as Hf. unfold dfuel in Hf.
  destruct (Z.to_nat (Z.log2 n)) as [|f] eqn:Ef.
  - change (2 ^ Z.of_nat 1) with 2 in Hf. lia.
  - unfold udec, dfuel. rewrite (pow2_S (S f)) in Hf.
    apply udigits_fuel; [lia|]. apply (dfuel_ok (n / 10)). lia.
Qed.

(* ... in one, on n = 10 q + d: the digits of the quotient, if it is not zero, then the last digit *)
Lemma udec_snoc q d : 0 <= q -> 0 <= d < 10 -> udec (10 * q + d) = (if q =? 0 then [] else udec q) ++ [48 + d].
Proof.
  intros Hq Hd. assert (E : (10 * q + d) / 10 = q /\ (10 * q + d) mod 10 = d) by lia.
  destruct (Z.eqb_spec q 0) as [->|Nz].
  - now rewrite udec_small by lia.
  - rewrite udec_step by lia. now destruct E as [-> ->].
Qed.

Lemma udec_ind (P : Z -> Prop) :
  (forall n, 0 <= n < 10 -> P n) -> (forall n, 10 <= n -> P (n / 10) -> P n) -> forall n, 0 <= n -> P n.
Proof.
  intros Hs Hb n Hn. pattern n. apply Zlt_0_ind; [|exact Hn]. clear n Hn. intros n IH Hn.
  destruct (Z_lt_le_dec n 10); [apply Hs; lia | apply Hb; [lia | apply IH; lia]].
Qed.

Definition dval (l : list Z) : Z := fold_left (fun a d => 10 * a + (d - 48)) l 0.
Lemma dval_snoc l d : dval (l ++ [d]) = 10 * dval l + (d - 48).
Proof. unfold dval. rewrite fold_left_app. reflexivity. Qed.

Theorem udec_value n : 0 <= n -> dval (udec n) = n.
Proof.
  intros Hn. pattern n. apply udec_ind; [| |exact Hn]; clear n Hn.
  - intros n H. rewrite udec_small by exact H. unfold dval. cbn [fold_left]. lia.
  - intros n H IH. rewrite (udec_step n H), dval_snoc, IH. lia.
Qed.
Theorem udec_digits n : 0 <= n -> Forall (fun d => 48 <= d <= 57) (udec n).
Proof.
  intros Hn. pattern n. apply udec_ind; [| |exact Hn]; clear n Hn.
  - intros n H. rewrite udec_small by exact H. constructor; [lia | constructor].
  - intros n H IH. rewrite (udec_step n H). apply Forall_app; split; [exact IH|]. constructor; [lia | constructor].
Qed.
Theorem udec_nonempty n : 0 <= n -> udec n <> [].
Proof.
  intros Hn. destruct (Z_lt_le_dec n 10).
  - rewrite udec_small by lia. discriminate.
  - rewrite udec_step by lia. intro E. apply app_eq_nil in E. destruct E; discriminate.
Qed.
Theorem udec_no_leading_zero n : 0 < n -> hd 0 (udec n) <> 48.
Proof.
  intros Hn. assert (H0 : 0 <= n) by lia. revert Hn. pattern n. apply udec_ind; [| |exact H0]; clear n H0.
  - intros n H Hp. rewrite udec_small by exact H. cbn [hd]. lia.
  - intros n H IH _. rewrite (udec_step n H).
    pose proof (udec_nonempty (n / 10) ltac:(lia)) as Hne.
    destruct (udec (n / 10)) as [|d l] eqn:E; [congruence|]. cbn [app hd] in *. apply IH. lia.
Qed.
Theorem decimal_zero : decimal 0 = [48].
Proof. reflexivity. Qed.
Theorem decimal_nonneg v : 0 <= v -> decimal v = udec v.
Proof. intros H. unfold decimal. destruct (Z.ltb_spec v 0); [lia | reflexivity]. Qed.
Theorem decimal_neg v : v < 0 -> decimal v = 45 :: udec (- v).
Proof. intros H. unfold decimal. destruct (Z.ltb_spec v 0); [reflexivity | lia]. Qed.

Definition ndigits (n : Z) : Z := Z.of_nat (length (udec n)).
Lemma ndigits_small n : 0 <= n < 10 -> ndigits n = 1.
Proof. intros H. unfold ndigits. rewrite udec_small by exact H. reflexivity. Qed.
Lemma ndigits_step n : 10 <= n -> ndigits n = ndigits (n / 10) + 1.
Proof. intros H. unfold ndigits. rewrite udec_step by exact H. rewrite app_length. cbn [length]. lia. Qed.
Lemma ndigits_snoc q d : 0 <= q -> 0 <= d < 10 -> ndigits (10 * q + d) = (if q =? 0 then 0 else ndigits q) + 1.
Proof. intros Hq Hd. unfold ndigits. rewrite (udec_snoc q d Hq Hd), app_length. destruct (q =? 0); cbn [length]; lia. Qed.
Lemma ndigits_pos n : 0 <= n -> 1 <= ndigits n.
Proof.
  intros H. destruct (Z_lt_le_dec n 10); [rewrite ndigits_small; lia|].
  rewrite ndigits_step by lia. unfold ndigits. lia.
Qed.
Lemma ndigits_ge k : forall n, 0 <= k -> 10 ^ k <= n -> k + 1 <= ndigits n.
Proof.
  intros n Hk. revert n. pattern k. apply natlike_ind; [| |exact Hk]; clear k Hk.
  - intros n Hn. change (10 ^ 0) with 1 in Hn. pose proof (ndigits_pos n ltac:(lia)). lia.
  - intros k Hk IH n Hn. rewrite Z.pow_succ_r in Hn by exact Hk.
    assert (0 < 10 ^ k) by (apply Z.pow_pos_nonneg; lia).
    rewrite ndigits_step by lia. pose proof (IH (n / 10) ltac:(lia)). lia.
Qed.

Lemma ndigits_mono n : 0 <= n -> forall n', n <= n' -> ndigits n <= ndigits n'.
Proof.
  intros Hn. pattern n. apply udec_ind; [| |exact Hn]; clear n Hn.
  - intros n H n' Hle. rewrite (ndigits_small n H). apply ndigits_pos. lia.
  - intros n H IH n' Hle. rewrite (ndigits_step n H), (ndigits_step n') by lia.
    pose proof (IH (n' / 10) ltac:(lia)). lia.
Qed.

Example decimal_examples :
  decimal 0 = [48] /\ decimal 7 = [55] /\ decimal 1234 = [49;50;51;52] /\ decimal (-5) = [45;53] /\
  decimal (-32768) = [45;51;50;55;54;56] /\ decimal 32767 = [51;50;55;54;55] /\
  decimal (-9223372036854775808) = [45;57;50;50;51;51;55;50;48;51;54;56;53;52;55;55;53;56;48;56].
Proof. vm_compute. repeat split. Qed.

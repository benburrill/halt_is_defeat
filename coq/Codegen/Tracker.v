(* Tracker -- model of hidc/codegen/tracker.py (class Tracker) and the proof that every checkpoint
   is finalised with the FUTURE MAXIMUM of the static frame sizes of its block (property C04,
   item 1 of DESIGN.md "### C04").

   The Python object
       max_vals : sorted list of ints                 (one entry per live checkpoint)
       levels   : deque of deques of (idx, DynamicValue)   (last = innermost block)
   is modelled by `tracker`.  REPRESENTATION: `levels` is kept NEWEST FIRST at both layers: the
   head of `levels t` is Python's `self.levels[-1]`, and the head of a level is the entry that was
   appended last.  Python's `reversed(level)` is therefore "walk the model list from its head",
   and walking without `reversed` is `rev`.  DynamicValue objects are represented by ids; the id
   of a checkpoint is the POSITION of its `add` in the operation sequence.

   The choices that tools/regen_tracker.py reads from the source (Gen/GenTracker.v) are the
   parameters `choices` of the model:
       c_add    which bisect variant `add` uses for the insertion index
       c_update which bisect variant `update` uses for the length of the overwritten prefix
       c_rev    whether `pop_level` walks the popped level in reversed order
   `bisect` is the linear-scan partition point; it agrees with Python's binary search on sorted
   lists, and `max_vals` is always StronglySorted Z.le (theorem `max_vals_sorted`, for every choice).

   MAIN RESULTS (no axioms; all operation sequences, by induction)
     max_vals_sorted          max_vals stays sorted, for every choice
     levels_never_empty       `self.levels[-1]` / `self.levels.pop()` never fail
     run_refines_spec         with c_rev = true the finalisations are those of the reference
                              model in which every live checkpoint carries its own running max
     pop_indices_in_range     with c_rev = true, `max_vals.pop(idx)` never raises IndexError
     finalized_is_future_max  (i, x) is finalised  <->  op i is `Add v`, its level is popped
                              at position j, and x = max (v, updates strictly between i and j)
     finalized_once           every checkpoint is finalised at most once
     guard_dominates          the finalised value dominates its own value and every update
                              in the rest of its block
     no_reverse_refuted       with c_rev = false the property fails (concrete witness)
   The theorems hold for BOTH bisect variants in `add` and in `update` (see the comment before
   `overwrite_is_max`): swapping bisect_left/bisect_right there changes Gen/GenTracker.v but
   yields a tracker that finalises exactly the same values. *)
From Coq Require Import ZArith List Bool Lia Sorted.
From HidV Require Import GenTracker.
Import ListNotations.

Definition id := nat.

Record choices := mkChoices { c_add : bisect_kind; c_update : bisect_kind; c_rev : bool }.

(* the choices the source makes NOW (regenerated) *)
Definition gen_choices : choices := mkChoices add_bisect update_bisect pop_reversed.

Definition before (k : bisect_kind) (x v : Z) : bool :=
  match k with BisectLeft => (x <? v)%Z | BisectRight => (x <=? v)%Z end.

(* bisect.bisect_left / bisect.bisect_right on a sorted list *)
Fixpoint bisect (k : bisect_kind) (l : list Z) (v : Z) : nat :=
  match l with
  | [] => 0
  | x :: r => if before k x v then S (bisect k r v) else 0
  end.

(* list.insert(n, x) *)
Fixpoint insert_at (n : nat) (x : Z) (l : list Z) : list Z :=
  match n, l with
  | 0, _ => x :: l
  | S n', y :: r => y :: insert_at n' x r
  | S _, [] => [x]
  end.

(* list.pop(n): the list part (the value is `nth n l 0`; out of range is excluded by
   `pop_indices_in_range`) *)
Fixpoint remove_at (n : nat) (l : list Z) {struct l} : list Z :=
  match l, n with
  | [], _ => []
  | _ :: r, 0 => r
  | y :: r, S n' => y :: remove_at n' r
  end.

(* l[:n] = repeat(v, n) *)
Definition overwrite_prefix (n : nat) (v : Z) (l : list Z) : list Z := repeat v n ++ skipn n l.

Record tracker := mkTracker { max_vals : list Z; levels : list (list (nat * id)) }.

Definition init : tracker :=
  mkTracker initial_max_vals (repeat [] initial_level_count).

Inductive op := Add (v : Z) | Update (v : Z) | Push | Pop.

(* Tracker.add; `i` is the id of the new DynamicValue.  (levels = [] is unreachable:
   levels_never_empty; Python would raise IndexError there.) *)
Definition add (ch : choices) (i : id) (v : Z) (t : tracker) : tracker :=
  let idx := bisect (c_add ch) (max_vals t) v in
  mkTracker (insert_at idx v (max_vals t))
            (match levels t with
             | [] => [[(idx, i)]]
             | top :: rest => ((idx, i) :: top) :: rest
             end).

(* Tracker.update *)
Definition update (ch : choices) (v : Z) (t : tracker) : tracker :=
  mkTracker (overwrite_prefix (bisect (c_update ch) (max_vals t) v) v (max_vals t)) (levels t).

(* Tracker.push_level *)
Definition push_level (t : tracker) : tracker := mkTracker (max_vals t) ([] :: levels t).

(* the loop of pop_level: for idx, dyn_val in <order>: dyn_val.finalize(self.max_vals.pop(idx)) *)
Fixpoint pop_entries (es : list (nat * id)) (mv : list Z) : list Z * list (id * Z) :=
  match es with
  | [] => (mv, [])
  | (idx, i) :: r =>
      let (mv', f) := pop_entries r (remove_at idx mv) in
      (mv', (i, nth idx mv 0%Z) :: f)
  end.

(* does every `max_vals.pop(idx)` of that loop find its index in range? *)
Fixpoint pops_ok (es : list (nat * id)) (mv : list Z) : bool :=
  match es with
  | [] => true
  | (idx, _) :: r => (idx <? length mv) && pops_ok r (remove_at idx mv)
  end.

Definition pop_order (ch : choices) (top : list (nat * id)) : list (nat * id) :=
  if c_rev ch then top else rev top.

(* Tracker.pop_level, with the list of finalisations (id, value) in the order they happen *)
Definition pop_level (ch : choices) (t : tracker) : tracker * list (id * Z) :=
  match levels t with
  | [] => (mkTracker (max_vals t) [[]], [])
  | top :: rest =>
      let (mv, f) := pop_entries (pop_order ch top) (max_vals t) in
      (mkTracker mv (match rest with [] => [[]] | _ => rest end), f)
  end.

Definition step (ch : choices) (pos : nat) (o : op) (t : tracker) : tracker * list (id * Z) :=
  match o with
  | Add v => (add ch pos v t, [])
  | Update v => (update ch v t, [])
  | Push => (push_level t, [])
  | Pop => pop_level ch t
  end.

Definition step_ok (ch : choices) (o : op) (t : tracker) : bool :=
  match o with
  | Pop => match levels t with [] => true | top :: _ => pops_ok (pop_order ch top) (max_vals t) end
  | _ => true
  end.

Fixpoint run_from (ch : choices) (pos : nat) (ops : list op) (t : tracker)
  : tracker * list (id * Z) :=
  match ops with
  | [] => (t, [])
  | o :: r =>
      let (t1, f1) := step ch pos o t in
      let (t2, f2) := run_from ch (S pos) r t1 in
      (t2, f1 ++ f2)
  end.

Fixpoint run_ok_from (ch : choices) (pos : nat) (ops : list op) (t : tracker) : bool :=
  match ops with
  | [] => true
  | o :: r => step_ok ch o t && run_ok_from ch (S pos) r (fst (step ch pos o t))
  end.

(* run: the whole life of a Tracker; finalisations in order, ids = positions of the adds *)
Definition run (ch : choices) (ops : list op) : tracker * list (id * Z) := run_from ch 0 ops init.
Definition run_ok (ch : choices) (ops : list op) : bool := run_ok_from ch 0 ops init.

(* The specification, read off the operation sequence alone. *)
(* offset of the Pop that closes relative depth d *)
Fixpoint close_from (ops : list op) (d : nat) : option nat :=
  match ops with
  | [] => None
  | Pop :: r => match d with 0 => Some 0 | S d' => option_map S (close_from r d') end
  | Push :: r => option_map S (close_from r (S d))
  | _ :: r => option_map S (close_from r d)
  end.

(* position of the pop_level that pops the level the op at position i was executed in *)
Definition matching_pop (ops : list op) (i : nat) : option nat :=
  option_map (fun n => S i + n) (close_from (skipn (S i) ops) 0).

Fixpoint updates (ops : list op) : list Z :=
  match ops with
  | [] => []
  | Update u :: r => u :: updates r
  | _ :: r => updates r
  end.

(* the arguments of the `update`s at positions k with i < k < j *)
Definition updates_between (ops : list op) (i j : nat) : list Z :=
  updates (firstn (j - S i) (skipn (S i) ops)).

Definition max_with (v : Z) (l : list Z) : Z := fold_left Z.max l v.

(* one-pass form of the same thing, used in the proofs *)
Fixpoint future_max_from (ops : list op) (d : nat) (acc : Z) : option Z :=
  match ops with
  | [] => None
  | Update u :: r => future_max_from r d (Z.max acc u)
  | Add _ :: r => future_max_from r d acc
  | Push :: r => future_max_from r (S d) acc
  | Pop :: r => match d with 0 => Some acc | S d' => future_max_from r d' acc end
  end.

Lemma before_true_le : forall k x v, before k x v = true -> (x <= v)%Z.
Proof. intros [] x v H; simpl in H; [apply Z.ltb_lt in H | apply Z.leb_le in H]; lia. Qed.

Lemma before_false_le : forall k x v, before k x v = false -> (v <= x)%Z.
Proof. intros [] x v H; simpl in H; [apply Z.ltb_ge in H | apply Z.leb_gt in H]; lia. Qed.

Lemma bisect_le_length : forall k l v, bisect k l v <= length l.
Proof.
  induction l as [|x r IH]; intros v; simpl; [lia|].
  destruct (before k x v); [specialize (IH v)|]; lia.
Qed.

Lemma Forall_insert_at : forall (P : Z -> Prop) n x l,
  P x -> Forall P l -> Forall P (insert_at n x l).
Proof.
  induction n as [|n IH]; intros x l Hx Hl; destruct Hl; simpl; auto.
Qed.

Lemma Forall_remove_at : forall (P : Z -> Prop) l n, Forall P l -> Forall P (remove_at n l).
Proof.
  induction l as [|y r IH]; intros n H; simpl; [constructor|].
  inversion H; subst. destruct n; [assumption | constructor; auto].
Qed.

Lemma sorted_insert_bisect : forall k l v, StronglySorted Z.le l -> StronglySorted Z.le (insert_at (bisect k l v) v l).
Proof.
  induction l as [|x r IH]; intros v Hs; simpl; [repeat constructor|].
  apply StronglySorted_inv in Hs as [Hr Hx]. destruct (before k x v) eqn:E; simpl.
  - constructor; [apply IH; exact Hr|].
    apply Forall_insert_at; [exact (before_true_le _ _ _ E) | exact Hx].
  - apply before_false_le in E. repeat constructor; try assumption.
    eapply Forall_impl; [|exact Hx]. simpl; intros; lia.
Qed.

Lemma sorted_remove_at : forall l n, StronglySorted Z.le l -> StronglySorted Z.le (remove_at n l).
Proof.
  induction l as [|y r IH]; intros n H; simpl; [constructor|].
  apply StronglySorted_inv in H as [Hr Hy]. destruct n; [exact Hr|].
  constructor; [apply IH; exact Hr | apply Forall_remove_at; exact Hy].
Qed.

(* WHY BOTH BISECT VARIANTS OF `update` ARE RIGHT: on a sorted list the entries < v (bisect_left)
   form a prefix, and so do the entries <= v (bisect_right); overwriting either prefix with v
   raises exactly the entries below v to v (entries equal to v are overwritten by themselves).
   So `update v` is `map (max v)`. *)
Lemma map_max_id : forall u l, Forall (fun y => (u <= y)%Z) l -> map (fun y => Z.max y u) l = l.
Proof.
  induction l as [|y r IH]; intros H; simpl; [reflexivity|].
  inversion H; subst. rewrite IH, Z.max_l by assumption. reflexivity.
Qed.

Lemma overwrite_is_max : forall k u l, StronglySorted Z.le l ->
  overwrite_prefix (bisect k l u) u l = map (fun x => Z.max x u) l.
Proof.
  induction l as [|x r IH]; intros Hs; [reflexivity|].
  apply StronglySorted_inv in Hs as [Hr Hx]. simpl. destruct (before k x u) eqn:E.
  - apply before_true_le in E. unfold overwrite_prefix in *. simpl. rewrite IH by exact Hr.
    f_equal. lia.
  - apply before_false_le in E. unfold overwrite_prefix. simpl.
    rewrite map_max_id.
    + f_equal. lia.
    + eapply Forall_impl; [|exact Hx]. simpl; intros; lia.
Qed.

Lemma sorted_map_max : forall u l, StronglySorted Z.le l -> StronglySorted Z.le (map (fun x => Z.max x u) l).
Proof.
  induction l as [|x r IH]; intros H; simpl; [constructor|].
  apply StronglySorted_inv in H as [Hr Hx]. constructor; [apply IH; exact Hr|].
  apply Forall_map. eapply Forall_impl; [|exact Hx]. simpl; intros; lia.
Qed.

Lemma pop_entries_sorted : forall es mv, StronglySorted Z.le mv -> StronglySorted Z.le (fst (pop_entries es mv)).
Proof.
  induction es as [|[idx i] r IH]; intros mv H; simpl; [exact H|].
  specialize (IH (remove_at idx mv) (sorted_remove_at mv idx H)).
  destruct (pop_entries r (remove_at idx mv)); simpl in *. exact IH.
Qed.

Lemma step_sorted : forall ch pos o t,
  StronglySorted Z.le (max_vals t) -> StronglySorted Z.le (max_vals (fst (step ch pos o t))).
Proof.
  intros ch pos [v|v| |] t H; simpl.
  - apply sorted_insert_bisect; exact H.
  - rewrite overwrite_is_max by exact H. apply sorted_map_max; exact H.
  - exact H.
  - unfold pop_level. destruct (levels t) as [|top rest]; simpl; [exact H|].
    pose proof (pop_entries_sorted (pop_order ch top) (max_vals t) H) as P.
    destruct (pop_entries (pop_order ch top) (max_vals t)); simpl in *. exact P.
Qed.

Lemma run_from_preserves (P : tracker -> Prop) ch :
  (forall pos o t, P t -> P (fst (step ch pos o t))) ->
  forall ops pos t, P t -> P (fst (run_from ch pos ops t)).
Proof.
  intros Hstep. induction ops as [|o r IH]; intros pos t H; simpl; [exact H|].
  specialize (Hstep pos o t H). destruct (step ch pos o t) as [t1 f1].
  specialize (IH (S pos) t1 Hstep). destruct (run_from ch (S pos) r t1). exact IH.
Qed.

(* for EVERY choice of bisect variants and iteration order *)
Theorem max_vals_sorted : forall ch ops,
  StronglySorted Z.le (max_vals (fst (run ch ops))).
Proof.
  intros. apply (run_from_preserves (fun t => StronglySorted Z.le (max_vals t))); [apply step_sorted | constructor].
Qed.

Lemma step_levels : forall ch pos o t, levels t <> [] -> levels (fst (step ch pos o t)) <> [].
Proof.
  intros ch pos [v|v| |] t H; simpl.
  - destruct (levels t); discriminate.
  - exact H.
  - discriminate.
  - unfold pop_level. destruct (levels t) as [|top rest]; simpl; [discriminate|].
    destruct (pop_entries (pop_order ch top) (max_vals t)); simpl.
    destruct rest; discriminate.
Qed.

Theorem levels_never_empty : forall ch ops, levels (fst (run ch ops)) <> [].
Proof.
  intros. apply (run_from_preserves (fun t => levels t <> [])); [apply step_levels | discriminate].
Qed.

(* Every live checkpoint carries its own running maximum; levels newest first, entries newest
   first.  This is the obviously-right tracker: `update u` raises every live checkpoint to at
   least u, `pop` finalises the checkpoints of the innermost level with what they carry. *)
Definition alevels := list (list (id * Z)).

Definition a_upd (u : Z) (e : id * Z) : id * Z := (fst e, Z.max (snd e) u).

Definition astep (pos : nat) (o : op) (a : alevels) : alevels * list (id * Z) :=
  match o with
  | Add v => (match a with [] => [[(pos, v)]] | top :: rest => ((pos, v) :: top) :: rest end, [])
  | Update u => (map (map (a_upd u)) a, [])
  | Push => ([] :: a, [])
  | Pop => match a with
           | [] => ([[]], [])
           | top :: rest => (match rest with [] => [[]] | _ => rest end, top)
           end
  end.

Fixpoint arun_from (pos : nat) (ops : list op) (a : alevels) : alevels * list (id * Z) :=
  match ops with
  | [] => (a, [])
  | o :: r =>
      let (a1, f1) := astep pos o a in
      let (a2, f2) := arun_from (S pos) r a1 in
      (a2, f1 ++ f2)
  end.

Definition ainit : alevels := [[]].
Definition arun (ops : list op) : alevels * list (id * Z) := arun_from 0 ops ainit.

(* WHY THE RECORDED INDICES STAY VALID.  Read the live checkpoints as a STACK, newest first
   (`concat` of the ghost levels below).  max_vals is obtained by inserting the checkpoints'
   current values, oldest first, each at its recorded index (`build`).  `add` pushes on that
   stack; `pop_level` (reversed order, innermost level) pops from it, so when a checkpoint is
   popped everything inserted after it has already been removed and the list is exactly
   "its value inserted at its index into the list that was there at add time" -- `pop(idx)`
   returns its slot.  `update` changes values but never positions, and commutes with `build`. *)
Definition gentry := (nat * id * Z)%type.
Definition g_idx (e : gentry) : nat := fst (fst e).
Definition g_id (e : gentry) : id := snd (fst e).
Definition g_val (e : gentry) : Z := snd e.
Definition g_out (e : gentry) : id * Z := (g_id e, g_val e).
Definition g_upd (u : Z) (e : gentry) : gentry := (fst e, Z.max (snd e) u).

Fixpoint build (s : list gentry) : list Z :=
  match s with
  | [] => []
  | e :: r => insert_at (g_idx e) (g_val e) (build r)
  end.

Fixpoint wf (s : list gentry) : Prop :=
  match s with
  | [] => True
  | e :: r => g_idx e <= length (build r) /\ wf r
  end.

Lemma insert_at_length : forall n x l, length (insert_at n x l) = S (length l).
Proof.
  induction n as [|n IH]; intros x l; destruct l; simpl; auto.
Qed.

Lemma nth_insert_at : forall n x l d, n <= length l -> nth n (insert_at n x l) d = x.
Proof.
  induction n as [|n IH]; intros x l d H; destruct l; simpl in *; auto; try lia.
  apply IH. lia.
Qed.

Lemma remove_insert_at : forall n x l, n <= length l -> remove_at n (insert_at n x l) = l.
Proof.
  induction n as [|n IH]; intros x l H; destruct l; simpl in *; auto; try lia.
  f_equal. apply IH. lia.
Qed.

Lemma map_insert_at : forall (f : Z -> Z) n x l,
  map f (insert_at n x l) = insert_at n (f x) (map f l).
Proof.
  induction n as [|n IH]; intros x l; destruct l; simpl; auto. f_equal. apply IH.
Qed.

Lemma build_upd : forall u s, build (map (g_upd u) s) = map (fun x => Z.max x u) (build s).
Proof.
  induction s as [|e r IH]; simpl; [reflexivity|].
  rewrite map_insert_at, IH. reflexivity.
Qed.

Lemma wf_upd : forall u s, wf s -> wf (map (g_upd u) s).
Proof.
  induction s as [|e r IH]; simpl; [auto|]. intros [H1 H2]. split; [|auto].
  rewrite build_upd, map_length. exact H1.
Qed.

Lemma wf_app_r : forall s1 s2, wf (s1 ++ s2) -> wf s2.
Proof. induction s1; simpl; intros s2 H; [exact H|]. destruct H. auto. Qed.

Lemma pop_entries_build : forall top s, wf (top ++ s) ->
  pop_entries (map fst top) (build (top ++ s)) = (build s, map g_out top)
  /\ pops_ok (map fst top) (build (top ++ s)) = true.
Proof.
  induction top as [|[[idx i] x] top IH]; intros s H; simpl; [auto|].
  simpl in H. destruct H as [H1 H2]. unfold g_idx, g_val in *. simpl in *.
  rewrite remove_insert_at by exact H1.
  destruct (IH s H2) as [E1 E2]. rewrite E1, E2.
  rewrite nth_insert_at by exact H1. rewrite insert_at_length.
  split; [reflexivity|]. rewrite andb_true_r. apply Nat.ltb_lt. lia.
Qed.

Definition inv (t : tracker) (a : alevels) : Prop :=
  exists g : list (list gentry),
    levels t = map (map fst) g /\ a = map (map g_out) g /\
    max_vals t = build (concat g) /\ wf (concat g) /\ StronglySorted Z.le (max_vals t).

Lemma inv_init : inv init ainit.
Proof. exists [[]]. simpl. repeat split; auto. constructor. Qed.

Lemma sim_step : forall ch pos o t a,
  c_rev ch = true -> inv t a ->
  snd (step ch pos o t) = snd (astep pos o a) /\
  inv (fst (step ch pos o t)) (fst (astep pos o a)) /\
  step_ok ch o t = true.
Proof.
  intros ch pos o [mv lv] a Hrev (g & Hl & Ha & Hm & Hw & Hs).
  pose proof (step_sorted ch pos o _ Hs) as Hs'. simpl in Hl, Hm, Hs. subst lv a mv.
  destruct o as [v|u| |]; simpl in *.
  - split; [reflexivity|]. split; [|reflexivity].
    set (idx := bisect (c_add ch) (build (concat g)) v) in *.
    assert (Hidx : idx <= length (build (concat g))) by apply bisect_le_length.
    exists (match g with [] => [[(idx, pos, v)]] | top :: rest => ((idx, pos, v) :: top) :: rest end).
    destruct g; exact (conj eq_refl (conj eq_refl (conj eq_refl (conj (conj Hidx Hw) Hs')))).
  - split; [reflexivity|]. split; [|reflexivity].
    exists (map (map (g_upd u)) g). rewrite !map_map, <- concat_map, build_upd.
    repeat split.
    + apply map_ext. intros l. rewrite !map_map. reflexivity.
    + apply map_ext. intros l. rewrite !map_map. reflexivity.
    + apply overwrite_is_max. exact Hs.
    + apply wf_upd. exact Hw.
    + exact Hs'.
  - split; [reflexivity|]. split; [|reflexivity]. exists ([] :: g). repeat split; auto.
  - unfold pop_level, pop_order in *. rewrite Hrev in *.
    destruct g as [|top rest]; simpl in *.
    + split; [reflexivity|]. split; [|reflexivity]. exists [[]]. repeat split; auto.
    + destruct (pop_entries_build top (concat rest) Hw) as [E1 E2]. rewrite E1 in *.
      split; [reflexivity|]. split; [|exact E2].
      exists (match rest with [] => [[]] | _ => rest end).
      apply wf_app_r in Hw. destruct rest; repeat split; auto.
Qed.

Lemma sim_run : forall ch ops pos t a,
  c_rev ch = true -> inv t a ->
  snd (run_from ch pos ops t) = snd (arun_from pos ops a) /\
  run_ok_from ch pos ops t = true.
Proof.
  induction ops as [|o r IH]; intros pos t a Hrev Hinv; simpl; [auto|].
  destruct (sim_step ch pos o t a Hrev Hinv) as (E1 & E2 & E3).
  rewrite E3. simpl.
  destruct (step ch pos o t) as [t1 f1]. destruct (astep pos o a) as [a1 g1]. simpl in *.
  destruct (IH (S pos) t1 a1 Hrev E2) as [F1 F2].
  destruct (run_from ch (S pos) r t1) as [t2 f2].
  destruct (arun_from (S pos) r a1) as [a2 g2]. simpl in *.
  subst. auto.
Qed.

(* with reversed iteration, the tracker finalises exactly what the reference model finalises,
   in the same order -- for both bisect variants in `add` and in `update` *)
Theorem run_refines_spec : forall ch ops,
  c_rev ch = true -> snd (run ch ops) = snd (arun ops).
Proof. intros. apply (sim_run ch ops 0 init ainit H inv_init). Qed.

(* ... and `self.max_vals.pop(idx)` never raises IndexError *)
Theorem pop_indices_in_range : forall ch ops, c_rev ch = true -> run_ok ch ops = true.
Proof. intros. apply (sim_run ch ops 0 init ainit H inv_init). Qed.

(* level d of the reference model, 0 = innermost; there is nothing beyond the outermost *)
Definition level (a : alevels) (d : nat) : list (id * Z) := nth d a [].

Lemma level_add : forall a e d,
  level (match a with [] => [[e]] | top :: rest => (e :: top) :: rest end) d
  = match d with 0 => e :: level a 0 | S _ => level a d end.
Proof. intros [|top rest] e [|[|d]]; reflexivity. Qed.

Lemma level_upd : forall u a d, level (map (map (a_upd u)) a) d = map (a_upd u) (level a d).
Proof. intros. exact (map_nth (map (a_upd u)) a [] d). Qed.

Definition popped (a : alevels) : alevels :=
  match a with [] => [[]] | _ :: rest => match rest with [] => [[]] | _ => rest end end.

Lemma astep_pop : forall pos a, astep pos Pop a = (popped a, level a 0).
Proof. intros pos [|top rest]; reflexivity. Qed.

Lemma level_popped : forall a d, level (popped a) d = level a (S d).
Proof. intros [|top [|l2 rest]] [|[|d]]; reflexivity. Qed.

(* checkpoint i, live in a, is finalised with x by the operations r *)
Definition pending (r : list op) (a : alevels) (i : id) (x : Z) : Prop :=
  exists d acc, In (i, acc) (level a d) /\ future_max_from r d acc = Some x.

Lemma astep_spec : forall pos o r a i x,
  In (i, x) (snd (astep pos o a)) \/ pending r (fst (astep pos o a)) i x
  <->
  pending (o :: r) a i x \/ (exists v, i = pos /\ o = Add v /\ future_max_from r 0 v = Some x).
Proof.
  intros pos o r a i x. unfold pending. destruct o as [v|u| |]; [| | |rewrite astep_pop]; simpl.
  - split.
    + intros [[]|(d & acc & Hin & Hf)]. rewrite level_add in Hin. destruct d as [|d].
      * destruct Hin as [[= <- <-]|Hin]; [right; exists v; auto | left; exists 0, acc; auto].
      * left. exists (S d), acc. auto.
    + intros [(d & acc & Hin & Hf)|(v' & -> & [= <-] & Hf)]; right.
      * exists d, acc. rewrite level_add. destruct d; [split; [right|]|]; auto.
      * exists 0, v. rewrite level_add. split; [left; reflexivity | exact Hf].
  - split.
    + intros [[]|(d & acc & Hin & Hf)]. rewrite level_upd in Hin.
      apply in_map_iff in Hin. destruct Hin as ([j y] & [= <- <-] & Hin). left. exists d, y. auto.
    + intros [(d & acc & Hin & Hf)|(v' & _ & [=] & _)]. right. exists d, (Z.max acc u).
      rewrite level_upd. split; [exact (in_map (a_upd u) _ _ Hin) | exact Hf].
  - split.
    + intros [[]|([|d] & acc & Hin & Hf)]; [destruct Hin|]. left. exists d, acc. auto.
    + intros [(d & acc & Hin & Hf)|(v' & _ & [=] & _)]. right. exists (S d), acc. auto.
  - split.
    + intros [Hin|(d & acc & Hin & Hf)]; left.
      * exists 0, x. auto.
      * rewrite level_popped in Hin. exists (S d), acc. auto.
    + intros [([|d] & acc & Hin & Hf)|(v' & _ & [=] & _)].
      * injection Hf as <-. left. exact Hin.
      * right. exists d, acc. rewrite level_popped. auto.
Qed.

Definition new_adds (pos : nat) (ops : list op) (i : id) (x : Z) : Prop :=
  exists k v, i = pos + k /\ nth_error ops k = Some (Add v) /\
              future_max_from (skipn (S k) ops) 0 v = Some x.

Lemma new_adds_cons : forall pos o r i x,
  new_adds pos (o :: r) i x <->
  (exists v, i = pos /\ o = Add v /\ future_max_from r 0 v = Some x) \/ new_adds (S pos) r i x.
Proof.
  intros. unfold new_adds. split.
  - intros (k & v & Hi & Hn & Hf). destruct k as [|k]; simpl in *.
    + left. exists v. inversion Hn; subst. repeat split; auto; lia.
    + right. exists k, v. repeat split; auto; lia.
  - intros [(v & -> & -> & Hf)|(k & v & -> & Hn & Hf)].
    + exists 0, v. simpl. repeat split; auto.
    + exists (S k), v. simpl. repeat split; auto; lia.
Qed.

Lemma arun_spec : forall ops a pos i x,
  In (i, x) (snd (arun_from pos ops a)) <->
  pending ops a i x \/ new_adds pos ops i x.
Proof.
  induction ops as [|o r IH]; intros a pos i x.
  - simpl. split; [intros []|].
    intros [(d & acc & _ & H)|(k & v & _ & H & _)]; [discriminate | destruct k; discriminate].
  - simpl. pose proof (astep_spec pos o r a i x) as S1.
    destruct (astep pos o a) as [a1 f1]. simpl in S1.
    specialize (IH a1 (S pos) i x).
    destruct (arun_from (S pos) r a1) as [a2 f2]. simpl in *.
    rewrite in_app_iff, IH, new_adds_cons, <- !or_assoc, S1. reflexivity.
Qed.

Lemma future_max_close : forall ops d acc,
  future_max_from ops d acc
  = option_map (fun n => max_with acc (updates (firstn n ops))) (close_from ops d).
Proof.
  induction ops as [|o r IH]; intros d acc; [reflexivity|].
  destruct o as [v|u| |]; [| | |destruct d as [|d]]; simpl; try reflexivity;
    rewrite IH; destruct (close_from r _); reflexivity.
Qed.

Definition finalized_is_future_max_statement (ch : choices) : Prop :=
  forall ops i x,
    In (i, x) (snd (run ch ops)) <->
    exists v j, nth_error ops i = Some (Add v) /\ matching_pop ops i = Some j /\
                x = max_with v (updates_between ops i j).

Theorem finalized_is_future_max_gen : forall ch,
  c_rev ch = true -> finalized_is_future_max_statement ch.
Proof.
  intros ch Hrev ops i x. rewrite (run_refines_spec ch ops Hrev). unfold arun.
  rewrite arun_spec. unfold matching_pop, updates_between. split.
  - intros [(d & acc & Hl & _)|(k & v & -> & Hn & Hf)].
    + destruct d as [|[|d]]; destruct Hl.
    + rewrite future_max_close in Hf. exists v. rewrite Nat.add_0_l.
      destruct (close_from (skipn (S k) ops) 0) as [n|]; [injection Hf as <-|discriminate].
      exists (S k + n). replace (S k + n - S k) with n by lia. auto.
  - intros (v & j & Hn & Hj & ->). right. exists i, v. rewrite future_max_close.
    destruct (close_from (skipn (S i) ops) 0) as [n|]; [injection Hj as Hj|discriminate].
    replace (j - S i) with n by lia. repeat split; auto.
Qed.

(* what `matching_pop` finds: a later `Pop` (so the theorem talks about the pop of c's level) *)
Lemma close_from_Pop : forall ops d n, close_from ops d = Some n -> nth_error ops n = Some Pop.
Proof.
  induction ops as [|o r IH]; intros d n H; simpl in H; [discriminate|].
  destruct o; try (destruct (close_from r _) eqn:E; [|discriminate]; inversion H; subst; simpl; eauto).
  destruct d as [|d]; [inversion H; reflexivity|].
  destruct (close_from r d) eqn:E; [|discriminate]. inversion H; subst; simpl; eauto.
Qed.

Lemma nth_error_skipn : forall (A : Type) (l : list A) n k,
  nth_error (skipn n l) k = nth_error l (n + k).
Proof.
  induction l as [|y r IH]; intros n k.
  - rewrite skipn_nil. destruct k, n; reflexivity.
  - destruct n; simpl; [reflexivity | apply IH].
Qed.

Lemma matching_pop_is_Pop : forall ops i j,
  matching_pop ops i = Some j -> i < j /\ nth_error ops j = Some Pop.
Proof.
  intros ops i j H. unfold matching_pop in H.
  destruct (close_from (skipn (S i) ops) 0) as [n|] eqn:E; [|discriminate].
  simpl in H. inversion H; subst. split; [lia|].
  apply close_from_Pop in E. rewrite nth_error_skipn in E. exact E.
Qed.

Lemma max_with_ge : forall l v, (v <= max_with v l)%Z /\ forall u, In u l -> (u <= max_with v l)%Z.
Proof.
  unfold max_with. induction l as [|y r IH]; intros v; simpl.
  - split; [lia | intros u []].
  - destruct (IH (Z.max v y)) as [H1 H2]. split; [lia|].
    intros u [->|Hin]; [lia | apply H2; exact Hin].
Qed.

Lemma in_updates : forall l n u, nth_error l n = Some (Update u) -> In u (updates l).
Proof.
  induction l as [|o r IH]; intros n u H; [destruct n; discriminate|].
  destruct n as [|n]; simpl in H.
  - inversion H; subst. simpl. auto.
  - specialize (IH n u H). destruct o; simpl; auto.
Qed.

Lemma nth_error_firstn_lt : forall (A : Type) (l : list A) n k,
  k < n -> nth_error (firstn n l) k = nth_error l k.
Proof.
  induction l as [|y r IH]; intros n k H.
  - rewrite firstn_nil. reflexivity.
  - destruct n; [lia|]. destruct k; simpl; [reflexivity | apply IH; lia].
Qed.

Lemma in_updates_between : forall ops i j k u,
  i < k < j -> nth_error ops k = Some (Update u) -> In u (updates_between ops i j).
Proof.
  intros ops i j k u Hk Hn. unfold updates_between.
  apply (in_updates _ (k - S i)).
  rewrite nth_error_firstn_lt by lia. rewrite nth_error_skipn.
  replace (S i + (k - S i)) with k by lia. exact Hn.
Qed.

Theorem guard_dominates_gen : forall ch, c_rev ch = true ->
  forall ops i x v j,
    In (i, x) (snd (run ch ops)) ->
    nth_error ops i = Some (Add v) -> matching_pop ops i = Some j ->
    (v <= x)%Z /\
    forall k u, i < k < j -> nth_error ops k = Some (Update u) -> (u <= x)%Z.
Proof.
  intros ch Hrev ops i x v j Hin Hn Hj.
  apply (finalized_is_future_max_gen ch Hrev) in Hin.
  destruct Hin as (v' & j' & Hn' & Hj' & ->).
  rewrite Hn in Hn'. injection Hn' as <-. rewrite Hj in Hj'. injection Hj' as <-.
  destruct (max_with_ge (updates_between ops i j) v) as [H1 H2].
  split; [exact H1|]. intros k u Hk Hu. apply H2. eapply in_updates_between; eauto.
Qed.

Definition aids (a : alevels) : list id := map fst (concat a).

Lemma NoDup_app_l : forall l1 l2 : list id, NoDup (l1 ++ l2) -> NoDup l1.
Proof.
  induction l2 as [|j l2 IH]; [rewrite app_nil_r; auto|].
  intros H. exact (IH (NoDup_remove_1 _ _ _ H)).
Qed.

Lemma astep_ids : forall pos o a,
  map fst (snd (astep pos o a)) ++ aids (fst (astep pos o a))
  = match o with Add _ => [pos] | _ => [] end ++ aids a.
Proof.
  intros pos [v|u| |] a; simpl.
  - destruct a; reflexivity.
  - unfold aids. rewrite <- concat_map, map_map. reflexivity.
  - reflexivity.
  - destruct a as [|top [|l2 rest]]; unfold aids; simpl; rewrite ?map_app, ?app_nil_r; reflexivity.
Qed.

(* `done` are the ids finalised so far.  They and the live ids are distinct and older than the
   current position, so the id of an `Add` is fresh, and nothing is finalised twice. *)
Lemma arun_nodup : forall ops a pos done,
  NoDup (done ++ aids a) -> (forall i, In i (done ++ aids a) -> i < pos) ->
  NoDup (done ++ map fst (snd (arun_from pos ops a)) ++ aids (fst (arun_from pos ops a))).
Proof.
  induction ops as [|o r IH]; intros a pos done Hnd Hlt; simpl; [exact Hnd|].
  pose proof (astep_ids pos o a) as E. destruct (astep pos o a) as [a1 f1]. simpl in E.
  specialize (IH a1 (S pos) (done ++ map fst f1)).
  destruct (arun_from (S pos) r a1) as [a2 f2]. simpl in *.
  rewrite <- !app_assoc, E in IH. rewrite map_app, <- app_assoc. apply IH.
  - destruct o; try exact Hnd.
    apply (NoDup_Add (Add_app pos done (aids a))). split; [exact Hnd|].
    intros H. apply Hlt in H. lia.
  - intros i Hi. destruct o; try (apply Nat.lt_lt_succ_r, Hlt, Hi).
    apply in_app_or in Hi. destruct Hi as [Hi|[<-|Hi]].
    + apply Nat.lt_lt_succ_r, Hlt, in_or_app. left. exact Hi.
    + apply Nat.lt_succ_diag_r.
    + apply Nat.lt_lt_succ_r, Hlt, in_or_app. right. exact Hi.
Qed.

Theorem finalized_once_gen : forall ch ops,
  c_rev ch = true -> NoDup (map fst (snd (run ch ops))).
Proof.
  intros ch ops Hrev. rewrite (run_refines_spec ch ops Hrev).
  apply (NoDup_app_l _ (aids (fst (arun ops)))).
  apply (arun_nodup ops ainit 0 []); [constructor | intros i []].
Qed.

(* Walking the popped level oldest-first breaks the stack discipline: the recorded index of an
   older entry is stale while newer entries are still in max_vals. *)
Theorem no_reverse_refuted : forall ka ku,
  ~ finalized_is_future_max_statement (mkChoices ka ku false).
Proof.
  intros ka ku H.
  (* ex_stale_index without its Update: walked oldest first, the level finalises checkpoint 0 with
     5, where the statement asks for 10 *)
  destruct (proj1 (H [Add 10%Z; Add 5%Z; Pop] 0 5%Z)) as (v & j & Hn & Hj & Hx).
  - destruct ka, ku; simpl; auto.
  - simpl in Hn. inversion Hn; subst v. vm_compute in Hj. inversion Hj; subst j.
    vm_compute in Hx. discriminate.
Qed.

(* ... and raises IndexError on the most ordinary sequence *)
Theorem no_reverse_index_error : forall ka ku,
  run_ok (mkChoices ka ku false) [Add 0%Z; Add 1%Z; Pop] = false.
Proof. intros [] []; reflexivity. Qed.

Theorem finalized_is_future_max : forall ops i x,
  In (i, x) (snd (run gen_choices ops)) <->
  exists v j, nth_error ops i = Some (Add v) /\ matching_pop ops i = Some j /\
              x = max_with v (updates_between ops i j).
Proof. apply finalized_is_future_max_gen. reflexivity. Qed.

Theorem finalized_once : forall ops, NoDup (map fst (snd (run gen_choices ops))).
Proof. intros. apply finalized_once_gen. reflexivity. Qed.

Theorem guard_dominates : forall ops i x v j,
  In (i, x) (snd (run gen_choices ops)) ->
  nth_error ops i = Some (Add v) -> matching_pop ops i = Some j ->
  (v <= x)%Z /\
  forall k u, i < k < j -> nth_error ops k = Some (Update u) -> (u <= x)%Z.
Proof. apply guard_dominates_gen. reflexivity. Qed.

(* a passed guard `gap >= N` covers every static frame size recorded later in the block *)
Theorem guard_passed_covers_block : forall ops i N v j gap,
  In (i, N) (snd (run gen_choices ops)) ->
  nth_error ops i = Some (Add v) -> matching_pop ops i = Some j ->
  (N <= gap)%Z ->
  (v <= gap)%Z /\
  forall k u, i < k < j -> nth_error ops k = Some (Update u) -> (u <= gap)%Z.
Proof.
  intros ops i N v j gap Hin Hn Hj Hg.
  destruct (guard_dominates ops i N v j Hin Hn Hj) as [H1 H2].
  split; [lia|]. intros k u Hk Hu. specialize (H2 k u Hk Hu). lia.
Qed.

Theorem no_index_error : forall ops, run_ok gen_choices ops = true.
Proof. intros. apply pop_indices_in_range. reflexivity. Qed.

Theorem sorted_invariant : forall ops, StronglySorted Z.le (max_vals (fst (run gen_choices ops))).
Proof. intros. apply max_vals_sorted. Qed.

Local Open Scope Z_scope.

(* a function: RA word, one argument, entry guard, body block with a VLA and a nested block *)
Definition ex_function : list op :=
  [ Update 4; Update 8; Add 8;          (* reserve RA, reserve arg, entry guard (id 2) *)
    Push;                               (* body { *)
    Update 12; Update 16; Add 16;       (*   length word, origin word, VLA guard (id 6) *)
    Update 20;                          (*   a temporary *)
    Push; Update 28; Pop;               (*   { two more words } *)
    Update 24;
    Pop;                                (* } : finalises the VLA guard *)
    Pop ].                              (* end of gen_func: finalises the entry guard *)

Example ex_function_run : snd (run gen_choices ex_function) = [(6%nat, 28); (2%nat, 28)].
Proof. reflexivity. Qed.

Example ex_function_matching : matching_pop ex_function 6 = Some 12%nat
                               /\ matching_pop ex_function 2 = Some 13%nat
                               /\ updates_between ex_function 6 12 = [20; 28; 24].
Proof. repeat split. Qed.

(* sibling blocks: a checkpoint does not see what happens after its block is closed *)
Definition ex_siblings : list op :=
  [ Add 0; Push; Add 4; Update 10; Pop; Push; Add 4; Update 6; Pop; Pop ].

Example ex_siblings_run :
  snd (run gen_choices ex_siblings) = [(2%nat, 10); (6%nat, 6); (0%nat, 10)].
Proof. reflexivity. Qed.

(* the recorded index of checkpoint 0 (idx 0) is stale while checkpoint 1 is live (max_vals =
   [5; 10], checkpoint 0 sits at position 1); reversed popping makes it valid again *)
Definition ex_stale_index : list op := [ Add 10; Add 5; Update 7; Pop ].

Example ex_stale_index_run : snd (run gen_choices ex_stale_index) = [(1%nat, 7); (0%nat, 10)].
Proof. reflexivity. Qed.

(* two functions compiled one after the other: the base level is popped and re-pushed *)
Example ex_two_functions :
  snd (run gen_choices [Update 4; Add 4; Push; Update 12; Pop; Pop;
                        Update 4; Add 4; Push; Update 6; Pop; Pop])
  = [(1%nat, 12); (7%nat, 6)].
Proof. reflexivity. Qed.

(* the hypotheses of guard_dominates are satisfiable *)
Example guard_dominates_hyps_sat :
  exists ops i x v j, In (i, x) (snd (run gen_choices ops)) /\
    nth_error ops i = Some (Add v) /\ matching_pop ops i = Some j /\
    exists k u, (i < k < j)%nat /\ nth_error ops k = Some (Update u).
Proof.
  exists ex_function, 6%nat, 28, 16, 12%nat. rewrite ex_function_run.
  split; [left; reflexivity|]. split; [reflexivity|]. split; [reflexivity|].
  exists 9%nat, 28. split; [lia | reflexivity].
Qed.

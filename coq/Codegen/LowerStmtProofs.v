(* Compiler correctness for the statement / function / program fragment F_stmt (DESIGN C01), over
   LowerBoolProofs (expressions) and the source semantics of LowerStmtSem.v.

   A compile-time environment S lays the locals out in the frame; `rep S s m` says that memory m holds
   the store s in that frame, and the globals above every frame.  `reaches` is the shape of the
   conclusion of the specifications: where the code leaves, what it has changed, what the memory
   then represents.  Each statement form without control flow has a lemma about the code lower_stmt
   emits for it, most of them with the hypotheses of a case of stmts_runs and `reaches` as
   conclusion; the steps they share (operand values, pushes, stores) are stated with
   LowerBoolProofs.code_runs over the closed form of the code (value_code: get_expr_value); library
   calls go through CallProtocol.call_idiom, division through the checked build's guard.
   stmts_runs is ONE induction over the big-step derivation for statements, statement lists and
   calls (recursion is a finite derivation); its cases are composed through `reaches`.  After it:
   label freshness and the theorems on resolved code (stmts_lowering_correct,
   body_lowering_correct), then whole programs: the executable static check, init_ok,
   program_lowering_correct, program_never_halts, and satisfiability examples on the verified VM. *)
From Coq Require Import ZArith List Bool Lia.
From HidV Require Import Machine Halts VM Driver WordLemmas MemLemmas GenTables GenStdlib OpTables Idioms
                         Guards StdlibBase StdlibStubs DecimalSpec StdlibInt StdlibBool CallProtocol
                         LowerBoolModel LowerBoolProofs LowerStmtModel LowerStmtSem.
Import ListNotations.
Open Scope Z_scope.

(* push_expr of a ByteToInt at the root (declaration initialiser, argument) has its own code; for
   `(o is byte) is int` with o computed or a global it is outside the model *)
Definition not_trunc (o : iopd) : Prop := match o with OTrunc _ => False | _ => True end.
(* well-scoped expressions: variables in scope, literals words, no / % *)
Definition yscoped (ni nb : nat) (v : yloc) : Prop :=
  match v with YSlot j => (j < nb)%nat | YLow i => (i < ni)%nat end.
Fixpoint oscoped (w : Z) (ng : nat) (ni nb : nat) (o : iopd) : Prop :=
  match o with
  | OLit ch z => - (Machine.W w / 2) <= z < Machine.W w / 2 /\ (ch = true -> 0 <= z <= 255)
  | OVar i => (i < ni)%nat
  | OArith op x y => op_ok op /\ oscoped w ng ni nb x /\ oscoped w ng ni nb y
  | OUn _ x => oscoped w ng ni nb x
  | OGlob g => (g < ng)%nat
  | OTrunc x => oscoped w ng ni nb x /\ match x with OGlob _ | OArith _ _ _ | OUn _ _ => True | _ => False end
  | OByte v => yscoped ni nb v
  end.
Fixpoint bscoped (w : Z) (ng nbg : nat) (ni nb : nat) (e : bexpr) : Prop :=
  match e with
  | BLit _ => True
  | BVar (BLocal j) => (j < nb)%nat
  | BVar (BGlobal h) => (h < nbg)%nat
  | BCmp _ a b => oscoped w ng ni nb a /\ oscoped w ng ni nb b
  | BNot e1 => bscoped w ng nbg ni nb e1
  | BAnd e1 e2 | BOr e1 e2 => bscoped w ng nbg ni nb e1 /\ bscoped w ng nbg ni nb e2
  end.
(* well-scoped statements: (ni, nb) = numbers of int / bool locals in scope; inloop: break /
   continue allowed; lib: what a call needs of the machine (the registers are where hidc puts
   them, the runtime library is loaded); cf f n: function f may be called with n arguments *)
Fixpoint sscoped (w : Z) (ng nbg : nat) (lib : Prop) (cf : nat -> nat -> Prop) (ni nb : nat) (inloop : bool) (s : stmt) : Prop :=
  match s with
  | SDeclI o => oscoped w ng ni nb o /\ not_trunc o
  | SAssignI i o => (i < ni)%nat /\ oscoped w ng ni nb o
  | SDeclB e => bscoped w ng nbg ni nb e
  | SAssignB j e => (j < nb)%nat /\ bscoped w ng nbg ni nb e
  | SWrite (WrByte o) => oscoped w ng ni nb o
  | SWrite _ | SWriteln => True
  | SWriteI _ o => (oscoped w ng ni nb o /\ not_trunc o) /\ lib              (* the runtime library must be there *)
  | SWriteB _ e => bscoped w ng nbg ni nb e /\ lib
  | SIf c s1 s2 => bscoped w ng nbg ni nb c /\ ssscoped w ng nbg lib cf ni nb inloop s1 /\ ssscoped w ng nbg lib cf ni nb inloop s2
  | SWhile c b k => bscoped w ng nbg ni nb c /\ ssscoped w ng nbg lib cf ni nb true b /\ ssscoped w ng nbg lib cf ni nb inloop k
  | SBlock ss => ssscoped w ng nbg lib cf ni nb inloop ss
  | SBreak | SContinue => inloop = true
  | SDeclDiv op a b => (op = SDiv \/ op = SMod) /\ oscoped w ng ni nb a /\ oscoped w ng ni nb b /\ lib
  | SAssignDiv i op a b => (i < ni)%nat /\ (op = SDiv \/ op = SMod) /\ oscoped w ng ni nb a /\ oscoped w ng ni nb b /\ lib
  | SCall dst f args =>
      match dst with DAssign i => (i < ni)%nat | DAssignG g => (g < ng)%nat | _ => True end /\
      cf f (length args) /\ (Forall (oscoped w ng ni nb) args /\ Forall not_trunc args) /\ lib
  | SReturn (Some o) => oscoped w ng ni nb o
  | SReturn None => True
  | SAssignG g o => (g < ng)%nat /\ oscoped w ng ni nb o
  | SAssignGDiv g op a b => (g < ng)%nat /\ (op = SDiv \/ op = SMod) /\ oscoped w ng ni nb a /\ oscoped w ng ni nb b /\ lib
  | SAssignBG h e => (h < nbg)%nat /\ bscoped w ng nbg ni nb e
  end
with ssscoped (w : Z) (ng nbg : nat) (lib : Prop) (cf : nat -> nat -> Prop) (ni nb : nat) (inloop : bool) (ss : stmts) : Prop :=
  match ss with
  | SNil => True
  | SCons s r =>
      sscoped w ng nbg lib cf ni nb inloop s /\
      match s with
      | SDeclI _ | SDeclDiv _ _ _ | SCall DDecl _ _ => ssscoped w ng nbg lib cf (S ni) nb inloop r
      | SDeclB _ => ssscoped w ng nbg lib cf ni (S nb) inloop r
      | _ => ssscoped w ng nbg lib cf ni nb inloop r
      end
  end.

Section Rep.
(* W / 2 and x mod 256 are atoms for lia in this section and in Section Stmt, where the division
   equations of the hook are off; what it has to know of them comes from rep_bounds, W_even,
   Z.mod_pos_bound. *)
Ltac Zify.zify_post_hook ::= idtac.
Variable w : Z.
Variable R : regmap.
Variable lo : Z.          (* lowest address of the stack area the function may use *)
Variable fb : Z.          (* frame base: every local lies strictly below [fp] - fb (fb = w: the return address) *)
Variable gl : Z.          (* the int globals lie at or above gl = stack_end, above every frame *)
Variable ng : nat.        (* the number of int globals *)
Variable nbg : nat.       (* the number of bool globals *)
Notation W := (Machine.W w).
Notation wrap := (Machine.wrap w).
Notation sgn := (Machine.sgn w).
Notation lw := (Machine.lw w).
Notation sw := (Machine.sw w).
Notation r0 := (a_r0 R).
Notation r1 := (a_r1 R).
Notation fp := (a_fp R).
Notation FP := (LowerBoolProofs.FP w R).

(* the compile-time layout: every local's slot lies in (fb, top], distinct locals are disjoint *)
Record wf_senv (S : senv) : Prop := {
  wfs_w : ws S = w;
  wfs_fb : 0 <= fb <= top S;
  wfs_i : forall i, (i < length (ioffs S))%nat -> fb + w <= nth i (ioffs S) 0 <= top S;
  wfs_b : forall j, (j < length (boffs S))%nat -> fb + 1 <= nth j (boffs S) 0 <= top S;
  wfs_ii : forall i i', (i < length (ioffs S))%nat -> (i' < length (ioffs S))%nat -> i <> i' ->
           nth i (ioffs S) 0 + w <= nth i' (ioffs S) 0 \/ nth i' (ioffs S) 0 + w <= nth i (ioffs S) 0;
  wfs_bb : forall j j', (j < length (boffs S))%nat -> (j' < length (boffs S))%nat -> j <> j' ->
           nth j (boffs S) 0 <> nth j' (boffs S) 0;
  wfs_ib : forall i j, (i < length (ioffs S))%nat -> (j < length (boffs S))%nat ->
           nth j (boffs S) 0 <= nth i (ioffs S) 0 - w \/ nth i (ioffs S) 0 + 1 <= nth j (boffs S) 0 }.

(* the ap register lies below the stack area, apart from r0, r1, r2 (hidc: ap is the first state word) *)
Definition ap_sep : Prop :=
  0 <= a_ap R /\ a_ap R + w <= lo /\ (a_ap R + w <= r0 \/ r0 + w <= a_ap R) /\ (a_ap R + w <= r1 \/ r1 + w <= a_ap R) /\
  (a_ap R + w <= a_r2 R \/ a_r2 R + w <= a_ap R).
(* memory m holds store s in the frame laid out by S; the stack area starts where ap points (no arrays
   in the fragment: ap never moves) *)
Record rep (S : senv) (s : store) (m : mem) : Prop := {
  rp_regs : regs_ok w R lo m;
  rp_lo : lo <= FP m - top S;
  rp_half : FP m - lo <= W / 2;
  rp_sz : FP m <= msize m;
  rp_li : length (si s) = length (ioffs S);
  rp_lb : length (sb s) = length (boffs S);
  rp_i : forall i, (i < length (ioffs S))%nat -> sgn (lw m (FP m - nth i (ioffs S) 0)) = nth i (si s) 0;
  rp_b : forall j, (j < length (boffs S))%nat ->
         lb m (FP m - nth j (boffs S) 0) = nth j (sb s) 0 /\ (nth j (sb s) 0 = 0 \/ nth j (sb s) 0 = 1);
  rp_ap : ap_sep -> lw m (a_ap R) = lo;   (* guarded: ap_sep holds of hidc's layout (lib_ap_sep, under lib_hyps), not of every R *)
  (* the int globals: words above every frame, pairwise apart, holding the global part of the store *)
  rp_gl : FP m <= gl;
  rp_gn : length (sg s) = ng;
  rp_g : forall g, (g < ng)%nat -> gl <= a_glob R g < W /\ inb m (a_glob R g) w = true /\
                                  sgn (lw m (a_glob R g)) = nth g (sg s) 0;
  rp_gd : forall g g', (g < ng)%nat -> (g' < ng)%nat -> g <> g' ->
          a_glob R g + w <= a_glob R g' \/ a_glob R g' + w <= a_glob R g;
  (* the bool globals: bytes in the same area, apart from each other and from the int globals *)
  rp_gbn : length (sgb s) = nbg;
  rp_gb : forall h, (h < nbg)%nat -> gl <= a_bglob R h < W /\ inb m (a_bglob R h) 1 = true /\
                                    lb m (a_bglob R h) = nth h (sgb s) 0 /\ (nth h (sgb s) 0 = 0 \/ nth h (sgb s) 0 = 1);
  rp_gbd : (forall h h', (h < nbg)%nat -> (h' < nbg)%nat -> h <> h' -> a_bglob R h <> a_bglob R h') /\
           (forall g h, (g < ng)%nat -> (h < nbg)%nat -> a_bglob R h + 1 <= a_glob R g \/ a_glob R g + w <= a_bglob R h) }.

Hypothesis Hw : 2 <= w.
Let Hw1 : 1 <= w. Proof. lia. Qed.

Lemma ap_agree hi m m' : ap_sep -> agree w R lo hi m m' -> lw m' (a_ap R) = lw m (a_ap R).
Proof.
  intros [A0 [A1 [A2 [A3 A4]]]] A. apply (agree_lw w R lo Hw hi m m' _ A A0). unfold dj. lia.
Qed.

Lemma env_of_wsize S : wf_senv S -> wsize (env_of S) = w.
Proof. intros Wf. exact (wfs_w S Wf). Qed.

(* the arithmetic every frame lives by: the registers below lo, the stack area [lo, fp - top) within
   half the address space, the frame base inside the frame, the globals above *)
Lemma rep_bounds S s m : wf_senv S -> rep S s m ->
  (0 <= r0 /\ 0 <= r1 /\ 0 <= fp /\ 0 <= a_r2 R) /\ (r0 + w <= lo /\ r1 + w <= lo /\ fp + w <= lo /\ a_r2 R + w <= lo) /\
  0 <= fb <= top S /\ lo <= FP m - top S /\ FP m - lo <= W / 2 /\ 0 <= FP m < W / 2 /\ W / 2 < W /\ FP m <= msize m /\ FP m <= gl.
Proof.
  intros Wf Rp. pose proof (W_even w Hw1). pose proof (half_pos w Hw1).
  destruct (rp_regs S s m Rp), Wf, Rp. repeat split; assumption || lia.
Qed.
Lemma rep_layout S s m : wf_senv S -> rep S s m -> layout_ok w R (env_of S) lo m.
Proof.
  intros Wf Rp. pose proof (rep_bounds S s m Wf Rp) as B. split; [exact (rp_regs S s m Rp)|]. constructor; cbn [env_of stack_top]; lia.
Qed.
Lemma rep_room S s m t : wf_senv S -> rep S s m -> top S <= t -> lo <= FP m - t -> room_ok w R lo t m.
Proof. intros Wf Rp Ht Hl. pose proof (rep_bounds S s m Wf Rp) as B. constructor; lia. Qed.
Lemma rep_slot_i S s m i hi : wf_senv S -> rep S s m -> (i < length (ioffs S))%nat -> hi <= FP m - top S ->
  slot_ok w R lo hi m (nth i (ioffs S) 0) w.
Proof.
  intros Wf Rp Hi Hh. pose proof (wfs_i S Wf i Hi) as Ho. pose proof (rep_bounds S s m Wf Rp) as B.
  unfold slot_ok, dj. split; [lia|]. split; [lia|]. split; [apply inb_true; lia | lia].
Qed.
Lemma rep_slot_b S s m j hi : wf_senv S -> rep S s m -> (j < length (boffs S))%nat -> hi <= FP m - top S ->
  slot_ok w R lo hi m (nth j (boffs S) 0) 1.
Proof.
  intros Wf Rp Hj Hh. pose proof (wfs_b S Wf j Hj) as Ho. pose proof (rep_bounds S s m Wf Rp) as B.
  unfold slot_ok, dj. split; [lia|]. split; [lia|]. split; [apply inb_true; lia | lia].
Qed.
Lemma rep_slot_y S s m v hi : wf_senv S -> rep S s m -> yscoped (length (ioffs S)) (length (boffs S)) v -> hi <= FP m - top S ->
  slot_ok w R lo hi m (byte_off (env_of S) v) 1.
Proof.
  intros Wf Rp Sc Hh. destruct v as [j|i]; cbn [yscoped byte_off env_of bool_off int_off] in *.
  - apply (rep_slot_b S s); assumption.
  - exact (slot_ok_byte w R lo Hw hi m _ (rep_slot_i S s m i hi Wf Rp Sc Hh)).
Qed.
Lemma rep_yval S s m v : wf_senv S -> rep S s m -> yscoped (length (ioffs S)) (length (boffs S)) v ->
  lb m (FP m - byte_off (env_of S) v) = ieval w s (OByte v).
Proof.
  intros Wf Rp Sc. destruct v as [j|i]; cbn [yscoped byte_off env_of bool_off int_off ieval] in *.
  - apply (proj1 (rp_b S s m Rp j Sc)).
  - pose proof (lo_wf w R lo m (rp_regs S s m Rp)) as Wfm. rewrite (lb_lw w Hw m _ Wfm). rewrite <- (rp_i S s m Rp i Sc).
    symmetry. apply (sgn_mod256 w Hw). apply (lw_range w Hw1). exact Wfm.
Qed.
Lemma rep_oexp S s m o hi : wf_senv S -> rep S s m -> oscoped w ng (length (ioffs S)) (length (boffs S)) o -> hi <= FP m - top S ->
  oexp_ok w R (env_of S) lo hi m o.
Proof.
  intros Wf Rp Sc Hh. induction o as [ch z|i|op x IHx y IHy|u x IHx|g|tx IHt|yj]; cbn [oscoped oexp_ok] in *; try tauto.
  - cbn [env_of int_off]. apply (rep_slot_i S s); assumption.
  - destruct (rp_g S s m Rp g Sc) as [G0 [G1 _]].
    pose proof (rep_bounds S s m Wf Rp) as B. unfold gword_ok, dj. repeat split; try assumption; lia.
  - destruct Sc as [Sx Sh]. split; [apply IHt; exact Sx|].
    destruct tx; try exact Sh. cbn [oscoped] in Sx. destruct (rp_g S s m Rp g Sx) as [G0 _]. lia.
  - apply (rep_slot_y S s); assumption.
Qed.
Lemma rep_sval S s m o : wf_senv S -> rep S s m -> oscoped w ng (length (ioffs S)) (length (boffs S)) o ->
  sval w R (env_of S) m o = ieval w s o.
Proof.
  intros Wf Rp. induction o as [ch z|i|op x IHx y IHy|u x IHx|g|tx IHt|yj]; cbn [oscoped sval ieval]; intros Sc.
  - reflexivity.
  - cbn [env_of int_off]. apply (rp_i S s m Rp i Sc).
  - destruct Sc as [_ [Sx Sy]]. rewrite IHx, IHy by assumption. reflexivity.
  - destruct u; rewrite IHx by assumption; reflexivity.
  - apply (rp_g S s m Rp g Sc).
  - rewrite (IHt (proj1 Sc)). reflexivity.
  - apply (rep_yval S s m yj Wf Rp Sc).
Qed.
Lemma rep_beval S s m e : wf_senv S -> rep S s m -> bscoped w ng nbg (length (ioffs S)) (length (boffs S)) e ->
  beval w R (env_of S) m e = bevals w s e.
Proof.
  intros Wf Rp. induction e as [b|j|op a b|e IH|e1 IH1 e2 IH2|e1 IH1 e2 IH2]; cbn [bscoped beval bevals]; intros Sc.
  5, 6: destruct Sc as [S1 S2]; now rewrite IH1, IH2.
  - reflexivity.
  - destruct j as [j|h]; cbn [bval env_of bool_off].
    + now rewrite (proj1 (rp_b S s m Rp j Sc)).
    + destruct (rp_gb S s m Rp h Sc) as [_ [_ [E _]]]. now rewrite E.
  - destruct Sc as [Sa Sb]. now rewrite (rep_sval S s m a Wf Rp Sa), (rep_sval S s m b Wf Rp Sb).
  - now rewrite IH.
Qed.
Lemma temps_b_le_and e1 e2 : (temps_b e1 <= temps_b (BAnd e1 e2))%nat /\ (temps_b e2 <= temps_b (BAnd e1 e2))%nat.
Proof. cbn [temps_b]. lia. Qed.
Lemma rep_vars S s m e t : wf_senv S -> rep S s m -> bscoped w ng nbg (length (ioffs S)) (length (boffs S)) e ->
  top S <= t -> t + Z.of_nat (temps_b e) * w <= FP m - lo ->
  vars_ok w R (with_top (env_of S) t) lo m e.
Proof.
  intros Wf Rp Sc Ht Hr. assert (W0 : 0 <= w) by lia.
  assert (Hh : HI w R (with_top (env_of S) t) m <= FP m - top S) by (unfold HI; cbn [with_top stack_top]; lia).
  induction e as [b|j|op a b|e IH|e1 IH1 e2 IH2|e1 IH1 e2 IH2]; cbn [bscoped vars_ok temps_b] in *.
  (* and, or: the temporaries of either operand fit where those of the larger do *)
  5, 6: destruct Sc as [S1 S2]; split; [apply IH1 | apply IH2]; try assumption;
    (eapply Z.le_trans; [|exact Hr]); apply Z.add_le_mono_l; apply Z.mul_le_mono_nonneg_r; lia.
  - exact I.
  - destruct j as [j|h]; cbn [bslot_ok with_top env_of bool_off]; [apply (rep_slot_b S s); assumption|].
    destruct (rp_gb S s m Rp h Sc) as [G0 [G1 _]].
    pose proof (rep_bounds S s m Wf Rp) as B. unfold dj. repeat split; try assumption; lia.
  - destruct Sc as [Sa Sb]. split; [|split].
    + pose proof (rep_oexp S s m a _ Wf Rp Sa Hh) as X. exact X.
    + pose proof (rep_oexp S s m b _ Wf Rp Sb Hh) as X. exact X.
    + unfold HI. cbn [with_top stack_top]. lia.
  - apply IH; assumption.
Qed.
Lemma rep_norm S s m e : wf_senv S -> rep S s m -> bscoped w ng nbg (length (ioffs S)) (length (boffs S)) e ->
  bool_norm w R (env_of S) m e.
Proof.
  intros Wf Rp. induction e as [b|j|op a b|e IH|e1 IH1 e2 IH2|e1 IH1 e2 IH2]; cbn [bscoped bool_norm]; try tauto.
  intros Sc. destruct j as [j|h]; cbn [bval env_of bool_off].
  - destruct (rp_b S s m Rp j Sc) as [E N]. now rewrite E.
  - destruct (rp_gb S s m Rp h Sc) as [_ [_ [E N]]]. now rewrite E.
Qed.
Lemma sval_top E t m o : sval w R (with_top E t) m o = sval w R E m o.
Proof. induction o as [ch z|i|op x IHx y IHy|u x IHx|g|tx IHt|yj]; cbn [sval]; [reflexivity | reflexivity | now rewrite IHx, IHy | destruct u; now rewrite IHx | reflexivity | now rewrite IHt | reflexivity]. Qed.
Lemma beval_top E t m e : beval w R (with_top E t) m e = beval w R E m e.
Proof.
  induction e as [b|j|op a b|e IH|e1 IH1 e2 IH2|e1 IH1 e2 IH2]; cbn [beval];
    rewrite ?sval_top, ?IH, ?IH1, ?IH2; reflexivity.
Qed.
Lemma with_top_same S : with_top (env_of S) (top S) = env_of S.
Proof. reflexivity. Qed.

Hypothesis Hgl : lo <= gl.   (* for dj_above, and from it whatever says that code working below a frame keeps the globals *)
(* the globals lie apart from the registers and from every stack area *)
Lemma dj_above hi m a n : regs_ok w R lo m -> hi <= gl -> gl <= a -> 0 <= a /\ dj w R lo hi a n.
Proof. intros L Hh Ha. destruct L. unfold dj. lia. Qed.
(* so they are not touched by code that keeps everything above the frame *)
Lemma glob_agree S s m m' hi : rep S s m -> agree w R lo hi m m' -> hi <= FP m -> forall g, (g < ng)%nat ->
  gl <= a_glob R g < W /\ inb m' (a_glob R g) w = true /\ sgn (lw m' (a_glob R g)) = nth g (sg s) 0.
Proof.
  intros Rp A Hh g Hg. destruct (rp_g S s m Rp g Hg) as [G0 [G1 G2]]. split; [exact G0|].
  split; [rewrite (agree_inb w R lo _ m m' _ _ A); exact G1|]. rewrite <- G2. f_equal.
  destruct (dj_above hi m (a_glob R g) w (rp_regs S s m Rp)) as [Ha D]; [pose proof (rp_gl S s m Rp); lia | lia |].
  exact (agree_lw w R lo Hw hi m m' _ A Ha D).
Qed.
Lemma globb_agree S s m m' hi : rep S s m -> agree w R lo hi m m' -> hi <= FP m -> forall h, (h < nbg)%nat ->
  gl <= a_bglob R h < W /\ inb m' (a_bglob R h) 1 = true /\ lb m' (a_bglob R h) = nth h (sgb s) 0 /\ (nth h (sgb s) 0 = 0 \/ nth h (sgb s) 0 = 1).
Proof.
  intros Rp A Hh h Hg. destruct (rp_gb S s m Rp h Hg) as [G0 [G1 [G2 G3]]]. split; [exact G0|].
  split; [rewrite (agree_inb w R lo _ m m' _ _ A); exact G1|]. split; [|exact G3]. rewrite <- G2.
  destruct (dj_above hi m (a_bglob R h) 1 (rp_regs S s m Rp)) as [Ha D]; [pose proof (rp_gl S s m Rp); lia | lia |].
  exact (agree_lb w R lo hi m m' _ A Ha D).
Qed.
Lemma rep_agree S s m m' : wf_senv S -> rep S s m -> agree w R lo (FP m - top S) m m' -> rep S s m'.
Proof.
  intros Wf Rp A. pose proof (FP_agree w R lo Hw _ m m' (rp_regs S s m Rp) A) as EF.
  pose proof (regs_ok_agree w R lo Hw _ m m' (rp_regs S s m Rp) A) as L'. pose proof (wfs_fb S Wf) as Ofb.
  constructor; rewrite ?EF, ?(proj1 A); try apply Rp; try assumption.
  - intros i Hi. rewrite <- (rp_i S s m Rp i Hi). f_equal.
    destruct (rep_slot_i S s m i (FP m - top S) Wf Rp Hi ltac:(lia)) as [_ [H2 [_ H4]]].
    apply (agree_lw w R lo Hw (FP m - top S)); assumption.
  - intros j Hj. destruct (rp_b S s m Rp j Hj) as [E N]. split; [|exact N]. rewrite <- E.
    destruct (rep_slot_b S s m j (FP m - top S) Wf Rp Hj ltac:(lia)) as [_ [H2 [_ H4]]].
    apply (agree_lb w R lo (FP m - top S)); assumption.
  - intros Ap. rewrite (ap_agree _ m m' Ap A). apply (rp_ap S s m Rp Ap).
  - apply (glob_agree S s m m' _ Rp A). lia.
  - apply (globb_agree S s m m' _ Rp A). lia.
Qed.
(* STATEMENTS may also assign to globals: `gagree hi m m'` -- m' differs from m at most in r0, r1, r2,
   in the stack area [lo, hi) and in the globals area [gl, ..) *)
Definition gagree (hi : Z) (m m' : mem) : Prop :=
  msize m' = msize m /\ (wf_mem m -> wf_mem m') /\
  forall x, 0 <= x -> ~ (r0 <= x < r0 + w) -> ~ (r1 <= x < r1 + w) -> ~ (lo <= x < hi) -> ~ (a_r2 R <= x < a_r2 R + w) ->
            ~ (gl <= x) -> getb m' x = getb m x.
Lemma agree_gagree hi m m' : agree w R lo hi m m' -> gagree hi m m'.
Proof. intros [S [F G]]. split; [exact S|]. split; [exact F|]. intros x X N0 N1 N2 N3 _. apply G; assumption. Qed.
Lemma gagree_refl hi m : gagree hi m m.
Proof. apply agree_gagree, agree_refl. Qed.
Lemma gagree_trans hi a b c : gagree hi a b -> gagree hi b c -> gagree hi a c.
Proof.
  intros [S1 [F1 G1]] [S2 [F2 G2]]. split; [congruence|]. split; [tauto|].
  intros x X N0 N1 N2 N3 N4. rewrite G2, G1; auto.
Qed.
Lemma gagree_mono hi hi' m m' : hi <= hi' -> gagree hi m m' -> gagree hi' m m'.
Proof. intros L [S [F G]]. split; [exact S|]. split; [exact F|]. intros x X N0 N1 N2 N3 N4. apply G; auto. lia. Qed.
Lemma gagree_lw hi m m' a : gagree hi m m' -> 0 <= a -> dj w R lo hi a w -> a + w <= gl -> lw m' a = lw m a.
Proof.
  intros [_ [_ G]] Ha [D0 [D1 D2]] Hg. unfold Machine.lw. apply loadn_ext. intros x Hx.
  rewrite (wn_w w Hw1) in Hx. apply G; lia.
Qed.
Lemma gagree_lb hi m m' a : gagree hi m m' -> 0 <= a -> dj w R lo hi a 1 -> a + 1 <= gl -> lb m' a = lb m a.
Proof.
  intros [_ [_ G]] Ha [D0 [D1 D2]] Hg. unfold Machine.lb. rewrite G; [reflexivity | lia ..].
Qed.
Lemma gagree_inb hi m m' a n : gagree hi m m' -> inb m' a n = inb m a n.
Proof. intros [S _]. unfold inb. now rewrite S. Qed.
Lemma FP_gagree hi m m' : regs_ok w R lo m -> gagree hi m m' -> FP m' = FP m.
Proof.
  intros L A. unfold LowerBoolProofs.FP. apply (gagree_lw hi); [exact A | apply (lo_fp w R lo m L) | apply (dj_fp w R lo hi m L) | destruct L; lia].
Qed.
Lemma regs_ok_gagree hi m m' : regs_ok w R lo m -> gagree hi m m' -> regs_ok w R lo m'.
Proof.
  intros L A. pose proof (FP_gagree hi m m' L A) as EF. destruct L. constructor; try assumption.
  - apply A; assumption.
  - now rewrite (gagree_inb hi m m').
  - now rewrite (gagree_inb hi m m').
  - now rewrite (gagree_inb hi m m').
  - rewrite EF; assumption.
Qed.
Lemma rep_locals_gagree S s m m' : wf_senv S -> rep S s m -> gagree (FP m - top S) m m' ->
  regs_ok w R lo m' /\ FP m' = FP m /\ msize m' = msize m /\
  (forall i, (i < length (ioffs S))%nat -> sgn (lw m' (FP m - nth i (ioffs S) 0)) = nth i (si s) 0) /\
  (forall j, (j < length (boffs S))%nat -> lb m' (FP m - nth j (boffs S) 0) = nth j (sb s) 0 /\ (nth j (sb s) 0 = 0 \/ nth j (sb s) 0 = 1)) /\
  (ap_sep -> lw m' (a_ap R) = lo).
Proof.
  intros Wf Rp A. pose proof (rp_regs S s m Rp) as L. pose proof (rp_gl S s m Rp) as Hg.
  split; [apply (regs_ok_gagree _ m m' L A)|]. split; [apply (FP_gagree _ m m' L A)|]. split; [apply A|]. split; [|split].
  - intros i Hi. rewrite <- (rp_i S s m Rp i Hi). f_equal.
    destruct (rep_slot_i S s m i (FP m - top S) Wf Rp Hi ltac:(lia)) as [H1 [H2 [_ H4]]].
    apply (gagree_lw (FP m - top S)); [exact A | exact H2 | exact H4 | pose proof (wfs_i S Wf i Hi); pose proof (wfs_fb S Wf); lia].
  - intros j Hj. destruct (rp_b S s m Rp j Hj) as [E N]. split; [|exact N]. rewrite <- E.
    destruct (rep_slot_b S s m j (FP m - top S) Wf Rp Hj ltac:(lia)) as [H1 [H2 [_ H4]]].
    apply (gagree_lb (FP m - top S)); [exact A | exact H2 | exact H4 | pose proof (wfs_b S Wf j Hj); pose proof (wfs_fb S Wf); lia].
  - intros Ap. rewrite <- (rp_ap S s m Rp Ap). destruct Ap as [A0 [A1 [A2 [A3 A4]]]].
    apply (gagree_lw _ m m' _ A A0); [unfold dj|]; lia.
Qed.
(* the coarse frame condition of statements: only r0, r1, r2, the frame below [fp] - fb and the
   globals change *)
Definition fagree (m m' : mem) : Prop := gagree (FP m - fb) m m'.
Lemma fagree_refl m : fagree m m.
Proof. apply gagree_refl. Qed.
Lemma fagree_trans m1 m2 m3 : regs_ok w R lo m1 -> fagree m1 m2 -> fagree m2 m3 -> fagree m1 m3.
Proof.
  intros L A B. unfold fagree in *. rewrite (FP_gagree _ m1 m2 L A) in B.
  eapply gagree_trans; eauto.
Qed.
Lemma agree_fagree S s m m' : wf_senv S -> rep S s m -> agree w R lo (FP m - top S) m m' -> fagree m m'.
Proof. intros Wf Rp A. apply agree_gagree. apply (agree_mono w R lo (FP m - top S)); [destruct Wf; lia | exact A]. Qed.
Lemma FP_fagree m m' : regs_ok w R lo m -> fagree m m' -> FP m' = FP m.
Proof. apply FP_gagree. Qed.
Lemma regs_ok_fagree m m' : regs_ok w R lo m -> fagree m m' -> regs_ok w R lo m'.
Proof. apply regs_ok_gagree. Qed.
End Rep.

Lemma nth_app_last (l : list Z) x : nth (length l) (l ++ [x]) 0 = x.
Proof. rewrite app_nth2, Nat.sub_diag by lia. reflexivity. Qed.
Lemma nth_snoc (l : list Z) x i : (i < length (l ++ [x]))%nat ->
  (i < length l)%nat /\ nth i (l ++ [x]) 0 = nth i l 0 \/ i = length l /\ nth i (l ++ [x]) 0 = x.
Proof.
  rewrite app_length. cbn [length]. intros H. destruct (Nat.lt_ge_cases i (length l)) as [Lt|Ge].
  - left. split; [exact Lt | apply app_nth1; exact Lt].
  - right. replace i with (length l) by lia. split; [reflexivity | apply nth_app_last].
Qed.
Lemma length_upd i v l : length (upd i v l) = length l.
Proof. revert i; induction l as [|x r IH]; intros [|k]; cbn [upd length]; auto. Qed.
Lemma nth_upd_same i v l : (i < length l)%nat -> nth i (upd i v l) 0 = v.
Proof. revert i; induction l as [|x r IH]; intros [|k] H; cbn [upd nth length] in *; try lia; auto. apply IH; lia. Qed.
Lemma nth_upd_other i k v l : i <> k -> nth k (upd i v l) 0 = nth k l 0.
Proof. revert i k; induction l as [|x r IH]; intros [|i] [|k] H; cbn [upd nth]; try reflexivity; try congruence. apply IH; congruence. Qed.

(* the model's statement functions that fetch an operand with get_expr_value and use the symbol it
   returns, over the closed form of that code *)
Lemma eval_pop_eq E top r o (k : sym -> list aline) :
  (let (c0, bub) := eval_opd E top r o false in let (c1, v) := pop_value r bub in c0 ++ c1 ++ k v) =
  value_code E top r o ++ k (sym_of r (bub_of E top r o false)).
Proof.
  unfold value_code, sym_of. rewrite <- eval_opd_bub. destruct (eval_opd E top r o false) as [c0 bub]. cbn [fst snd].
  destruct (pop_value r bub) as [c1 v]. apply app_assoc.
Qed.
Lemma assign_int_eq S i o :
  assign_int S i o = value_code (env_of S) (top S) R1 o ++
    [AInstr (ASwso (SReg RFp) (SLit (- nth i (ioffs S) 0)) (sym_of R1 (bub_of (env_of S) (top S) R1 o false)))].
Proof. exact (eval_pop_eq _ _ _ _ (fun v => [AInstr (ASwso (SReg RFp) (SLit (- nth i (ioffs S) 0)) v)])). Qed.
(* g = o  has the code of  +o  evaluated into the word of g *)
Lemma assign_glob_eq S g o : assign_glob S g o = value_code (env_of S) (top S) (RGlob g) (OUn UPos o).
Proof.
  rewrite (value_code_un (ws S) (env_of S) eq_refl).
  exact (eval_pop_eq _ _ _ _ (fun v => if is_state_of (RGlob g) v then [] else [AInstr (AMov (RGlob g) v)])).
Qed.
Lemma lower_return_eq S o : let v := sym_of R0 (bub_of (env_of S) (top S) R0 o false) in
  lower_return S (Some o) = value_code (env_of S) (top S) R0 o ++
    [AInstr (ALwso R1 (SReg RFp) (SLit (- ws S))); AInstr (ASwso (SReg RFp) (SLit (- ws S)) v); AInstr (AJump (SReg R1)); AInstr AHaltI].
Proof.
  exact (eval_pop_eq _ _ _ _ (fun v => [AInstr (ALwso R1 (SReg RFp) (SLit (- ws S))); AInstr (ASwso (SReg RFp) (SLit (- ws S)) v);
                                         AInstr (AJump (SReg R1)); AInstr AHaltI])).
Qed.
(* write(o): the value is fetched under byte access and yielded *)
Lemma lower_write_eq S o :
  lower_write S (WrByte o) = fst (eval_opd (env_of S) (top S) R1 o false) ++
    fst (pop_value R1 (to_byte (bub_of (env_of S) (top S) R1 o false))) ++ [AInstr (AYield (sym_of R1 (to_byte (bub_of (env_of S) (top S) R1 o false))))].
Proof.
  cbn [lower_write]. rewrite <- eval_opd_bub.
  destruct (eval_opd (env_of S) (top S) R1 o false) as [c0 [ch z|[|] off|r|off|r|off]]; reflexivity.
Qed.
(* int x = o  when eval_expr pushes the value itself (a computed value, a global) *)
Lemma decl_int_pushed S o off : match o with OByte _ => False | _ => True end ->
  bub_of (env_of S) (top S) R1 o true = BuPushed off -> decl_int S o = fst (eval_opd (env_of S) (top S) R1 o true).
Proof.
  intros Nb. rewrite <- eval_opd_bub. destruct o; try destruct Nb; unfold decl_int; cbv zeta;
    destruct (eval_opd (env_of S) (top S) R1 _ true) as [c0 b]; cbn [fst snd]; intros ->; reflexivity.
Qed.
(* int x = a / b  is the division as in an assignment, then the push of r1 *)
Lemma decl_div_eq S op a b da :
  decl_div S op a b da = fst (eval_div (env_of S) (top S) R1 op a b false da) ++ [AInstr (ASwso (SReg RFp) (SLit (- (top S + ws S))) (SReg R1))].
Proof. unfold decl_div, eval_div. destruct (compare_operands _ a b) as [[c l] r]. reflexivity. Qed.

Section Stmt.
Ltac Zify.zify_post_hook ::= idtac.
Variable w : Z.
Variable R : regmap.
Variable lo : Z.
Variable fb : Z.
Hypothesis Hw : 2 <= w.
Variable code : Z -> option instr.
Variable cmem : mem.
Variable lab : label -> Z.
Hypothesis lab_range : forall l, 0 <= lab l < Machine.W w.
Variable funs : list fundef.            (* the program *)
Variable cf : nat -> nat -> Prop.       (* cf f n: function f may be called with n arguments *)
Hypothesis Hfb : fb = w.                (* the frame base is the return address *)
Variable gl : Z.
Variable ng : nat.
Variable nbg : nat.
Hypothesis Hgl : lo <= gl.
Notation W := (Machine.W w).
Notation wrap := (Machine.wrap w).
Notation sgn := (Machine.sgn w).
Notation lw := (Machine.lw w).
Notation sw := (Machine.sw w).
Notation r0 := (a_r0 R).
Notation r1 := (a_r1 R).
Notation fp := (a_fp R).
Notation FP := (LowerBoolProofs.FP w R).
Notation act := (Machine.act w code cmem).
Notation Halts := (HidV.Sphinx.Halts.Halts act).
Notation runs := (HidV.Sphinx.Halts.runs act).
Notation oval := (Idioms.oval w cmem).
Notation plc := (placed R lab code).
Notation rs := (res_sym R lab).
Notation code_runs := (LowerBoolProofs.code_runs w R code cmem lab).
Notation code_runs_app := (LowerBoolProofs.code_runs_app w R code cmem lab).
Notation code_runs_one := (LowerBoolProofs.code_runs_one w R code cmem lab).
Notation code_runs_nil := (LowerBoolProofs.code_runs_nil w R code cmem lab).
Notation runs_seq := (runs_seq w code cmem).
Notation goto_runs := (goto_runs w R code cmem lab lab_range).
Notation wf_senv := (wf_senv w fb).
Notation rep := (rep w R lo gl ng nbg).
Notation fagree := (fagree w R lo fb gl).
Let Hw1 : 1 <= w. Proof. lia. Qed.
Notation rp_regs := (rp_regs w R lo gl ng nbg).
Notation rp_g := (rp_g w R lo gl ng nbg).
Notation rp_li := (rp_li w R lo gl ng nbg).
Notation rp_lb := (rp_lb w R lo gl ng nbg).
Notation rp_gn := (rp_gn w R lo gl ng nbg).
Notation rp_gbn := (rp_gbn w R lo gl ng nbg).
Notation rp_gb := (rp_gb w R lo gl ng nbg).
Notation rp_gbd := (rp_gbd w R lo gl ng nbg).
Notation rp_i := (rp_i w R lo gl ng nbg).
Notation rp_b := (rp_b w R lo gl ng nbg).
Notation rep_bounds := (rep_bounds w R lo fb gl ng nbg Hw).
Notation rep_agree := (rep_agree w R lo fb gl ng nbg Hw Hgl).
Notation agree_fagree := (agree_fagree w R lo fb gl ng nbg).
Notation rep_oexp := (rep_oexp w R lo fb gl ng nbg Hw).
Notation rep_vars := (rep_vars w R lo fb gl ng nbg Hw).
Notation rep_beval := (rep_beval w R lo fb gl ng nbg Hw).
Notation rep_slot_i := (rep_slot_i w R lo fb gl ng nbg Hw).
Notation rep_room := (rep_room w R lo fb gl ng nbg Hw).
Notation fagree_trans := (fagree_trans w R lo fb gl Hw Hgl).
Notation FP_fagree := (FP_fagree w R lo fb gl Hw Hgl).
Notation wfs_w := (wfs_w w fb).
Notation wfs_fb := (wfs_fb w fb).
Notation FP_agree := (FP_agree w R lo Hw).
Notation regs_ok_agree := (regs_ok_agree w R lo Hw).
Notation agree_trans := (agree_trans w R lo).
Notation agree_sw := (agree_sw w R lo Hw).
Notation agree_mono := (agree_mono w R lo).
Notation frame_addr := (frame_addr w R lo Hw).
Notation frame_lbso_act := (frame_lbso_act w R lo Hw code cmem).
Notation frame_lwso_act := (frame_lwso_act w R lo Hw code cmem).
Notation lo_wf := (lo_wf w R lo).
Notation lo_i1 := (lo_i1 w R lo).
Notation lo_if := (lo_if w R lo).
Notation lo_r1 := (lo_r1 w R lo).
(* what a call of a library routine needs: hidc's register layout (ap, fp, r0, r1, r2 are the first
   five state words: the specifications of the routines in Stdlib*.v are stated there) and the
   library in the code *)
Definition lib_hyps : Prop :=
  a_fp R = 1 * w /\ a_r0 R = 2 * w /\ a_r1 R = 3 * w /\ a_r2 R = 4 * w /\
  lib_at w code (a_lib R) /\ lib_range w (a_lib R) /\ a_ap R = 0.

Definition in_loop (li : option (label * label)) : bool := match li with Some _ => true | None => false end.
(* the stubs of the runtime library the faults go to *)
Definition fault_off (ft : fault) : Z :=
  match ft with FDivZero => off_division_by_zero | FStackOverflow => off_stack_overflow end.
(* where a statement (list) leaves: its end, the loop labels, the return address of the function,
   the fault stub *)
Definition exit_pc (li : option (label * label)) (out : outcome) (endp ra : Z) : option Z :=
  match out, li with
  | ONormal, _ => Some endp
  | OBreak, Some (_, lb) => Some (lab lb)
  | OContinue, Some (lc, _) => Some (lab lc)
  | OReturn _, _ => Some ra
  | OFault ft, _ => Some (a_lib R + fault_off ft)
  | _, None => None
  end.
(* what may have changed: the frame below the return address; on return also the return-address
   slot, which receives the result *)
Definition frame_post (out : outcome) (m m' : mem) : Prop :=
  match out with
  | OReturn _ => gagree w R lo gl (FP m) m m'
  | OFault _ => True
  | _ => fagree m m'
  end.
(* memory m holds the globals G: the int globals in their words, the bool globals in their bytes
   (the fields rp_gn, rp_g, rp_gbn, rp_gb of `rep`, for a pair of lists instead of a store) *)
Definition greps (G : gstore) (m : mem) : Prop :=
  (length (fst G) = ng /\ forall g, (g < ng)%nat -> gl <= a_glob R g < W /\ inb m (a_glob R g) w = true /\ sgn (lw m (a_glob R g)) = nth g (fst G) 0) /\
  (length (snd G) = nbg /\ forall h, (h < nbg)%nat -> gl <= a_bglob R h < W /\ inb m (a_bglob R h) 1 = true /\
                                      lb m (a_bglob R h) = nth h (snd G) 0 /\ (nth h (snd G) 0 = 0 \/ nth h (snd G) 0 = 1)).
(* where the globals are: pairwise apart (the fields rp_gd, rp_gbd of `rep`: a fact about the layout only) *)
Definition glayout : Prop :=
  (forall g g', (g < ng)%nat -> (g' < ng)%nat -> g <> g' -> a_glob R g + w <= a_glob R g' \/ a_glob R g' + w <= a_glob R g) /\
  (forall h h', (h < nbg)%nat -> (h' < nbg)%nat -> h <> h' -> a_bglob R h <> a_bglob R h') /\
  (forall g h, (g < ng)%nat -> (h < nbg)%nat -> a_bglob R h + 1 <= a_glob R g \/ a_glob R g + w <= a_bglob R h).
Definition post (S S' : senv) (s s' : store) (out : outcome) (m m' : mem) : Prop :=
  match out with
  | ONormal => rep S' s' m' /\ wf_senv S'
  | OBreak | OContinue => rep S (trunc s s') m'
  | OReturn v => match v with Some x => sgn (lw m' (FP m - w)) = x | None => True end /\ greps (gs_of s') m'
  | OFault _ => True
  end.
(* the frame holds exactly the return address and the locals in scope.  Then frame_top w s = top S
   (tight_frame_top): the stack in use that the semantics counts in d is the one the entry guard
   of a callee measures *)
Definition tight (S : senv) : Prop := top S = w * (1 + Z.of_nat (length (ioffs S))) + Z.of_nat (length (boffs S)).
(* the code at p, ending at e, run from memory m *)
Definition reaches (li : option (label * label)) (S S' : senv) (s s' : store) (evs : list Z) (out : outcome)
    (p e : Z) (m : mem) : Prop :=
  exists m' pc', exit_pc li out e (lw m (FP m - w)) = Some pc' /\
    runs (mk p m) (map EOut evs) (mk pc' m') /\ frame_post out m m' /\ post S S' s s' out m m'.
Lemma reaches_normal li S S' s s' evs p e m m' :
  runs (mk p m) (map EOut evs) (mk e m') -> fagree m m' -> rep S' s' m' -> wf_senv S' ->
  reaches li S S' s s' evs ONormal p e m.
Proof. intros Rn Fa Rp' Wf'. exists m', e. split; [reflexivity|]. split; [exact Rn|]. split; [exact Fa|]. split; assumption. Qed.
Lemma reaches_fault li S S' s s' ft p e m m' :
  runs (mk p m) [] (mk (a_lib R + fault_off ft) m') -> reaches li S S' s s' [] (OFault ft) p e m.
Proof. intros Rn. exists m', (a_lib R + fault_off ft). split; [reflexivity|]. split; [exact Rn|]. split; exact I. Qed.

Lemma store_word_runs m v x off : oval m (rs v) = Some x -> regs_ok w R lo m -> 0 < off <= W / 2 ->
  inb m (FP m - off) w = true -> code_runs [AInstr (ASwso (SReg RFp) (SLit (- off)) v)] m (sw m (FP m - off) x).
Proof.
  intros V L Ho I. apply code_runs_one. intros p C. exact (frame_swso_act w R lo Hw code cmem p m off _ x L C Ho V I).
Qed.
Lemma store_byte_runs m v x off : oval m (rs v) = Some x -> regs_ok w R lo m -> 0 < off <= W / 2 ->
  inb m (FP m - off) 1 = true -> code_runs [AInstr (ASbso (SReg RFp) (SLit (- off)) v)] m (Machine.sb m (FP m - off) x).
Proof.
  intros V L Ho I. apply code_runs_one. intros p C. cbn [res_ins res_sym regaddr] in C.
  pose proof (act_sbso w code cmem p m (St fp) (Imm (- off)) (rs v) (FP m) (wrap (- off)) x C
                (oval_st w cmem m fp (lo_if m L)) (oval_imm w cmem m _) V) as A.
  rewrite (frame_addr m off L Ho) in A. exact (A I).
Qed.

(* a byte load from an absolute address, read off the word there *)
Lemma addr_lbs_act q m d a : wf_mem m -> code q = Some (ILoad WByte SState (St d) (Imm a)) -> 0 <= a < W ->
  inb m a w = true -> inb m d w = true ->
  act (mk q m) = ANext (mk (q + 1) (sw m d (lw m a mod 256))) None.
Proof.
  intros Wfm C Ha I J. rewrite <- (lb_lw w Hw m a Wfm). exact (abs_lbs_act w code cmem q m d a C Ha (inb_byte w Hw m a I) J).
Qed.

Lemma frame_load_runs m off : regs_ok w R lo m -> 0 < off <= W / 2 -> inb m (FP m - off) w = true ->
  let m1 := sw m r1 (lw m (FP m - off)) in
  code_runs [AInstr (ALwso R1 (SReg RFp) (SLit (- off)))] m m1 /\ agree w R lo lo m m1 /\ oval m1 (St r1) = Some (lw m (FP m - off)).
Proof.
  intros L Ho I m1.
  destruct (load_props w R lo Hw code cmem lab R1 (ALwso R1 (SReg RFp) (SLit (- off))) m _ (or_intror eq_refl) L
              (lw_range w Hw1 m _ (lo_wf m L)) (fun p C => frame_lwso_act p m r1 off L C Ho I (lo_i1 m L))) as [A [V C]].
  split; [exact C|]. split; [exact A | exact (symval_oval w R cmem lab _ _ _ V)].
Qed.

(* The lemmas about a new or overwritten local come in pairs, for an int local (a word, lw) and for
   a bool local (a byte, lb): wf_push_*, rep_push_*, rep_pushed_*, rep_set_*; likewise glob_agree /
   globb_agree and store_word_runs / store_byte_runs *)
Lemma wf_push_int S : wf_senv S -> wf_senv (push_int S).
Proof.
  intros Wf. destruct Wf as [Ww Wfb Wi Wb Wii Wbb Wib]. constructor; cbn [push_int ws top ioffs boffs]; try assumption; try lia.
  - intros i Hi. destruct (nth_snoc _ _ i Hi) as [[Lt ->] | [-> ->]]; [specialize (Wi i Lt)|]; lia.
  - intros j Hj. specialize (Wb j Hj). lia.
  - intros i i' Hi Hi' Ne.
    destruct (nth_snoc _ _ i Hi) as [[Lt ->] | [-> ->]]; destruct (nth_snoc _ _ i' Hi') as [[Lt' ->] | [-> ->]];
      [apply Wii; assumption | specialize (Wi i Lt); lia | specialize (Wi i' Lt'); lia | congruence].
  - intros i j Hi Hj. destruct (nth_snoc _ _ i Hi) as [[Lt ->] | [-> ->]]; [apply Wib; assumption | specialize (Wb j Hj); lia].
Qed.
Lemma wf_push_bool S : wf_senv S -> wf_senv (push_bool S).
Proof.
  intros Wf. destruct Wf as [Ww Wfb Wi Wb Wii Wbb Wib]. constructor; cbn [push_bool ws top ioffs boffs]; try assumption; try lia.
  - intros i Hi. specialize (Wi i Hi). lia.
  - intros j Hj. destruct (nth_snoc _ _ j Hj) as [[Lt ->] | [-> ->]]; [specialize (Wb j Lt)|]; lia.
  - intros j j' Hj Hj' Ne.
    destruct (nth_snoc _ _ j Hj) as [[Lt ->] | [-> ->]]; destruct (nth_snoc _ _ j' Hj') as [[Lt' ->] | [-> ->]];
      [apply Wbb; assumption | specialize (Wb j Lt); lia | specialize (Wb j' Lt'); lia | congruence].
  - intros i j Hi Hj. destruct (nth_snoc _ _ j Hj) as [[Lt ->] | [-> ->]]; [apply Wib; assumption | specialize (Wi i Hi); lia].
Qed.

Lemma rep_push_int S s m m' v : wf_senv S -> rep S s m -> agree w R lo (FP m - top S) m m' ->
  top S + w <= FP m - lo -> sgn (lw m' (FP m - (top S + w))) = v ->
  rep (push_int S) (mkstore (si s ++ [v]) (sb s) (sg s) (sgb s)) m'.
Proof.
  intros Wf Rp A Hr Hv. pose proof (rep_agree S s m m' Wf Rp A) as Rp'.
  pose proof (FP_agree _ m m' (rp_regs S s m Rp) A) as EF.
  destruct Rp' as [Rg Rlo Rh Rsz Rli Rlb Ri Rb Rap Rgl Rgn Rgg Rgd Rbn Rbg Rbd].
  pose proof (wfs_w S Wf) as Ews.
  constructor; cbn [push_int top ioffs boffs si sb]; rewrite ?Ews; try assumption; try lia.
  - rewrite !app_length. cbn [length]. lia.
  - intros i Hi. destruct (nth_snoc _ _ i Hi) as [[Lt ->] | [-> ->]].
    + rewrite app_nth1 by (rewrite Rli; exact Lt). apply Ri. exact Lt.
    + rewrite <- Rli, nth_app_last, EF. exact Hv.
Qed.
Lemma rep_push_bool S s m m' v : wf_senv S -> rep S s m -> agree w R lo (FP m - top S) m m' ->
  top S + 1 <= FP m - lo -> lb m' (FP m - (top S + 1)) = v -> v = 0 \/ v = 1 ->
  rep (push_bool S) (mkstore (si s) (sb s ++ [v]) (sg s) (sgb s)) m'.
Proof.
  intros Wf Rp A Hr Hv Hn. pose proof (rep_agree S s m m' Wf Rp A) as Rp'.
  pose proof (FP_agree _ m m' (rp_regs S s m Rp) A) as EF.
  destruct Rp' as [Rg Rlo Rh Rsz Rli Rlb Ri Rb Rap Rgl Rgn Rgg Rgd Rbn Rbg Rbd].
  constructor; cbn [push_bool top ioffs boffs si sb]; try assumption; try lia.
  - rewrite !app_length. cbn [length]. lia.
  - intros j Hj. destruct (nth_snoc _ _ j Hj) as [[Lt ->] | [-> ->]].
    + rewrite app_nth1 by (rewrite Rlb; exact Lt). apply Rb. exact Lt.
    + rewrite <- Rlb, nth_app_last, EF. split; assumption.
Qed.
Lemma rep_pushed_int S li v lb0 g0 gb0 m : length li = length (ioffs S) -> rep (push_int S) (mkstore (li ++ [v]) lb0 g0 gb0) m ->
  sgn (lw m (FP m - (top S + ws S))) = v.
Proof.
  intros Hl Rp. pose proof (rp_i (push_int S) _ m Rp (length (ioffs S))) as X. cbn [push_int ioffs si] in X.
  rewrite app_length in X. cbn [length] in X. specialize (X ltac:(lia)). now rewrite nth_app_last, <- Hl, nth_app_last in X.
Qed.
Lemma rep_pushed_bool S li lb0 v g0 gb0 m : length lb0 = length (boffs S) -> rep (push_bool S) (mkstore li (lb0 ++ [v]) g0 gb0) m ->
  lb m (FP m - (top S + 1)) = v.
Proof.
  intros Hl Rp. pose proof (rp_b (push_bool S) _ m Rp (length (boffs S))) as X. cbn [push_bool boffs sb] in X.
  rewrite app_length in X. cbn [length] in X. specialize (X ltac:(lia)). destruct X as [X _]. now rewrite nth_app_last, <- Hl, nth_app_last in X.
Qed.
Lemma agree_sb hi m a v : 0 <= a -> lo <= a -> a + 1 <= hi -> agree w R lo hi m (Machine.sb m a v).
Proof.
  intros Ha Hl Hh. unfold agree, Machine.sb. split; [reflexivity|]. split.
  - intros Wfm. apply wf_setb; [exact Wfm | exact Ha | apply Z.mod_pos_bound; lia].
  - intros x X N0 N1 N2 N3. apply getb_setb_other; [exact Ha | exact X | lia].
Qed.
(* a change inside the locals' part of the frame, (fb, top]: what it takes to represent the new locals *)
Lemma rep_locals S s m m' li' lb' : wf_senv S -> rep S s m -> agree w R lo (FP m - fb) m m' ->
  length li' = length (ioffs S) -> length lb' = length (boffs S) ->
  (forall i, (i < length (ioffs S))%nat -> sgn (lw m' (FP m - nth i (ioffs S) 0)) = nth i li' 0) ->
  (forall j, (j < length (boffs S))%nat -> lb m' (FP m - nth j (boffs S) 0) = nth j lb' 0 /\ (nth j lb' 0 = 0 \/ nth j lb' 0 = 1)) ->
  rep S (mkstore li' lb' (sg s) (sgb s)) m' /\ fagree m m'.
Proof.
  intros Wf Rp Aa Li Lb Hi Hb. pose proof (rep_bounds S s m Wf Rp) as B. pose proof (rp_regs S s m Rp) as L.
  assert (Fa : fagree m m') by (apply (agree_gagree w R lo gl); exact Aa).
  assert (EF : FP m' = FP m) by apply (FP_fagree m m' L Fa).
  split; [|exact Fa]. pose proof (glob_agree w R lo gl ng nbg Hw Hgl S s m m' _ Rp Aa ltac:(lia)) as Gg. pose proof (globb_agree w R lo gl ng nbg Hw Hgl S s m m' _ Rp Aa ltac:(lia)) as Gb.
  destruct Rp as [Rg Rlo Rh Rsz Rli Rlb Ri Rb Rap Rgl Rgn Rgg Rgd Rbn Rbg Rbd].
  constructor; cbn [si sb sg sgb]; rewrite ?EF, ?(proj1 Aa); try assumption.
  - apply (regs_ok_fagree w R lo fb gl Hw Hgl m m' L Fa).
  - intros Ap. rewrite (ap_agree w R lo Hw _ _ _ Ap Aa). exact (Rap Ap).
Qed.
Lemma rep_set_int S s m i x : wf_senv S -> rep S s m -> (i < length (ioffs S))%nat -> inrange w x ->
  let m' := sw m (FP m - nth i (ioffs S) 0) x in
  rep S (mkstore (upd i (sgn x) (si s)) (sb s) (sg s) (sgb s)) m' /\ fagree m m'.
Proof.
  intros Wf Rp Hi Hx m'. pose proof (rep_bounds S s m Wf Rp) as B. pose proof (wfs_i w fb S Wf i Hi) as Oi.
  apply (rep_locals S s m m' _ _ Wf Rp).
  - apply agree_sw; [lia | right; right; lia].
  - rewrite length_upd. apply (rp_li S s m Rp).
  - apply (rp_lb S s m Rp).
  - intros k Hk. pose proof (wfs_i w fb S Wf k Hk) as Ok. destruct (Nat.eq_dec k i) as [->|Ne].
    + rewrite nth_upd_same by (rewrite (rp_li S s m Rp); exact Hi). unfold m'. rewrite (lw_sw_same w Hw1) by lia. now rewrite (wrap_small w x Hx).
    + rewrite nth_upd_other by congruence. rewrite <- (rp_i S s m Rp k Hk). f_equal. unfold m'.
      pose proof (wfs_ii w fb S Wf i k Hi Hk ltac:(congruence)) as Dk. apply (lw_sw_other w Hw1); lia.
  - intros j Hj. destruct (rp_b S s m Rp j Hj) as [E N]. split; [|exact N]. rewrite <- E. unfold m'.
    pose proof (wfs_ib w fb S Wf i j Hi Hj) as Dj. pose proof (wfs_b w fb S Wf j Hj) as Oj. apply (lb_sw_other w Hw1); lia.
Qed.
Lemma rep_set_bool S s m j v : wf_senv S -> rep S s m -> (j < length (boffs S))%nat -> v = 0 \/ v = 1 ->
  let m' := Machine.sb m (FP m - nth j (boffs S) 0) v in
  rep S (mkstore (si s) (upd j v (sb s)) (sg s) (sgb s)) m' /\ fagree m m'.
Proof.
  intros Wf Rp Hj Hv m'. pose proof (rep_bounds S s m Wf Rp) as B. pose proof (wfs_b w fb S Wf j Hj) as Oj.
  apply (rep_locals S s m m' _ _ Wf Rp).
  - apply agree_sb; lia.
  - apply (rp_li S s m Rp).
  - rewrite length_upd. apply (rp_lb S s m Rp).
  - intros i Hi. rewrite <- (rp_i S s m Rp i Hi). f_equal. unfold m'.
    pose proof (wfs_ib w fb S Wf i j Hi Hj) as Dj. pose proof (wfs_i w fb S Wf i Hi) as Oi. apply (lw_sb_other w Hw1); lia.
  - intros k Hk. pose proof (wfs_b w fb S Wf k Hk) as Ok. destruct (Nat.eq_dec k j) as [->|Ne].
    + rewrite nth_upd_same by (rewrite (rp_lb S s m Rp); exact Hj). unfold m'. rewrite lb_sb_same. split; [|exact Hv].
      destruct Hv as [-> | ->]; reflexivity.
    + rewrite nth_upd_other by congruence. destruct (rp_b S s m Rp k Hk) as [E N]. split; [|exact N]. rewrite <- E. unfold m'.
      pose proof (wfs_bb w fb S Wf j k Hj Hk ltac:(congruence)) as Dk. apply lb_sb_other; lia.
Qed.

Lemma rep_opd_hyps S s m o keep : wf_senv S -> rep S s m -> oscoped w ng (length (ioffs S)) (length (boffs S)) o ->
  need_int S o keep <= FP m - lo ->
  wsize (env_of S) = w /\ regs_ok w R lo m /\ room_ok w R lo (top S) m /\
  oexp_ok w R (env_of S) lo (FP m - top S) m o /\ Z.of_nat (temps o keep) * w <= FP m - top S - lo.
Proof.
  intros Wf Rp Sc Hn. unfold need_int in Hn. rewrite (wfs_w S Wf) in Hn.
  assert (0 <= Z.of_nat (temps o keep) * w) by (apply Z.mul_nonneg_nonneg; lia).
  split; [apply (wfs_w S Wf)|]. split; [apply (rp_regs S s m Rp)|].
  split; [apply (rep_room S s m (top S) Wf Rp); lia|].
  split; [apply (rep_oexp S s m o _ Wf Rp Sc); lia | lia].
Qed.
(* get_expr_value(rg, o): the operand evaluated and popped; its value is in the symbol of its bubble *)
Lemma get_value_runs S s m rg o : rg = R0 \/ rg = R1 -> wf_senv S -> rep S s m -> oscoped w ng (length (ioffs S)) (length (boffs S)) o ->
  need_int S o false <= FP m - lo ->
  exists m2, code_runs (value_code (env_of S) (top S) rg o) m m2 /\ agree w R lo (FP m - top S) m m2 /\
             oval m2 (rs (sym_of rg (bub_of (env_of S) (top S) rg o false))) = Some (wval w R (env_of S) m o).
Proof.
  intros Hr Wf Rp Sc Hn. destruct (rep_opd_hyps S s m o false Wf Rp Sc Hn) as [HwE [L [Ro [Oe T]]]].
  destruct (get_value_props w R (env_of S) lo Hw HwE code cmem lab o (eval_opd_props w R (env_of S) lo Hw HwE code cmem lab o)
              (top S) rg m Hr L Ro Oe T) as [A [V C]].
  eexists. split; [exact C|]. split; [exact A | exact (symval_oval w R cmem lab _ _ _ V)].
Qed.
Lemma sval_ieval S s m o : wf_senv S -> rep S s m -> oscoped w ng (length (ioffs S)) (length (boffs S)) o ->
  sgn (wval w R (env_of S) m o) = ieval w s o /\ inrange w (wval w R (env_of S) m o).
Proof.
  intros Wf Rp Sc. pose proof (rp_regs S s m Rp) as L.
  split; [|apply (wval_range w R (env_of S) Hw); apply (lo_wf m L)].
  rewrite (sgn_wval w R (env_of S) lo Hw (FP m - top S) m o (lo_wf m L)).
  - apply (rep_sval w R lo fb gl ng nbg Hw S s m o Wf Rp Sc).
  - apply (rep_oexp S s m o _ Wf Rp Sc). lia.
Qed.

(* a byte stored into the low byte of a zero word: the word is the byte (little endian) *)
Lemma lw_sb_zero m a b : wf_mem m -> 0 <= a -> 0 <= b < 256 -> lw m a = 0 -> lw (Machine.sb m a b) a = b.
Proof.
  intros Wfm Ha Hb Z0. unfold Machine.lw, Machine.sb, Machine.wn in *.
  destruct (Z.to_nat w) as [|k] eqn:Ek; [lia|]. cbn [loadn] in *.
  rewrite getb_setb_same. rewrite (loadn_ext k (setb m a (b mod 256)) m (a + 1)) by (intros x Hx; apply getb_setb_other; lia).
  pose proof (Wfm a). pose proof (loadn_range k m (a + 1) Wfm). rewrite Z.mod_small by lia. lia.
Qed.
(* int x = v  for a byte-sized local v read as an int: clear the new word, copy the byte into its low byte *)
Lemma decl_byte_runs S s m j : wf_senv S -> rep S s m -> yscoped (length (ioffs S)) (length (boffs S)) j ->
  top S + w <= FP m - lo ->
  exists m', code_runs (decl_int S (OByte j)) m m' /\
             rep (push_int S) (mkstore (si s ++ [ieval w s (OByte j)]) (sb s) (sg s) (sgb s)) m' /\ agree w R lo (FP m - top S) m m'.
Proof.
  intros Wf Rp Sc Ht. pose proof (rep_bounds S s m Wf Rp) as B. pose proof (rp_regs S s m Rp) as L.
  cbn [decl_int]. rewrite (wfs_w S Wf). set (tp := top S) in *. set (a := FP m - (tp + w)).
  assert (Ho : 0 < tp + w <= W / 2) by lia.
  assert (Ia : inb m a w = true) by (apply inb_true; unfold a; lia).
  pose proof (store_word_runs m (SLit 0) (wrap 0) (tp + w) (oval_imm w cmem m 0) L Ho Ia) as C1. fold a in C1.
  set (m1 := sw m a (wrap 0)) in *.
  assert (A1 : agree w R lo (FP m - tp) m m1) by (apply agree_sw; unfold a; [lia | right; right; lia]).
  pose proof (regs_ok_agree _ m m1 L A1) as L1. pose proof (FP_agree _ m m1 L A1) as F1.
  pose proof (rep_agree S s m m1 Wf Rp A1) as Rp1.
  destruct (rep_slot_y w R lo fb gl ng nbg Hw S s m1 j (FP m1 - top S) Wf Rp1 Sc (Z.le_refl _)) as [O1 [O2 [O3 _]]].
  pose proof (rep_yval w R lo fb gl ng nbg Hw S s m1 j Wf Rp1 Sc) as Bv.
  set (bv := lb m1 (FP m1 - byte_off (env_of S) j)) in *.
  assert (Rb : 0 <= bv < 256) by (apply (lb_range m1 _ (lo_wf m1 L1))).
  set (m2 := sw m1 r1 bv).
  assert (C2 : code_runs [AInstr (ALbso R1 (SReg RFp) (SLit (- byte_off (env_of S) j)))] m1 m2)
    by (apply code_runs_one; intros q Cq; exact (frame_lbso_act q m1 r1 _ L1 Cq O1 O3 (lo_i1 m1 L1))).
  assert (A2 : agree w R lo (FP m - tp) m m2) by (eapply agree_trans; [exact A1 | apply agree_sw; [apply (lo_r1 m1 L1) | auto]]).
  pose proof (regs_ok_agree _ m m2 L A2) as L2. pose proof (FP_agree _ m m2 L A2) as F2.
  assert (Ov : oval m2 (St r1) = Some bv).
  { unfold m2. rewrite (oval_st_sw_same w Hw cmem m1 _ _ (lo_r1 m1 L1) (lo_i1 m1 L1)). f_equal. exact (wrap_small w bv (byte_inrange w Hw bv Rb)). }
  assert (I2 : inb m2 (FP m2 - (tp + w)) 1 = true) by (rewrite F2; fold a; unfold m2, m1; rewrite !inb_sw; exact (inb_byte w Hw m a Ia)).
  pose proof (store_byte_runs m2 (SReg R1) bv (tp + w) Ov L2 Ho I2) as C3. rewrite F2 in C3. fold a in C3.
  set (m3 := Machine.sb m2 a bv) in *.
  assert (A3 : agree w R lo (FP m - tp) m m3) by (eapply agree_trans; [exact A2 | apply agree_sb; unfold a; lia]).
  exists m3. split; [exact (code_runs_app [_] [_; _] _ _ _ C1 (code_runs_app [_] [_] _ _ _ C2 C3))|]. split; [|exact A3].
  apply (rep_push_int S s m); try assumption. fold tp a. rewrite <- Bv.
  unfold m3. rewrite (lw_sb_zero m2 a bv (lo_wf m2 L2)); [| unfold a; lia | exact Rb |].
  - apply (sgn_small w). pose proof (half_ge_256 w Hw). lia.
  - unfold m2. rewrite (lw_sw_other w Hw1) by (destruct L1; unfold a; lia). unfold m1. rewrite (lw_sw_same w Hw1) by (unfold a; lia).
    rewrite (wrap_wrap w Hw1). exact (wrap_0 w Hw).
Qed.
Lemma push_int_runs S s m m2 v xw : wf_senv S -> rep S s m -> agree w R lo (FP m - top S) m m2 -> top S + w <= FP m - lo ->
  oval m2 (rs v) = Some xw -> inrange w xw ->
  exists m', code_runs [AInstr (ASwso (SReg RFp) (SLit (- (top S + ws S))) v)] m2 m' /\
             rep (push_int S) (mkstore (si s ++ [sgn xw]) (sb s) (sg s) (sgb s)) m' /\ agree w R lo (FP m - top S) m m'.
Proof.
  intros Wf Rp A Ht Ov Rx. pose proof (rep_bounds S s m Wf Rp) as B. pose proof (rp_regs S s m Rp) as L. rewrite (wfs_w S Wf).
  pose proof (regs_ok_agree _ m m2 L A) as L2. pose proof (FP_agree _ m m2 L A) as F2.
  assert (I2 : inb m2 (FP m2 - (top S + w)) w = true) by (rewrite F2, (agree_inb w R lo _ m m2 _ _ A); apply inb_true; lia).
  eexists. split; [exact (store_word_runs m2 v xw (top S + w) Ov L2 ltac:(lia) I2)|].
  assert (A' : agree w R lo (FP m - top S) m (sw m2 (FP m2 - (top S + w)) xw)).
  { eapply agree_trans; [exact A|]. apply agree_sw; rewrite F2; [lia | right; right; lia]. }
  split; [|exact A']. apply (rep_push_int S s m _ _ Wf Rp A' Ht).
  rewrite F2, (lw_sw_same w Hw1) by lia. now rewrite (wrap_small w _ Rx).
Qed.
(* int x = o  for a literal or a local: fetched as by get_expr_value, then pushed *)
Lemma decl_value_runs S s m o : wf_senv S -> rep S s m -> oscoped w ng (length (ioffs S)) (length (boffs S)) o ->
  need_int S o false <= FP m - lo -> top S + w <= FP m - lo ->
  exists m', code_runs (value_code (env_of S) (top S) R1 o ++
                        [AInstr (ASwso (SReg RFp) (SLit (- (top S + ws S))) (sym_of R1 (bub_of (env_of S) (top S) R1 o false)))]) m m' /\
             rep (push_int S) (mkstore (si s ++ [ieval w s o]) (sb s) (sg s) (sgb s)) m' /\ agree w R lo (FP m - top S) m m'.
Proof.
  intros Wf Rp Sc Hn Ht. destruct (get_value_runs S s m R1 o (or_intror eq_refl) Wf Rp Sc Hn) as [m2 [C [A Ov]]].
  destruct (sval_ieval S s m o Wf Rp Sc) as [Sv Rv].
  destruct (push_int_runs S s m m2 _ _ Wf Rp A Ht Ov Rv) as [m' [Cs [Rp' A']]]. rewrite Sv in Rp'.
  exists m'. split; [exact (code_runs_app _ _ _ _ _ C Cs) | split; assumption].
Qed.
(* int x = o  for a computed value or a global: eval_expr has pushed it *)
Lemma decl_pushed_runs S s m o : wf_senv S -> rep S s m -> oscoped w ng (length (ioffs S)) (length (boffs S)) o ->
  need_int S o true <= FP m - lo -> top S + w <= FP m - lo -> bub_of (env_of S) (top S) R1 o true = BuPushed (top S + w) ->
  exists m', code_runs (fst (eval_opd (env_of S) (top S) R1 o true)) m m' /\
             rep (push_int S) (mkstore (si s ++ [ieval w s o]) (sb s) (sg s) (sgb s)) m' /\ agree w R lo (FP m - top S) m m'.
Proof.
  intros Wf Rp Sc Hn Ht Eb. destruct (rep_opd_hyps S s m o true Wf Rp Sc Hn) as [HwE [L [Ro [Oe T]]]].
  destruct (eval_opd_props w R (env_of S) lo Hw HwE code cmem lab o (top S) R1 true m (or_intror eq_refl) L Ro Oe T) as [A [V Cd]].
  eexists. split; [exact Cd|]. split; [|exact A].
  apply (rep_push_int S s m _ _ Wf Rp A Ht). rewrite Eb in V. cbn [bub_val] in V. rewrite (FP_agree _ m _ L A) in V. rewrite V.
  exact (proj1 (sval_ieval S s m o Wf Rp Sc)).
Qed.
Lemma decl_int_runs S s m o : wf_senv S -> rep S s m -> oscoped w ng (length (ioffs S)) (length (boffs S)) o -> not_trunc o ->
  need_int S o true <= FP m - lo -> top S + w <= FP m - lo ->
  exists m', code_runs (decl_int S o) m m' /\
             rep (push_int S) (mkstore (si s ++ [ieval w s o]) (sb s) (sg s) (sgb s)) m' /\ agree w R lo (FP m - top S) m m'.
Proof.
  intros Wf Rp Sc Nt Hn Ht. pose proof (wfs_w S Wf : wsize (env_of S) = w) as HwE.
  destruct o as [ch z|i|op x y|u x|g|tx|yj]; [| | | | | destruct Nt | exact (decl_byte_runs S s m yj Wf Rp Sc Ht)].
  1, 2: exact (decl_value_runs S s m _ Wf Rp Sc Hn Ht).
  all: rewrite (decl_int_pushed S _ (top S + w)); [apply decl_pushed_runs; try assumption | exact I |]; cbn [bub_of]; rewrite HwE; reflexivity.
Qed.

Lemma set_int_runs S s m m2 i v xw : wf_senv S -> rep S s m -> agree w R lo (FP m - top S) m m2 -> (i < length (ioffs S))%nat ->
  oval m2 (rs v) = Some xw -> inrange w xw ->
  exists m', code_runs [AInstr (ASwso (SReg RFp) (SLit (- nth i (ioffs S) 0)) v)] m2 m' /\
             rep S (mkstore (upd i (sgn xw) (si s)) (sb s) (sg s) (sgb s)) m' /\ fagree m m'.
Proof.
  intros Wf Rp A Hi Ov Rx. pose proof (rep_agree S s m m2 Wf Rp A) as Rp2.
  destruct (rep_slot_i S s m2 i (FP m2 - top S) Wf Rp2 Hi (Z.le_refl _)) as [O1 [_ [O3 _]]].
  destruct (rep_set_int S s m2 i _ Wf Rp2 Hi Rx) as [Rp3 Fa].
  eexists. split; [exact (store_word_runs m2 v xw _ Ov (rp_regs S s m2 Rp2) O1 O3)|]. split; [exact Rp3|].
  exact (fagree_trans m m2 _ (rp_regs S s m Rp) (agree_fagree S s m m2 Wf Rp A) Fa).
Qed.
Lemma assign_int_runs li S s m i o st C S' st' ex p :
  lower_stmt S li (SAssignI i o) st = (C, S', st', ex) -> plc C p -> wf_senv S -> rep S s m ->
  sscoped w ng nbg lib_hyps cf (length (ioffs S)) (length (boffs S)) (in_loop li) (SAssignI i o) ->
  fst (need_stmt S (SAssignI i o)) <= FP m - lo ->
  reaches li S S' s (mkstore (upd i (ieval w s o) (si s)) (sb s) (sg s) (sgb s)) [] ONormal p (p + size C) m.
Proof.
  intros Ev P Wf Rp [Hi Sc] Hn. cbn [lower_stmt] in Ev. injection Ev as <- <- <- <-.
  cbn [need_stmt fst] in Hn. rewrite assign_int_eq in *.
  destruct (get_value_runs S s m R1 o (or_intror eq_refl) Wf Rp Sc Hn) as [m2 [C [A Ov]]].
  destruct (sval_ieval S s m o Wf Rp Sc) as [Sv Rv].
  destruct (set_int_runs S s m m2 i _ _ Wf Rp A Hi Ov Rv) as [m' [Cs [Rp' Fa]]]. rewrite Sv in Rp'.
  exact (reaches_normal li S S s _ [] p _ m m' (code_runs_app _ _ _ _ _ C Cs p P) Fa Rp' Wf).
Qed.

Lemma yield_runs p m v x : code p = Some (IYield v) -> oval m v = Some x ->
  runs (mk p m) [EOut (x mod 256)] (mk (p + 1) m).
Proof. intros C A. apply (runs_next act _ _ (Some (EOut (x mod 256)))). apply (act_yield w code cmem p m v x); assumption. Qed.
Lemma yield_imm_runs p m z : code p = Some (IYield (Imm z)) -> runs (mk p m) [EOut (z mod 256)] (mk (p + 1) m).
Proof. intros C. rewrite <- (wrap_mod256 w Hw z). apply (yield_runs p m (Imm z)); [exact C | apply oval_imm]. Qed.
Lemma write_runs S s m x il p : wf_senv S -> rep S s m ->
  sscoped w ng nbg lib_hyps cf (length (ioffs S)) (length (boffs S)) il (SWrite x) -> fst (need_stmt S (SWrite x)) <= FP m - lo ->
  plc (lower_write S x) p ->
  exists m', runs (mk p m) [EOut (wbyte w s x)] (mk (p + size (lower_write S x)) m') /\ rep S s m' /\ fagree m m'.
Proof.
  intros Wf Rp Sc Hn P. pose proof (rp_regs S s m Rp) as L.
  destruct x as [z|c|o].
  1, 2: cbn [lower_write wbyte plc res_ins res_sym] in *; destruct P as [C _]; exists m; cbn [size]; replace (p + (1 + 0)) with (p + 1) by lia;
    (split; [apply yield_imm_runs; exact C | split; [exact Rp | apply fagree_refl]]).
  cbn [sscoped need_stmt fst] in Sc, Hn. cbn [wbyte]. rewrite lower_write_eq, app_assoc in *.
  destruct (rep_opd_hyps S s m o false Wf Rp Sc Hn) as [HwE [_ [Ro [Oe T]]]].
  destruct (sval_ieval S s m o Wf Rp Sc) as [Sv Rv].
  set (E := env_of S) in *. set (tp := top S) in *. set (b := bub_of E tp R1 o false) in *.
  destruct (eval_opd_props w R E lo Hw HwE code cmem lab o tp R1 false m (or_intror eq_refl) L Ro Oe T) as [A [V Cd]]. fold b in V.
  set (m1 := eval_mem w R E tp R1 o false m) in *.
  pose proof (regs_ok_agree _ m m1 L A) as L1. pose proof (FP_agree _ m m1 L A) as F1.
  (* the value is in the frame, in r1, or in the word of a global; these words lie below W *)
  assert (Hr1 : r1 < W) by (pose proof (rep_bounds S s m Wf Rp); lia).
  assert (Bok : bub_ok w R lo (FP m1 - tp) m1 (to_byte b)).
  { apply (bub_ok_to_byte w R lo Hw).
    - apply (bub_of_ok_nokeep w R E lo Hw HwE tp R1 o m1 (or_intror eq_refl) L1 (room_ok_agree w R lo Hw _ tp m m1 L A Ro)).
      rewrite F1. apply (oexp_ok_agree w R E lo Hw _ (FP m - tp) m m1); assumption.
    - unfold b. destruct o as [ch z|i|op x y|u x|g|tx|yj]; cbn [bub_of regaddr]; try exact I;
        [exact Hr1 | exact Hr1 | exact (proj2 (proj1 (rp_g S s m Rp g Sc))) |
         destruct (bub_of E tp R1 tx false); exact I]. }
  destruct (pop_props w R lo Hw code cmem lab R1 (to_byte b) _ m1 (or_intror eq_refl) L1 Bok) as [A2 [S2 C2]].
  set (m2 := pop_mem w R R1 (to_byte b) m1) in *.
  assert (A12 : agree w R lo (FP m - tp) m m2) by (eapply agree_trans; [exact A | apply (agree_mono lo); [destruct Ro; lia | exact A2]]).
  apply placed_app in P. destruct P as [P01 [Cy _]].
  exists m2. split; [|split; [exact (rep_agree S s m m2 Wf Rp A12) | exact (agree_fagree S s m m2 Wf Rp A12)]].
  apply (runs_trans act _ [] (mk (p + size (fst (eval_opd E tp R1 o false) ++ fst (pop_value R1 (to_byte b)))) m2)).
  - exact (code_runs_app _ _ _ _ _ Cd C2 p P01).
  - rewrite (size_app (_ ++ _)), Z.add_assoc. cbn [size]. rewrite Z.add_0_r.
    replace (ieval w s o mod 256) with (bub_val w R m1 (to_byte b) mod 256).
    + exact (yield_runs _ m2 _ _ Cy (symval_oval w R cmem lab _ _ _ S2)).
    + rewrite (bub_val_to_byte w R Hw m1 b (lo_wf m1 L1)), V, Z.mod_mod, <- Sv by lia. symmetry. exact (sgn_mod256 w Hw _ Rv).
Qed.

(* value = get_expr_value(r1, e) for a bool expression: its value in the symbol v *)
Lemma value_bool_runs S s m e st c0 v st0 p : wf_senv S -> rep S s m ->
  bscoped w ng nbg (length (ioffs S)) (length (boffs S)) e -> top S + Z.of_nat (temps_b e) * w <= FP m - lo ->
  eval_bool_value (env_of S) R1 e st = (c0, v, st0) -> plc c0 p ->
  exists m1, runs (mk p m) [] (mk (p + size c0) m1) /\ agree w R lo (FP m - top S) m m1 /\
             oval m1 (rs v) = Some (b2z (bevals w s e)).
Proof.
  intros Wf Rp Sc Hn E0 P0. rewrite <- (rep_beval S s m e Wf Rp Sc).
  exact (bool_value_runs w R (env_of S) lo Hw (wfs_w S Wf) code cmem lab lab_range e st c0 v st0 p m E0 P0
           (rep_layout w R lo fb gl ng nbg Hw S s m Wf Rp) (rep_vars S s m e (top S) Wf Rp Sc ltac:(lia) Hn)
           (rep_norm w R lo fb gl ng nbg S s m e Wf Rp Sc)).
Qed.
(* value = get_expr_value(r1, e); sbso [fp], -off, value *)
Lemma bool_store_runs S s m off e st c st' p : wf_senv S -> rep S s m ->
  bscoped w ng nbg (length (ioffs S)) (length (boffs S)) e -> top S + Z.of_nat (temps_b e) * w <= FP m - lo ->
  assign_bool (env_of S) off e st = (c, st') -> plc c p -> 0 < off <= W / 2 -> inb m (FP m - off) 1 = true ->
  exists m1, agree w R lo (FP m - top S) m m1 /\
             runs (mk p m) [] (mk (p + size c) (Machine.sb m1 (FP m - off) (b2z (bevals w s e)))).
Proof.
  intros Wf Rp Sc Hn Ev P Ho I. unfold assign_bool in Ev.
  destruct (eval_bool_value (env_of S) R1 e st) as [[c0 v] st0] eqn:E0. inversion Ev; subst c st'; clear Ev.
  apply placed_app in P. destruct P as [P0 P1].
  destruct (value_bool_runs S s m e st c0 v st0 p Wf Rp Sc Hn E0 P0) as [m1 [R1' [A1 O1]]].
  pose proof (rp_regs S s m Rp) as L.
  pose proof (regs_ok_agree _ m m1 L A1) as L1. pose proof (FP_agree _ m m1 L A1) as F1.
  assert (I1 : inb m1 (FP m1 - off) 1 = true) by (rewrite F1, (agree_inb w R lo _ m m1 _ _ A1); exact I).
  pose proof (store_byte_runs m1 v _ off O1 L1 Ho I1 _ P1) as Rs. rewrite F1 in Rs.
  exists m1. split; [exact A1|]. rewrite size_app, Z.add_assoc. exact (runs_seq _ _ _ R1' Rs).
Qed.
Lemma b2z_01 b : b2z b = 0 \/ b2z b = 1.
Proof. destruct b; cbn; auto. Qed.

Lemma assign_bool_runs li S s m j e st C S' st' ex p :
  lower_stmt S li (SAssignB j e) st = (C, S', st', ex) -> plc C p -> wf_senv S -> rep S s m ->
  sscoped w ng nbg lib_hyps cf (length (ioffs S)) (length (boffs S)) (in_loop li) (SAssignB j e) ->
  fst (need_stmt S (SAssignB j e)) <= FP m - lo ->
  reaches li S S' s (mkstore (si s) (upd j (b2z (bevals w s e)) (sb s)) (sg s) (sgb s)) [] ONormal p (p + size C) m.
Proof.
  intros Ev P Wf Rp [Hj Sc] Hn. cbn [lower_stmt] in Ev.
  destruct (assign_bool (env_of S) (nth j (boffs S) 0) e st) as [c st1] eqn:Ea. injection Ev as <- <- <- <-.
  cbn [need_stmt fst] in Hn. rewrite (wfs_w S Wf) in Hn.
  destruct (rep_slot_b w R lo fb gl ng nbg Hw S s m j (FP m - top S) Wf Rp Hj ltac:(lia)) as [O1 [O2 [O3 _]]].
  destruct (bool_store_runs S s m _ e st c st1 p Wf Rp Sc Hn Ea P O1 O3) as [m1 [A1 Rn]].
  pose proof (rep_agree S s m m1 Wf Rp A1) as Rp1.
  pose proof (rp_regs S s m Rp) as L. pose proof (FP_agree _ m m1 L A1) as F1.
  destruct (rep_set_bool S s m1 j _ Wf Rp1 Hj (b2z_01 (bevals w s e))) as [Rp2 Fa]. rewrite F1 in Rp2, Fa.
  apply (reaches_normal li S S s _ [] p _ m _ Rn); [|exact Rp2 | exact Wf].
  apply (fagree_trans m m1); [exact L | apply (agree_fagree S s m m1 Wf Rp A1) | exact Fa].
Qed.

Lemma declare_bool_runs S s m e st c st' p : wf_senv S -> rep S s m ->
  bscoped w ng nbg (length (ioffs S)) (length (boffs S)) e -> fst (need_bool_decl S e) <= FP m - lo ->
  declare_bool (env_of S) e st = (c, st') -> plc c p ->
  exists m', runs (mk p m) [] (mk (p + size c) m') /\
             rep (push_bool S) (mkstore (si s) (sb s ++ [b2z (bevals w s e)]) (sg s) (sgb s)) m' /\ agree w R lo (FP m - top S) m m'.
Proof.
  intros Wf Rp Sc Hn Ev P. pose proof (rep_bounds S s m Wf Rp) as B. pose proof (rp_regs S s m Rp) as L.
  pose proof (wfs_w S Wf) as Ews.
  assert (P0 : 0 <= Z.of_nat (temps_b e) * w) by (apply Z.mul_nonneg_nonneg; lia).
  set (off := top S + 1).
  (* both shapes end by storing the value in the new byte, inside the area below the old stack top *)
  assert (Fin : forall m1, agree w R lo (FP m - top S) m m1 -> top S + 1 <= FP m - lo ->
            let m' := Machine.sb m1 (FP m - off) (b2z (bevals w s e)) in
            rep (push_bool S) (mkstore (si s) (sb s ++ [b2z (bevals w s e)]) (sg s) (sgb s)) m' /\ agree w R lo (FP m - top S) m m').
  { intros m1 A1 Ht m'.
    assert (A2 : agree w R lo (FP m - top S) m m').
    { eapply (agree_trans); [exact A1|]. apply agree_sb; unfold off; lia. }
    split; [|exact A2].
    apply (rep_push_bool S s m m'); try assumption; [|apply b2z_01].
    fold off. unfold m'. rewrite lb_sb_same. destruct (bevals w s e); reflexivity. }
  assert (Ho : top S + 1 <= FP m - lo -> 0 < off <= W / 2 /\ inb m (FP m - off) 1 = true).
  { intros Ht. unfold off. split; [lia|]. apply inb_true; lia. }
  unfold need_bool_decl in Hn. cbn [fst] in Hn. rewrite Ews in Hn.
  assert (Keep : value_lowering_keep (env_of S) e st = (c, st') ->
            top S + 1 + Z.of_nat (temps_b e) * w <= FP m - lo ->
            exists m', runs (mk p m) [] (mk (p + size c) m') /\
                       rep (push_bool S) (mkstore (si s) (sb s ++ [b2z (bevals w s e)]) (sg s) (sgb s)) m' /\ agree w R lo (FP m - top S) m m').
  { intros Ek Hk. set (E' := with_top (env_of S) off).
    assert (Lo' : layout_ok w R E' lo m).
    { split; [exact L|]. apply (rep_room S s m off Wf Rp); unfold off; lia. }
    pose proof (rep_vars S s m e off Wf Rp Sc ltac:(unfold off; lia) ltac:(unfold off; lia)) as V'.
    pose proof (run_mem_agree w R E' lo Hw Ews code cmem lab e m Lo' V') as A1.
    assert (A1' : agree w R lo (FP m - top S) m (run_mem w R E' e m)).
    { apply (agree_mono (HI w R E' m)); [unfold HI, E', off; cbn [with_top stack_top]; lia | exact A1]. }
    destruct (Fin _ A1' ltac:(lia)) as [Rp' Fa]. destruct (Ho ltac:(lia)) as [Ho1 Ho2].
    eexists. split; [|split; [exact Rp' | exact Fa]].
    rewrite <- (rep_beval S s m e Wf Rp Sc), <- (beval_top w R (env_of S) off m e).
    exact (value_keep_runs w R E' lo Hw Ews code cmem lab lab_range e off st c st' p m Ek P Lo' V' Ho1 Ho2). }
  assert (Other : (assign_bool (env_of S) off e st = (c, st')) ->
            Z.max (top S + Z.of_nat (temps_b e) * w) (top S + 1) <= FP m - lo ->
            exists m', runs (mk p m) [] (mk (p + size c) m') /\
                       rep (push_bool S) (mkstore (si s) (sb s ++ [b2z (bevals w s e)]) (sg s) (sgb s)) m' /\ agree w R lo (FP m - top S) m m').
  { intros Ea Hk. destruct (Ho ltac:(lia)) as [Ho1 Ho2].
    destruct (bool_store_runs S s m off e st c st' p Wf Rp Sc ltac:(lia) Ea P Ho1 Ho2) as [m1 [A1 Rn]].
    destruct (Fin m1 A1 ltac:(lia)) as [Rp' Fa]. eexists. split; [exact Rn|]. split; assumption. }
  unfold zmax in Hn.
  destruct e as [b|j|op a b|e1|e1 e2|e1 e2]; cbn [declare_bool env_of stack_top] in Ev; fold off in Ev;
    first [apply Other; [exact Ev | exact Hn] | apply Keep; [exact Ev | exact Hn]].
Qed.

Lemma storen_loadn_getb n : forall m m' a x, wf_mem m -> 0 <= a -> a <= x < a + Z.of_nat n ->
  getb (storen n m' a (loadn n m a)) x = getb m x.
Proof.
  induction n as [|k IH]; intros m m' a x Wf Ha Hx; [cbn in Hx; lia|].
  cbn [storen loadn]. pose proof (Wf a) as Hb.
  assert (E1 : (getb m a + 256 * loadn k m (a + 1)) mod 256 = getb m a)
    by (rewrite (Z.mul_comm 256), Z.mod_add by lia; apply Z.mod_small; lia).
  assert (E2 : (getb m a + 256 * loadn k m (a + 1)) / 256 = loadn k m (a + 1))
    by (rewrite (Z.mul_comm 256), Z.div_add by lia; rewrite Z.div_small by lia; lia).
  rewrite E1, E2. destruct (Z.eq_dec x a) as [->|Ne].
  - rewrite storen_outside by lia. apply getb_setb_same.
  - apply IH; [exact Wf | lia | lia].
Qed.
Lemma sw_same_word_bytes m m' a x : wf_mem m -> 0 <= a -> a <= x < a + w ->
  getb (sw m' a (lw m a)) x = getb m x.
Proof.
  intros Wf Ha Hx. unfold Machine.sw, Machine.lw. rewrite (wrap_small w) by (apply (lw_range w Hw1); exact Wf).
  apply storen_loadn_getb; [exact Wf | exact Ha | rewrite (wn_w w Hw1); exact Hx].
Qed.
Lemma wf_after_ra S : wf_senv S -> wf_senv (after_ra S).
Proof.
  intros Wf. destruct Wf as [Ww Wfb Wi Wb Wii Wbb Wib]. constructor; cbn [after_ra ws top ioffs boffs]; try assumption; try lia.
  - intros i Hi. specialize (Wi i Hi). lia.
  - intros j Hj. specialize (Wb j Hj). lia.
Qed.
Lemma rep_after_ra S s m m' : wf_senv S -> rep S s m -> agree w R lo (FP m - top S) m m' ->
  top S + w <= FP m - lo -> rep (after_ra S) s m'.
Proof.
  intros Wf Rp A Hr. pose proof (rep_agree S s m m' Wf Rp A) as Rp'.
  pose proof (FP_agree _ m m' (rp_regs S s m Rp) A) as EF. pose proof (wfs_w S Wf) as Ews.
  destruct Rp' as [Rg Rlo Rh Rsz Rli Rlb Ri Rb Rap Rgl Rgn Rgg Rgd Rbn Rbg Rbd]. constructor; cbn [after_ra top ioffs boffs]; rewrite ?Ews; try assumption; lia.
Qed.

(* the call sequence  add [fp],[fp],-top; j tg; halt; ec: add [fp],[fp],top  around a callee that runs
   from the rebased frame to the return address pushed below it, ends with fp as at its entry, and
   keeps the bytes in K: after the sequence fp is restored and the bytes in K are those before it.
   K is what the callee's specification preserves: for a library routine, everything outside r0..r2
   and its own stack area; for a function of the program, everything outside r0, r1, r2, the
   stack area and the globals.  The callee is asked for K outside the fp word only
   (a < fp \/ fp + w <= a): it ends with fp rebased, and the sequence itself restores that word *)
Lemma frame_call_runs S s m0 mb ec tg Fv p evs m2 (K : Z -> Prop) : wf_senv S -> rep S s m0 ->
  agree w R lo (FP m0 - top S) m0 mb -> top S + w <= FP m0 - lo -> lw mb (FP m0 - top S - w) = lab ec ->
  code p = Some (IArith Aadd (St fp) (St fp) (Imm (- top S))) -> code (p + 1) = Some (IJ tg) -> code (p + 1 + 1) = Some IHalt ->
  lab ec = p + 1 + 1 + 1 -> code (p + 1 + 1 + 1) = Some (IArith Aadd (St fp) (St fp) (Imm (top S))) ->
  (forall m, oval m tg = Some Fv) ->
  runs (mk Fv (sw mb fp (FP m0 + wrap (- top S)))) (map EOut evs)
       (mk (lw (sw mb fp (FP m0 + wrap (- top S))) (FP m0 - top S - w)) m2) ->
  msize m2 = msize mb -> wf_mem m2 -> lw m2 fp = FP m0 - top S ->
  (forall a, 0 <= a -> (a < fp \/ fp + w <= a) -> K a -> getb m2 a = getb (sw mb fp (FP m0 + wrap (- top S))) a) ->
  runs (mk p mb) (map EOut evs) (mk (p + 4) (sw m2 fp (FP m0))) /\
  msize (sw m2 fp (FP m0)) = msize mb /\ wf_mem (sw m2 fp (FP m0)) /\
  (forall a, 0 <= a -> K a -> getb (sw m2 fp (FP m0)) a = getb mb a) /\
  lw (sw m2 fp (FP m0)) (FP m0 - top S - w) = lw m2 (FP m0 - top S - w).
Proof.
  intros Wf Rp A Hr Hra C0 C1 C2 Lec C3 Eov Rc Sz2 Wf2 L2fp Pres. pose proof (rep_bounds S s m0 Wf Rp) as B.
  pose proof (rp_regs S s m0 Rp) as L0. pose proof (regs_ok_agree _ m0 mb L0 A) as Lb.
  pose proof (FP_agree _ m0 mb L0 A : lw mb fp = FP m0) as Elf. pose proof (lo_fp w R lo mb Lb) as Hfp0.
  set (F := FP m0) in *. set (tp := top S) in *. set (m1 := sw mb fp (F + wrap (- tp))) in *.
  assert (HW : W / 2 < W) by (pose proof (W_even w Hw1); pose proof (half_pos w Hw1); lia).
  assert (Efpc : wrap (F + wrap (- tp)) = F - tp) by (apply (wrap_add_neg w); lia).
  assert (Rfp : inrange w (lw mb fp)) by (apply (lw_range w Hw1), (lo_wf mb Lb)).
  assert (Era : lw m1 (F - tp - w) = p + 3) by (unfold m1; rewrite (lw_sw_other w Hw1), Hra, Lec; lia).
  pose proof (call_idiom w Hw code cmem p mb fp (- tp) tp tg Fv (map EOut evs) m2 (fun a => 0 <= a /\ (a < fp \/ fp + w <= a) /\ K a)
                C0 C1 ltac:(replace (p + 2) with (p + 1 + 1) by lia; exact C2)
                ltac:(replace (p + 3) with (p + 1 + 1 + 1) by lia; exact C3) eq_refl Hfp0 (lo_if mb Lb) Rfp) as CI.
  cbv zeta in CI. rewrite Elf, Efpc in CI. fold m1 in CI.
  destruct (CI (Eov m1) Era Rc ltac:(rewrite Sz2; unfold m1; symmetry; apply msize_sw) L2fp) as [Rcall [Lf3 [HP3 F3]]].
  { intros a [Pa [Pb Pc]]. exact (Pres a Pa Pb Pc). }
  { intros a [Pa [Pb _]]. split; assumption. }
  assert (E3 : sw m2 fp (F - tp + wrap tp) = sw m2 fp F).
  { apply sw_wrap_eq. rewrite <- (lw_sw_same w Hw1 m2 fp (F - tp + wrap tp)) by exact Hfp0.
    rewrite Lf3. symmetry. apply (wrap_small w). rewrite <- Elf. exact Rfp. }
  rewrite E3 in *. split; [exact Rcall|]. split; [rewrite msize_sw; exact Sz2|]. split; [apply (wf_sw w); assumption|]. split.
  - intros x X Kx. destruct (Z_lt_le_dec x fp) as [Lt|Ge]; [|destruct (Z_lt_le_dec x (fp + w)) as [Lt2|Ge2]].
    + apply HP3. repeat split; (assumption || lia).
    + rewrite <- Elf. apply sw_same_word_bytes; [apply (lo_wf mb Lb) | exact Hfp0 | lia].
    + apply HP3. repeat split; (assumption || lia).
  - apply (lw_agree w Hw). intros x Hx. apply F3; lia.
Qed.
(* the call of library routine f; under lib_hyps r0, r1, r2 are the bytes [2 * w, 5 * w), which the
   routine may change together with its own stack area [blo, ..) below the return address *)
Lemma lib_call_runs S s m0 mb f ec ln p evs : lib_hyps -> wf_senv S -> rep S s m0 ->
  agree w R lo (FP m0 - top S) m0 mb -> top S + w <= FP m0 - lo ->
  lw mb (FP m0 - top S - w) = lab ec -> plc (call_tail S ec f ln) p ->
  (* the routine's specification at its entry memory *)
  (forall m1, m1 = sw mb fp (FP m0 + wrap (- top S)) ->
     exists m2 blo, runs (mk (a_lib R + std_off f) m1) (map EOut evs) (mk (lw m1 (FP m0 - top S - w)) m2) /\
       msize m2 = msize m1 /\ wf_mem m2 /\ lo <= blo /\
       (forall x, 0 <= x -> (x < 2 * w \/ 5 * w <= x) -> (x < blo \/ FP m0 - top S - w <= x) -> getb m2 x = getb m1 x)) ->
  exists m3, runs (mk p mb) (map EOut (evs ++ (if ln then [10] else []))) (mk (p + size (call_tail S ec f ln)) m3) /\
             agree w R lo (FP m0 - top S) m0 m3.
Proof.
  intros [Hfp [H0 [H1 [H2 [CA [BR Hap]]]]]] Wf Rp A Hr Hra P Callee. pose proof (rep_bounds S s m0 Wf Rp) as B.
  pose proof (regs_ok_agree _ m0 mb (rp_regs S s m0 Rp) A) as Lb.
  unfold call_tail in P |- *. apply placed_app in P. destruct P as [P Pln].
  cbn [placed res_ins res_sym regaddr] in P. destruct P as [C0 [C1 [C2 [Lec [C3 _]]]]].
  destruct (Callee _ eq_refl) as [m2 [blo [Rc [Sz2 [Wf2 [Hblo Pres]]]]]]. rewrite msize_sw in Sz2.
  assert (Eov : forall m, oval m (Imm (a_lib R + std_off f)) = Some (a_lib R + std_off f)).
  { intros m. rewrite oval_imm. f_equal. apply (wrap_small w). destruct BR as [B0 B1]. unfold inrange.
    pose proof (W_even w Hw1). destruct f; cbn [std_off]; unfold off_write_int, off_write_bool, off_division_by_zero, off_stack_overflow, stdlib_len in *; lia. }
  destruct (frame_call_runs S s m0 mb ec _ _ p evs m2 (fun x => (x < 2 * w \/ 5 * w <= x) /\ (x < lo \/ FP m0 - top S <= x))
              Wf Rp A Hr Hra C0 C1 C2 Lec C3 Eov Rc Sz2 Wf2) as [Rcall [Sz3 [Wf3 [HP3 _]]]].
  { transitivity (lw (sw mb fp (FP m0 + wrap (- top S))) fp); [apply (lw_agree w Hw); intros x Hx; apply Pres; lia|].
    rewrite (lw_sw_same w Hw1) by lia. apply (wrap_add_neg w); lia. }
  { intros a Pa _ [Pb Pc]. apply Pres; [exact Pa | exact Pb | lia]. }
  set (m3 := sw m2 fp (FP m0)) in *.
  assert (A3 : agree w R lo (FP m0 - top S) m0 m3).
  { eapply (agree_trans); [exact A|]. split; [exact Sz3|]. split; [intros _; exact Wf3|].
    intros x X N0 N1 N2 N3. rewrite H0, H1, H2 in *. apply HP3; [exact X | lia]. }
  exists m3. split; [|exact A3]. destruct ln.
  - cbn [placed res_ins res_sym] in Pln. destruct Pln as [Cy _]. rewrite map_app. cbn [map].
    eapply runs_trans; [exact Rcall|]. pose proof (yield_imm_runs _ m3 10 Cy) as Y. change (10 mod 256) with 10 in Y. apply (runs_eq_pc Y); szn; lia.
  - rewrite app_nil_r. apply (runs_eq_pc Rcall); szn; lia.
Qed.

Lemma need_max a b X : zmax a b <= X -> a <= X /\ b <= X.
Proof. unfold zmax. lia. Qed.

Lemma push_ra_runs S s m ec : wf_senv S -> rep S s m -> top S + w <= FP m - lo ->
  let ma := sw m (FP m - (top S + w)) (lab ec) in
  code_runs [push_ra S ec] m ma /\ agree w R lo (FP m - top S) m ma /\
  rep (after_ra S) s ma /\ lw ma (FP m - top S - w) = lab ec.
Proof.
  intros Wf Rp Hr ma. pose proof (rep_bounds S s m Wf Rp) as B. pose proof (rp_regs S s m Rp) as L.
  assert (Ho : 0 < top S + w <= W / 2) by lia.
  assert (I : inb m (FP m - (top S + w)) w = true) by (apply inb_true; lia).
  assert (A : agree w R lo (FP m - top S) m ma) by (apply agree_sw; [lia | right; right; lia]).
  split; [unfold push_ra; rewrite (wfs_w S Wf); exact (store_word_runs m (SLab ec) (lab ec) (top S + w) (oval_lab w cmem lab lab_range m ec) L Ho I)|].
  split; [exact A|]. split; [apply (rep_after_ra S s m ma Wf Rp A Hr)|].
  unfold ma. replace (FP m - top S - w) with (FP m - (top S + w)) by lia.
  rewrite (lw_sw_same w Hw1) by lia. apply (wrap_small w). apply lab_range.
Qed.

(* write(x) / writeln(x) through the library routine f: the return address, the argument declared
   below it by the code c (n bytes), the call.  What is asked of the caller: the run of c from a memory
   that holds s in the frame with the return address, and the routine's specification at an entry
   memory that is a frame for n bytes of arguments and holds them as c left them *)
Lemma lib_write_runs li S s m f ec ln c n evs p : lib_hyps -> wf_senv S -> rep S s m -> 0 <= n -> top S + w + n <= FP m - lo ->
  plc ([push_ra S ec] ++ c ++ call_tail S ec f ln) p ->
  (forall ma q, rep (after_ra S) s ma -> FP ma = FP m -> plc c q ->
     exists mb, runs (mk q ma) [] (mk (q + size c) mb) /\ agree w R lo (FP m - (top S + w)) ma mb /\
       forall m1, frame_ok w m1 (FP m - top S) n ->
         (forall x, FP m - top S - w - n <= x < FP m - top S - w -> getb m1 x = getb mb x) ->
         exists m2 blo, runs (mk (a_lib R + std_off f) m1) (map EOut evs) (mk (lw m1 (FP m - top S - w)) m2) /\
           msize m2 = msize m1 /\ wf_mem m2 /\ lo <= blo /\
           (forall x, 0 <= x -> (x < 2 * w \/ 5 * w <= x) -> (x < blo \/ FP m - top S - w <= x) -> getb m2 x = getb m1 x)) ->
  reaches li S S s s (evs ++ (if ln then [10] else [])) ONormal p (p + size ([push_ra S ec] ++ c ++ call_tail S ec f ln)) m.
Proof.
  intros Hl Wf Rp Hn0 Hn P K. pose proof (rep_bounds S s m Wf Rp) as B. pose proof Hl as [Hfp [H0 [H1 [H2 _]]]].
  pose proof (rp_regs S s m Rp) as L.
  apply placed_app in P. destruct P as [Pra P]. apply placed_app in P. destruct P as [Parg Pcall].
  destruct (push_ra_runs S s m ec Wf Rp ltac:(lia)) as [Ca [Aa [Rpa Era]]]. pose proof (Ca p Pra) as Ra.
  set (ma := sw m (FP m - (top S + w)) (lab ec)) in *.
  destruct (K ma _ Rpa (FP_agree _ m ma L Aa) Parg) as [mb [Rb [Ab Callee]]].
  assert (Amb : agree w R lo (FP m - top S) m mb).
  { eapply (agree_trans); [exact Aa|]. apply (agree_mono (FP m - (top S + w))); [lia | exact Ab]. }
  pose proof (regs_ok_agree _ m mb L Amb) as Lb.
  assert (Erab : lw mb (FP m - top S - w) = lab ec).
  { rewrite <- Era. apply (agree_lw w R lo Hw (FP m - (top S + w)) ma mb); [exact Ab | lia | unfold dj; lia]. }
  destruct (lib_call_runs S s m mb f ec ln _ evs Hl Wf Rp Amb ltac:(lia) Erab Pcall) as [m3 [R3 A3]].
  { intros m1 ->. apply Callee.
    - unfold frame_ok, reg_fp, stack_start. rewrite <- Hfp.
      split; [apply (wf_sw w); [apply (lo_wf mb Lb) | apply (lo_fp w R lo mb Lb)]|].
      split; [rewrite (lw_sw_same w Hw1) by apply (lo_fp w R lo mb Lb); apply (wrap_add_neg w); lia|].
      rewrite msize_sw, (proj1 Amb). lia.
    - intros x Hx. apply (getb_sw_other w Hw); lia. }
  apply (reaches_normal li S S s s _ p _ m m3); [|apply (agree_fagree S s m m3 Wf Rp A3) | apply (rep_agree S s m m3 Wf Rp A3) | exact Wf].
  change (map EOut (evs ++ (if ln then [10] else []))) with ([] ++ ([] ++ map EOut (evs ++ (if ln then [10] else [])))).
  eapply runs_trans; [exact Ra|]. eapply runs_trans; [exact Rb|]. apply (runs_eq_pc R3); szn; lia.
Qed.

Lemma writei_runs li S s m ln o st C S' st' ex p :
  lower_stmt S li (SWriteI ln o) st = (C, S', st', ex) -> plc C p -> wf_senv S -> rep S s m ->
  sscoped w ng nbg lib_hyps cf (length (ioffs S)) (length (boffs S)) (in_loop li) (SWriteI ln o) ->
  fst (need_stmt S (SWriteI ln o)) <= FP m - lo ->
  reaches li S S' s s (decimal (ieval w s o) ++ (if ln then [10] else [])) ONormal p (p + size C) m.
Proof.
  intros Ev P Wf Rp [[Sc Nt] Hl] Hn. cbn [lower_stmt] in Ev. destruct (add_label LEndCall st) as [ec st1]. injection Ev as <- <- <- <-.
  pose proof Hl as [_ [_ [_ [H2 [CA [BR _]]]]]]. pose proof (wfs_w S Wf) as Ews.
  pose proof (rep_bounds S s m Wf Rp) as B.
  pose proof (rp_li S s m Rp) as Li.
  (* Hd, the max_digits term of need_stmt: room for the digits write_int pushes (write_int_room of write_int_spec) *)
  cbn [need_stmt fst] in Hn. rewrite Ews in Hn. apply need_max in Hn. destruct Hn as [Hn Hd]. apply need_max in Hn. destruct Hn as [Hna Hnb].
  destruct (sval_ieval S s m o Wf Rp Sc) as [Sv Rv].
  assert (Vr : - (W / 2) <= ieval w s o < W / 2) by (rewrite <- Sv; apply (sgn_range w Hw1); exact Rv).
  apply (lib_write_runs li S s m LibWriteInt ec ln _ w (decimal (ieval w s o)) p Hl Wf Rp ltac:(lia) ltac:(lia) P).
  intros ma q Rpa Fa Parg. rewrite <- Fa in Hna, Hnb.
  destruct (decl_int_runs (after_ra S) s ma o (wf_after_ra S Wf) Rpa Sc Nt Hna ltac:(cbn [after_ra top]; rewrite Ews; lia)) as [mb [Cb [Rpb Ab]]].
  pose proof (Cb q Parg) as Rb.
  rewrite Fa in Ab. cbn [after_ra top] in Ab. rewrite Ews in Ab.
  exists mb. split; [exact Rb|]. split; [exact Ab|]. intros m1 Fr Hsame.
  (* the argument is the local the declaration has added *)
  pose proof (rep_pushed_int (after_ra S) _ _ _ _ _ mb Li Rpb) as X. cbn [after_ra top ws] in X.
  rewrite (FP_agree _ ma mb (rp_regs _ s ma Rpa) Ab), Fa, Ews in X.
  assert (Ev1 : sgn (lw m1 (FP m - top S - 2 * w)) = ieval w s o).
  { rewrite <- X. f_equal. replace (FP m - (top S + w + w)) with (FP m - top S - 2 * w) by lia. apply (lw_agree w Hw). intros x Hx. apply Hsame. lia. }
  assert (Nd : ndigits (Z.abs (ieval w s o)) <= max_digits w).
  { unfold max_digits. rewrite <- (W_half w Hw1). apply ndigits_mono; lia. }
  pose proof (ndigits_pos (Z.abs (ieval w s o)) ltac:(lia)) as Np.
  pose proof (write_int_spec w code cmem (a_lib R) Hw CA BR m1 (FP m - top S) Fr) as Sp. cbv zeta in Sp. rewrite Ev1 in Sp.
  destruct Sp as [m2 [Rn [[Sz Ae] [Wf2 _]]]]; [unfold write_int_room, write_int_lo, stack_start; lia|].
  exists m2, (write_int_lo w (FP m - top S) (ieval w s o)). split; [exact Rn|]. split; [exact Sz|]. split; [exact Wf2|].
  split; [unfold write_int_lo; lia | exact Ae].
Qed.

Lemma writeb_runs li S s m ln e st C S' st' ex p :
  lower_stmt S li (SWriteB ln e) st = (C, S', st', ex) -> plc C p -> wf_senv S -> rep S s m ->
  sscoped w ng nbg lib_hyps cf (length (ioffs S)) (length (boffs S)) (in_loop li) (SWriteB ln e) ->
  fst (need_stmt S (SWriteB ln e)) <= FP m - lo ->
  reaches li S S' s s ((if bevals w s e then str_true else str_false) ++ (if ln then [10] else [])) ONormal p (p + size C) m.
Proof.
  intros Ev P Wf Rp [Sc Hl] Hn. cbn [lower_stmt] in Ev. destruct (add_label LEndCall st) as [ec st1].
  destruct (declare_bool (env_of (after_ra S)) e st1) as [c st2] eqn:Ed. injection Ev as <- <- <- <-.
  pose proof Hl as [_ [_ [_ [_ [CA [BR _]]]]]]. pose proof (wfs_w S Wf) as Ews.
  pose proof (rp_lb S s m Rp) as Lb.
  cbn [need_stmt fst] in Hn.
  assert (Hn1 : top S + w + 1 <= FP m - lo).
  { unfold need_bool_decl in Hn. cbn [fst after_ra top ws] in Hn. rewrite Ews in Hn.
    assert (0 <= Z.of_nat (temps_b e) * w) by (apply Z.mul_nonneg_nonneg; lia). unfold zmax in Hn. destruct e; lia. }
  apply (lib_write_runs li S s m LibWriteBool ec ln c 1 _ p Hl Wf Rp ltac:(lia) Hn1 P).
  intros ma q Rpa Fa Parg. rewrite <- Fa in Hn.
  destruct (declare_bool_runs (after_ra S) s ma e st1 c st2 q (wf_after_ra S Wf) Rpa Sc Hn Ed Parg) as [mb [Rb [Rpb Ab]]].
  rewrite Fa in Ab. cbn [after_ra top] in Ab. rewrite Ews in Ab.
  exists mb. split; [exact Rb|]. split; [exact Ab|]. intros m1 Fr Hsame.
  pose proof (rep_pushed_bool (after_ra S) _ _ _ _ _ mb Lb Rpb) as X. cbn [after_ra top ws] in X.
  rewrite (FP_agree _ ma mb (rp_regs _ s ma Rpa) Ab), Fa, Ews in X.
  assert (Ev1 : lb m1 (FP m - top S - w - 1) = b2z (bevals w s e)).
  { rewrite <- X. replace (FP m - (top S + w + 1)) with (FP m - top S - w - 1) by lia. apply Hsame. lia. }
  pose proof (write_bool_spec w code cmem (a_lib R) Hw CA BR m1 (FP m - top S) Fr) as Sp. cbv zeta in Sp. rewrite Ev1 in Sp.
  destruct Sp as [m2 [Rn [[Sz Ae] Wf2]]].
  exists m2, (FP m - top S - w). split.
  { replace (if b2z (bevals w s e) =? 0 then str_false else str_true) with (if bevals w s e then str_true else str_false) in Rn
      by (destruct (bevals w s e); reflexivity). exact Rn. }
  pose proof (rep_bounds S s m Wf Rp) as B.
  split; [exact Sz|]. split; [exact Wf2|]. split; [lia|]. intros x X0 X1 _. apply Ae; assumption.
Qed.

Lemma cond_runs S s m c L st cc st' p : wf_senv S -> rep S s m ->
  bscoped w ng nbg (length (ioffs S)) (length (boffs S)) c -> top S + Z.of_nat (temps_b c) * w <= FP m - lo ->
  lower_branch (env_of S) c [] (goto L) st = (cc, st') -> plc cc p ->
  exists m1, runs (mk p m) [] (mk (if bevals w s c then p + size cc else lab L) m1) /\
             agree w R lo (FP m - top S) m m1.
Proof.
  intros Wf Rp Sc Hn Ev P.
  pose proof (rep_layout w R lo fb gl ng nbg Hw S s m Wf Rp) as Lo.
  pose proof (rep_vars S s m c (top S) Wf Rp Sc ltac:(lia) Hn) as V.
  pose proof (lower_runs w R (env_of S) lo Hw (wfs_w S Wf) code cmem lab lab_range c [] None [] (Some L)
                st cc st' p m Ev eq_refl eq_refl P Lo V (run_mem w R (env_of S) c m)) as Rn.
  rewrite (rep_beval S s m c Wf Rp Sc) in Rn.
  exists (run_mem w R (env_of S) c m). split.
  - destruct (bevals w s c); cbn [kexit] in Rn; apply Rn; reflexivity.
  - apply (run_mem_agree w R (env_of S) lo Hw (wfs_w S Wf) code cmem lab c m Lo V).
Qed.

Lemma arith_div_sem op xv yv r : op = SDiv \/ op = SMod -> inrange w xv -> inrange w yv ->
  arith w (arith_instr op) xv yv = Some r -> wrap r = wrap (arith_sem op (sgn xv) (sgn yv)).
Proof.
  intros Hop Hx Hy Ar. pose proof (arith_map_correct w Hw1) as F. rewrite Forall_forall in F.
  destruct Hop as [-> | ->].
  - specialize (F (SDiv, Adiv) ltac:(cbn; tauto) xv yv Hx Hy). cbn [fst snd] in F.
    change (arith_instr SDiv) with Adiv in Ar. rewrite Ar in F. exact F.
  - specialize (F (SMod, Amod) ltac:(cbn; tauto) xv yv Hx Hy). cbn [fst snd] in F.
    change (arith_instr SMod) with Amod in Ar. rewrite Ar in F. exact F.
Qed.
Lemma sgn_zero_iff x : inrange w x -> (sgn x = 0 <-> x = 0).
Proof.
  intros Hx. assert (Z0 : inrange w 0) by (unfold inrange; pose proof (W_pos w Hw1); lia).
  assert (S0 : sgn 0 = 0) by (apply (sgn_small w); pose proof (half_pos w Hw1); lia).
  split; [intros H; apply (sgn_inj w Hw1 x 0 Hx Z0); now rewrite S0 | intros ->; exact S0].
Qed.
Definition div_stub : Z := a_lib R + off_division_by_zero.
Lemma stub_not_halts off m : lib_hyps -> off = off_division_by_zero \/ off = off_stack_overflow ->
  ~ Halts (mk (a_lib R + off) m) /\ wrap (a_lib R + off) = a_lib R + off.
Proof.
  intros [_ [_ [_ [_ [CA [BR _]]]]]] Ho. split.
  - destruct Ho as [-> | ->];
      [apply (division_by_zero_absorbing w code cmem (a_lib R) Hw CA BR m) | apply (stack_overflow_absorbing w code cmem (a_lib R) Hw CA BR m)].
  - apply (wrap_small w). destruct BR as [B0 B1]. unfold inrange.
    destruct Ho as [-> | ->]; unfold off_division_by_zero, off_stack_overflow, stdlib_len in *; lia.
Qed.

Lemma operands_run S s m a b : wf_senv S -> rep S s m ->
  oscoped w ng (length (ioffs S)) (length (boffs S)) a -> oscoped w ng (length (ioffs S)) (length (boffs S)) b ->
  top S + Z.of_nat (temps_cmp a b) * w <= FP m - lo ->
  exists m4 lhs rhs, compare_operands (env_of S) a b = (pair_code (env_of S) (top S) a b, lhs, rhs) /\
    agree w R lo (FP m - top S) m m4 /\ code_runs (pair_code (env_of S) (top S) a b) m m4 /\
    oval m4 (rs lhs) = Some (wval w R (env_of S) m a) /\ oval m4 (rs rhs) = Some (wval w R (env_of S) m b).
Proof.
  intros Wf Rp Sa Sb Hn. pose proof (rep_bounds S s m Wf Rp) as B.
  assert (T0 : 0 <= Z.of_nat (temps_cmp a b) * w) by (apply Z.mul_nonneg_nonneg; lia).
  destruct (cmp_props w R (env_of S) lo Hw (wfs_w S Wf) code cmem lab a b m (rp_regs S s m Rp)
              (rep_room S s m (top S) Wf Rp ltac:(lia) ltac:(lia))
              (rep_oexp S s m a _ Wf Rp Sa (Z.le_refl _)) (rep_oexp S s m b _ Wf Rp Sb (Z.le_refl _)) ltac:(unfold HI; cbn [env_of stack_top]; lia))
    as [A [lhs [rhs [Ec [C [Ol [Or _]]]]]]].
  eexists _, lhs, rhs. exact (conj Ec (conj A (conj C (conj Ol Or)))).
Qed.
(* the operands as in a comparison, the guard against a zero divisor, and the division into register rd *)
Lemma div_guard_runs S s m op a b da rd c lhs rhs p : lib_hyps -> wf_senv S -> rep S s m -> op = SDiv \/ op = SMod ->
  oscoped w ng (length (ioffs S)) (length (boffs S)) a -> oscoped w ng (length (ioffs S)) (length (boffs S)) b ->
  top S + Z.of_nat (temps_cmp a b) * w <= FP m - lo ->
  compare_operands (env_of S) a b = (c, lhs, rhs) -> inb m (regaddr R rd) w = true ->
  plc (c ++ div_guard da rhs ++ [AInstr (AArith (arith_instr op) rd lhs rhs)]) p ->
  exists m4, agree w R lo (FP m - top S) m m4 /\
    (ieval w s b <> 0 -> exists r, wrap r = wrap (arith_sem op (ieval w s a) (ieval w s b)) /\
       runs (mk p m) [] (mk (p + size (c ++ div_guard da rhs ++ [AInstr (AArith (arith_instr op) rd lhs rhs)])) (sw m4 (regaddr R rd) r))) /\
    (ieval w s b = 0 -> runs (mk p m) [] (mk div_stub m4)).
Proof.
  intros Hl Wf Rp Hop Sa Sb Hn Ec Id P. rewrite app_assoc in P. apply placed_app in P. destruct P as [P Pi].
  apply placed_app in P. destruct P as [P4 Pg].
  destruct (operands_run S s m a b Wf Rp Sa Sb Hn) as [m4 [l [r [Ec' [A4 [C4 [Ol Or]]]]]]].
  rewrite Ec in Ec'. injection Ec' as -> <- <-. pose proof (C4 p P4) as R4. set (c := pair_code (env_of S) (top S) a b) in *.
  destruct (sval_ieval S s m a Wf Rp Sa) as [Sva Rva]. destruct (sval_ieval S s m b Wf Rp Sb) as [Svb Rvb].
  cbn [div_guard placed res_ins res_sym] in Pg, Pi. destruct Pg as [Cj [Cc [Ce [Ch [Lda _]]]]]. destruct Pi as [Ci _].
  set (p4 := p + size c) in *.
  destruct (stub_not_halts off_division_by_zero m4 Hl (or_introl eq_refl)) as [Nh Ws].
  assert (Hai : arith_instr op = Adiv \/ arith_instr op = Amod) by (destruct Hop as [-> | ->]; [left | right]; reflexivity).
  replace (p4 + 1 + 1) with (p4 + 2) in Ce by lia. replace (p4 + 1 + 1 + 1) with (p4 + 3) in Ch by lia.
  replace (p + size (c ++ div_guard da rhs)) with (p4 + 4) in Ci by (unfold p4; rewrite size_app; cbn [size div_guard]; lia).
  replace (p4 + 1 + 1 + 1 + 1) with (p4 + 4) in Lda by lia.
  destruct (div_guard_idiom w Hw code cmem p4 m4 (Imm (lab da)) (Imm (a_lib R + off_division_by_zero)) div_stub
              (rs rhs) (wval w R (env_of S) m b) (arith_instr op) (regaddr R rd) (rs lhs) (wval w R (env_of S) m a)
              Cj ltac:(rewrite oval_imm, (wrap_small w _ (lab_range da)), Lda; reflexivity) Cc Or Rvb Ce Ch
              ltac:(rewrite oval_imm; unfold div_stub; now rewrite Ws) Ci Hai Ol
              ltac:(rewrite (agree_inb w R lo _ m m4 _ _ A4); exact Id)) as [Gok Gf].
  exists m4. split; [exact A4|]. split.
  - intros Nz. assert (Nz' : wval w R (env_of S) m b <> 0) by (intro Z0; apply Nz; rewrite <- Svb; apply (sgn_zero_iff _ Rvb); exact Z0).
    destruct (Gok Nz') as [Rg [r [Ar Aa]]]. exists r.
    split; [rewrite <- Sva, <- Svb; exact (arith_div_sem op _ _ r Hop Rva Rvb Ar)|].
    replace (p + size (c ++ div_guard da rhs ++ [AInstr (AArith (arith_instr op) rd lhs rhs)])) with (p4 + 4 + 1)
      by (unfold p4; rewrite !size_app; cbn [size div_guard]; lia).
    exact (runs_seq _ _ _ R4 (runs_seq _ _ _ Rg (runs_next act _ _ None Aa))).
  - intros Z0. assert (Z0' : wval w R (env_of S) m b = 0) by (apply (sgn_zero_iff _ Rvb); rewrite Svb; exact Z0).
    exact (runs_seq _ _ _ R4 (proj1 (Gf Z0' Nh))).
Qed.
(* a / b computed into r1, as get_expr_value(r1, a / b) leaves it *)
Lemma div_r1_runs S s m op a b keep da p : lib_hyps -> wf_senv S -> rep S s m -> op = SDiv \/ op = SMod ->
  oscoped w ng (length (ioffs S)) (length (boffs S)) a -> oscoped w ng (length (ioffs S)) (length (boffs S)) b ->
  need_int S (OArith op a b) keep <= FP m - lo ->
  plc (fst (eval_div (env_of S) (top S) R1 op a b false da)) p ->
  (ieval w s b <> 0 -> exists m2 xw, runs (mk p m) [] (mk (p + size (fst (eval_div (env_of S) (top S) R1 op a b false da))) m2) /\
       agree w R lo (FP m - top S) m m2 /\ oval m2 (St r1) = Some xw /\ inrange w xw /\
       sgn xw = swrap w (arith_sem op (ieval w s a) (ieval w s b))) /\
  (ieval w s b = 0 -> exists m', runs (mk p m) [] (mk div_stub m')).
Proof.
  intros Hl Wf Rp Hop Sa Sb Hn P. pose proof (wfs_w S Wf) as Ews. pose proof (rp_regs S s m Rp) as L.
  unfold need_int in Hn. rewrite Ews in Hn. cbn [temps] in Hn. fold (temps_cmp a b) in Hn.
  assert (Tp : Z.of_nat (temps_cmp a b) * w <= FP m - top S - lo) by (apply (room_le _ (Nat.max (temps_cmp a b) (if keep then 1%nat else 0%nat))); [lia | apply Nat.le_max_l | lia]).
  unfold eval_div, finish_opd in *. change (with_top (env_of S) (top S)) with (env_of S) in *.
  destruct (compare_operands (env_of S) a b) as [[c0 lhs] rhs] eqn:Ec. cbn [fst] in *.
  destruct (div_guard_runs S s m op a b da R1 c0 lhs rhs p Hl Wf Rp Hop Sa Sb ltac:(lia) Ec (lo_i1 m L) P) as [m4 [A4 [Ok Fl]]].
  split; [|intros Z0; exists m4; exact (Fl Z0)].
  intros Nz. destruct (Ok Nz) as [r [Wr Rn]]. cbn [regaddr] in Rn. pose proof (regs_ok_agree _ m m4 L A4) as L4.
  exists (sw m4 r1 r), (wrap r). split; [exact Rn|].
  split; [eapply agree_trans; [exact A4 | apply agree_sw; [apply (lo_r1 m4 L4) | auto]]|].
  split; [apply (oval_st_sw_same w Hw cmem); [apply (lo_r1 m4 L4) | apply (lo_i1 m4 L4)]|].
  split; [apply (wrap_range w Hw1) | now rewrite Wr].
Qed.

Lemma decldiv_runs li S s m op a b st C S' st' ex p :
  lower_stmt S li (SDeclDiv op a b) st = (C, S', st', ex) -> plc C p -> wf_senv S -> rep S s m ->
  sscoped w ng nbg lib_hyps cf (length (ioffs S)) (length (boffs S)) (in_loop li) (SDeclDiv op a b) ->
  fst (need_stmt S (SDeclDiv op a b)) <= FP m - lo ->
  (ieval w s b <> 0 ->
     reaches li S S' s (mkstore (si s ++ [swrap w (arith_sem op (ieval w s a) (ieval w s b))]) (sb s) (sg s) (sgb s)) [] ONormal p (p + size C) m) /\
  (ieval w s b = 0 -> reaches li S S' s s [] (OFault FDivZero) p (p + size C) m).
Proof.
  intros Ev P Wf Rp Sc Hn. cbn [lower_stmt] in Ev. destruct (add_label LDivAllowed st) as [da st1]. injection Ev as <- <- <- <-.
  cbn [sscoped need_stmt fst] in Sc, Hn. destruct Sc as [Hop [Sa [Sb Hl]]].
  apply need_max in Hn. destruct Hn as [Hn Ht]. rewrite (wfs_w S Wf) in Ht.
  rewrite decl_div_eq in *. apply placed_app in P. destruct P as [P1 P2].
  destruct (div_r1_runs S s m op a b true da p Hl Wf Rp Hop Sa Sb Hn P1) as [Ok Fl].
  split; [|intros Z0; destruct (Fl Z0) as [m' Rn]; exact (reaches_fault li S _ s s FDivZero p _ m m' Rn)].
  intros Nz. destruct (Ok Nz) as [m2 [xw [Rn [A [Ov [Rx Sx]]]]]].
  destruct (push_int_runs S s m m2 (SReg R1) xw Wf Rp A Ht Ov Rx) as [m' [Cs [Rp' A']]]. rewrite Sx in Rp'.
  apply (reaches_normal li S _ s _ [] p _ m m'); [|exact (agree_fagree S s m m' Wf Rp A') | exact Rp' | exact (wf_push_int S Wf)].
  rewrite size_app, Z.add_assoc. exact (runs_seq _ _ _ Rn (Cs _ P2)).
Qed.
Lemma assdiv_runs li S s m i op a b st C S' st' ex p :
  lower_stmt S li (SAssignDiv i op a b) st = (C, S', st', ex) -> plc C p -> wf_senv S -> rep S s m ->
  sscoped w ng nbg lib_hyps cf (length (ioffs S)) (length (boffs S)) (in_loop li) (SAssignDiv i op a b) ->
  fst (need_stmt S (SAssignDiv i op a b)) <= FP m - lo ->
  (ieval w s b <> 0 ->
     reaches li S S' s (mkstore (upd i (swrap w (arith_sem op (ieval w s a) (ieval w s b))) (si s)) (sb s) (sg s) (sgb s)) [] ONormal p (p + size C) m) /\
  (ieval w s b = 0 -> reaches li S S' s s [] (OFault FDivZero) p (p + size C) m).
Proof.
  intros Ev P Wf Rp Sc Hn. cbn [lower_stmt] in Ev. destruct (add_label LDivAllowed st) as [da st1]. injection Ev as <- <- <- <-.
  cbn [sscoped need_stmt fst] in Sc, Hn. destruct Sc as [Hi [Hop [Sa [Sb Hl]]]].
  unfold assign_div in *. apply placed_app in P. destruct P as [P1 P2].
  destruct (div_r1_runs S s m op a b false da p Hl Wf Rp Hop Sa Sb Hn P1) as [Ok Fl].
  split; [|intros Z0; destruct (Fl Z0) as [m' Rn]; exact (reaches_fault li S S s s FDivZero p _ m m' Rn)].
  intros Nz. destruct (Ok Nz) as [m2 [xw [Rn [A [Ov [Rx Sx]]]]]].
  destruct (set_int_runs S s m m2 i (SReg R1) xw Wf Rp A Hi Ov Rx) as [m' [Cs [Rp3 Fa]]]. rewrite Sx in Rp3.
  apply (reaches_normal li S S s _ [] p _ m m'); [|exact Fa | exact Rp3 | exact Wf].
  rewrite size_app, Z.add_assoc. exact (runs_seq _ _ _ Rn (Cs _ P2)).
Qed.

Lemma return_runs S s m r p : wf_senv S -> rep S s m ->
  match r with Some o => oscoped w ng (length (ioffs S)) (length (boffs S)) o /\ need_int S o false <= FP m - lo | None => True end ->
  plc (lower_return S r) p ->
  exists m', runs (mk p m) [] (mk (lw m (FP m - w)) m') /\ agree w R lo (FP m) m m' /\
             match r with Some o => sgn (lw m' (FP m - w)) = ieval w s o | None => True end.
Proof.
  intros Wf Rp Hr P. pose proof (rep_bounds S s m Wf Rp) as B. pose proof (rp_regs S s m Rp) as L. pose proof (wfs_w S Wf) as Ews.
  pose proof (wfs_fb S Wf) as Ofb. rewrite Hfb in Ofb.
  assert (Ow : 0 < w <= W / 2) by (lia).
  (* the tail: lwso [r1],[fp],-w ... j [r1]; halt, from a memory m2 that agrees with m below the stack top *)
  assert (Tail : forall m2, agree w R lo (FP m - top S) m m2 ->
            let m3 := sw m2 r1 (lw m (FP m - w)) in
            code_runs [AInstr (ALwso R1 (SReg RFp) (SLit (- w)))] m2 m3 /\ agree w R lo (FP m - top S) m m3 /\ regs_ok w R lo m3 /\
            FP m3 = FP m /\ lw m3 r1 = lw m (FP m - w)).
  { intros m2 A m3.
    pose proof (regs_ok_agree _ m m2 L A) as L2. pose proof (FP_agree _ m m2 L A) as F2.
    assert (Era : lw m2 (FP m2 - w) = lw m (FP m - w)).
    { rewrite F2. apply (agree_lw w R lo Hw (FP m - top S) m m2); [exact A | lia |]. unfold dj. lia. }
    destruct (frame_load_runs m2 w L2 Ow) as [Cl [A23 Ov]]; [rewrite F2, (agree_inb w R lo _ m m2 _ _ A); apply inb_true; lia|].
    rewrite Era in Cl, A23, Ov. fold m3 in Cl, A23, Ov.
    assert (A3 : agree w R lo (FP m - top S) m m3) by (eapply agree_trans; [exact A | apply (agree_mono lo); [lia | exact A23]]).
    split; [exact Cl|]. split; [exact A3|]. split; [apply (regs_ok_agree _ m m3 L A3)|]. split; [apply (FP_agree _ m m3 L A3)|].
    exact (eq_sym (proj2 (oval_st_inv w cmem m3 _ _ Ov))). }
  assert (Jump : forall m4 q, regs_ok w R lo m4 -> lw m4 r1 = lw m (FP m - w) -> code q = Some (IJ (St r1)) -> code (q + 1) = Some IHalt ->
            runs (mk q m4) [] (mk (lw m (FP m - w)) m4)).
  { intros m4 q L4 V Cj Ch. pose proof (goto_reg w code cmem q m4 r1 Cj Ch (lo_i1 m4 L4)) as G. rewrite V in G. exact G. }
  destruct r as [o|].
  - destruct Hr as [Sc Hn].
    rewrite lower_return_eq in P. apply placed_app in P. destruct P as [P1 P2].
    destruct (get_value_runs S s m R0 o (or_introl eq_refl) Wf Rp Sc Hn) as [m2 [C [A Ov]]]. pose proof (C p P1) as Rn.
    pose proof (sym_of_volatile w R (env_of S) lo (top S) R0 o false _ m (rep_oexp S s m o _ Wf Rp Sc (Z.le_refl _))) as Vs.
    set (v := sym_of R0 (bub_of (env_of S) (top S) R0 o false)) in *.
    cbn [placed res_ins regaddr] in P2. destruct P2 as [Cl [Cs [Cj [Ch _]]]]. rewrite Ews in Cl, Cs.
    destruct (sval_ieval S s m o Wf Rp Sc) as [Sv Rv].
    destruct (Tail m2 A) as [C3 [A3 [L3 [F3 V3]]]]. pose proof (C3 _ (conj Cl I)) as R3. set (m3 := sw m2 r1 (lw m (FP m - w))) in *.
    (* the value is a literal, in r0, or in the word of a global: the load into r1 has not touched it *)
    assert (Ov3 : oval m3 (rs v) = Some (wval w R (env_of S) m o)).
    { pose proof (regs_ok_agree _ m m2 L A) as L2.
      destruct v as [z|r'|l|c|r'|x0]; try contradiction; [exact Ov | | exact Ov]. cbn [res_sym] in Ov |- *. rewrite <- Ov. unfold m3.
      destruct (volatile_away w R lo code _ m R0 R1 r' L (or_introl eq_refl) (or_intror eq_refl) ltac:(discriminate) Vs) as [H0 Hd].
      apply (oval_st_sw_other w Hw cmem); [apply (lo_r1 m2 L2) | exact H0 | exact Hd]. }
    assert (I3 : inb m3 (FP m3 - w) w = true) by (rewrite F3, (agree_inb w R lo _ m m3 _ _ A3); apply inb_true; lia).
    pose proof (store_word_runs m3 v _ w Ov3 L3 Ow I3 _ (conj Cs I)) as Rs. rewrite F3 in Rs.
    set (m4 := sw m3 (FP m - w) (wval w R (env_of S) m o)) in *.
    assert (A34 : agree w R lo (FP m) m3 m4) by (apply (agree_sw); [lia | right; right; lia]).
    assert (A4 : agree w R lo (FP m) m m4).
    { eapply (agree_trans); [|exact A34]. apply (agree_mono (FP m - top S)); [lia | exact A3]. }
    assert (L4 : regs_ok w R lo m4) by (apply (regs_ok_agree _ m m4 L A4)).
    assert (V4 : lw m4 r1 = lw m (FP m - w)).
    { rewrite <- V3. unfold m4. apply (lw_sw_other w Hw1); [lia | apply (lo_r1 m3 L3) | destruct L3, Rp; lia]. }
    exists m4. split; [|split; [exact A4|]].
    + exact (runs_seq _ _ _ Rn (runs_seq _ _ _ R3 (runs_seq _ _ _ Rs (Jump m4 _ L4 V4 Cj Ch)))).
    + unfold m4. rewrite (lw_sw_same w Hw1) by (lia). rewrite (wrap_small w _ Rv). exact Sv.
  - cbn [lower_return placed res_ins res_sym regaddr] in P. destruct P as [Cl [Cj [Ch _]]]. rewrite Ews in Cl.
    destruct (Tail m (agree_refl w R lo _ m)) as [C3 [A3 [L3 [F3 V3]]]]. pose proof (C3 _ (conj Cl I)) as R3.
    eexists. split; [|split; [apply (agree_mono (FP m - top S)); [lia | exact A3] | exact I]].
    exact (runs_seq _ _ _ R3 (Jump _ _ L3 V3 Cj Ch)).
Qed.

Lemma push_args_runs args : forall S s m, wf_senv S -> rep S s m -> Forall (oscoped w ng (length (ioffs S)) (length (boffs S))) args -> Forall not_trunc args ->
  need_args S args <= FP m - lo ->
  exists m', code_runs (push_args S args) m m' /\ agree w R lo (FP m - top S) m m' /\
    forall k, (k < length args)%nat ->
      sgn (lw m' (FP m - (top S + (Z.of_nat k + 1) * w))) = ieval w s (nth k args (OLit false 0)).
Proof.
  induction args as [|o r IH]; intros S s m Wf Rp Sc Nts Hn.
  - exists m. split; [apply code_runs_nil|]. split; [apply agree_refl|]. intros k Hk. inversion Hk.
  - pose proof (rep_bounds S s m Wf Rp) as B. cbn [push_args need_args] in *. inversion Sc as [|x0 l0 So Sr]; subst x0 l0. inversion Nts as [|x0 l0 Nto Ntr]; subst x0 l0.
    apply need_max in Hn. destruct Hn as [Hn Hnr]. apply need_max in Hn. destruct Hn as [Hn1 Hn2].
    pose proof (wfs_w S Wf) as Ews. rewrite Ews in Hn2.
    destruct (decl_int_runs S s m o Wf Rp So Nto Hn1 Hn2) as [m1 [C1 [Rp1 A1]]].
    pose proof (rep_after_ra S s m m1 Wf Rp A1 Hn2) as Rpa. pose proof (wf_after_ra S Wf) as Wfa.
    pose proof (rp_regs S s m Rp) as L. pose proof (FP_agree _ m m1 L A1) as F1.
    pose proof (regs_ok_agree _ m m1 L A1) as L1.
    destruct (IH (after_ra S) s m1 Wfa Rpa Sr Ntr ltac:(rewrite F1; exact Hnr)) as [m2 [C2 [A2 V2]]].
    cbn [after_ra top] in A2, V2. rewrite Ews, F1 in A2, V2.
    exists m2. split; [exact (code_runs_app _ _ _ _ _ C1 C2)|split].
    + eapply (agree_trans); [exact A1|]. apply (agree_mono (FP m - (top S + w))); [lia | exact A2].
    + intros k Hk. destruct k as [|k].
      * cbn [nth]. change (Z.of_nat 0 + 1) with 1. rewrite Z.mul_1_l.
        assert (E1 : sgn (lw m1 (FP m - (top S + w))) = ieval w s o).
        { pose proof (rep_pushed_int S _ _ _ _ _ m1 (rp_li S s m Rp) Rp1) as Ri. rewrite Ews, F1 in Ri. exact Ri. }
        rewrite <- E1. f_equal. apply (agree_lw w R lo Hw (FP m - (top S + w)) m1 m2 _ A2); [lia|].
        unfold dj. lia.
      * cbn [nth length] in *. specialize (V2 k ltac:(lia)). rewrite <- V2. f_equal. f_equal. lia.
Qed.

Lemma entry_mem S s m0 mb : wf_senv S -> rep S s m0 -> agree w R lo (FP m0 - top S) m0 mb ->
  let m1 := sw mb fp (FP m0 + wrap (- top S)) in
  regs_ok w R lo m1 /\ FP m1 = FP m0 - top S /\ msize m1 = msize mb /\
  (forall a, 0 <= a -> (a < fp \/ fp + w <= a) -> getb m1 a = getb mb a).
Proof.
  intros Wf Rp A m1. pose proof (rep_bounds S s m0 Wf Rp) as B. pose proof (rp_regs S s m0 Rp) as L0. pose proof (regs_ok_agree _ m0 mb L0 A) as Lb.
  assert (Efpc : wrap (FP m0 + wrap (- top S)) = FP m0 - top S) by (apply (wrap_add_neg w); lia).
  assert (F1 : FP m1 = FP m0 - top S) by (unfold FP, m1; rewrite (lw_sw_same w Hw1) by apply (lo_fp w R lo mb Lb); exact Efpc).
  split; [|split; [exact F1 | split; [apply msize_sw|]]].
  - destruct Lb. constructor; try assumption; unfold m1; rewrite ?inb_sw; try assumption.
    + apply (wf_sw w); assumption.
    + fold m1. rewrite F1. lia.
  - intros a Ha D. unfold m1. apply (getb_sw_other w Hw); [apply (lo_fp w R lo mb Lb) | exact Ha | lia].
Qed.

Lemma call_enter S s m0 mb ec f p : wf_senv S -> rep S s m0 -> agree w R lo (FP m0 - top S) m0 mb ->
  plc (call_seq S ec f) p ->
  runs (mk p mb) [] (mk (lab (func_label f)) (sw mb fp (FP m0 + wrap (- top S)))).
Proof.
  intros Wf Rp A P. pose proof (rp_regs S s m0 Rp) as L0. pose proof (regs_ok_agree _ m0 mb L0 A) as Lb.
  pose proof (FP_agree _ m0 mb L0 A) as Fb.
  cbn [call_seq placed res_ins res_sym regaddr] in P. destruct P as [C0 [C1 [C2 _]]].
  change (@nil event) with (@nil event ++ []). eapply runs_trans.
  - apply (runs_next act _ _ None).
    eapply (act_arith w code cmem); [exact C0 | apply oval_st, (lo_if mb Lb) | apply oval_imm | reflexivity | apply (lo_if mb Lb)].
  - cbn [arith]. unfold FP in Fb. rewrite Fb.
    pose proof (goto_label w code cmem _ (sw mb fp (FP m0 + wrap (- top S))) (lab (func_label f)) C1 C2) as G.
    rewrite (wrap_small w _ (lab_range _)) in G. exact G.
Qed.
(* the whole call, given the callee's run from its entry memory: it returns to the pushed return
   address, changing at most r0, r1, r2, the stack below its frame pointer and the globals *)
Lemma user_call_runs S s m0 mb ec f p evs m2 : wf_senv S -> rep S s m0 ->
  agree w R lo (FP m0 - top S) m0 mb -> top S + w <= FP m0 - lo ->
  lw mb (FP m0 - top S - w) = lab ec -> plc (call_seq S ec f) p ->
  runs (mk (lab (func_label f)) (sw mb fp (FP m0 + wrap (- top S)))) (map EOut evs)
       (mk (lw (sw mb fp (FP m0 + wrap (- top S))) (FP m0 - top S - w)) m2) ->
  gagree w R lo gl (FP m0 - top S) (sw mb fp (FP m0 + wrap (- top S))) m2 ->
  exists m3, runs (mk p mb) (map EOut evs) (mk (p + size (call_seq S ec f)) m3) /\
             gagree w R lo gl (FP m0 - top S) m0 m3 /\ lw m3 (FP m0 - top S - w) = lw m2 (FP m0 - top S - w) /\
             m3 = sw m2 fp (FP m0) /\ regs_ok w R lo m2.
Proof.
  intros Wf Rp A Hr Hra P Rc A2. pose proof (rep_bounds S s m0 Wf Rp) as B.
  destruct (entry_mem S s m0 mb Wf Rp A) as [L1 [F1 [Sz1 _]]].
  pose proof (regs_ok_gagree w R lo gl Hw Hgl _ _ m2 L1 A2) as L2. pose proof (FP_gagree w R lo gl Hw Hgl _ _ m2 L1 A2) as F2.
  cbn [call_seq placed res_ins res_sym regaddr] in P. destruct P as [C0 [C1 [C2 [Lec [C3 _]]]]].
  destruct A2 as [Sz2 [Wf2 G2]]. rewrite Sz1 in Sz2.
  destruct (frame_call_runs S s m0 mb ec _ _ p evs m2
              (fun a => ~ (r0 <= a < r0 + w) /\ ~ (r1 <= a < r1 + w) /\ ~ (lo <= a < FP m0 - top S) /\ ~ (a_r2 R <= a < a_r2 R + w) /\ ~ (gl <= a))
              Wf Rp A Hr Hra C0 C1 C2 Lec C3 (fun m => oval_lab w cmem lab lab_range m _) Rc Sz2 (Wf2 (lo_wf _ L1))
              ltac:(rewrite <- F1, <- F2; reflexivity)) as [Rcall [Sz3 [Wf3 [HP3 V3]]]].
  { intros a Pa _ [P0 [P1 [P2 [P3 P5]]]]. apply G2; assumption. }
  exists (sw m2 fp (FP m0)). split; [|split; [|split; [exact V3 | split; [reflexivity | exact L2]]]].
  - cbn [call_seq size]. replace (p + (1 + (1 + (1 + (1 + 0))))) with (p + 4) by lia. exact Rcall.
  - eapply (gagree_trans w R lo gl); [apply (agree_gagree w R lo gl); exact A|]. split; [exact Sz3|]. split; [intros _; exact Wf3|].
    intros x X N0 N1 N2 N3 N4. apply HP3; [exact X | repeat split; assumption].
Qed.

Definition only_g (g : nat) (ma m' : mem) : Prop :=
  msize m' = msize ma /\ (wf_mem ma -> wf_mem m') /\
  forall x, 0 <= x -> ~ (a_glob R g <= x < a_glob R g + w) -> getb m' x = getb ma x.
Lemma only_g_refl g m : only_g g m m.
Proof. split; [reflexivity|]. split; auto. Qed.
Lemma only_g_sw g ma m' x : 0 <= a_glob R g -> only_g g ma m' -> only_g g ma (sw m' (a_glob R g) x).
Proof.
  intros Ha [S1 [F1 G1]]. split; [rewrite msize_sw; exact S1|]. split; [intros Wf; apply (wf_sw w); auto|].
  intros y Y N. rewrite <- (G1 y Y N). unfold Machine.sw. apply storen_outside; [exact Ha | exact Y|]. rewrite (wn_w w Hw1). lia.
Qed.
Lemma only_g_lw g ma m' a : only_g g ma m' -> 0 <= a -> (a + w <= a_glob R g \/ a_glob R g + w <= a) -> lw m' a = lw ma a.
Proof.
  intros [_ [_ G]] Ha D. unfold Machine.lw. apply loadn_ext. intros x Hx. rewrite (wn_w w Hw1) in Hx. apply G; lia.
Qed.
Lemma only_g_gagree g hi ma m' : gl <= a_glob R g -> only_g g ma m' -> gagree w R lo gl hi ma m'.
Proof. intros Hg [S1 [F1 G1]]. split; [exact S1|]. split; [exact F1|]. intros x X N0 N1 N2 N3 N4. apply G1; [exact X | lia]. Qed.
Lemma only_g_oval g ma m' v y : only_g g ma m' -> oval ma (rs v) = Some y ->
  match v with SReg r => 0 <= regaddr R r /\ (regaddr R r + w <= a_glob R g \/ a_glob R g + w <= regaddr R r) | SLit _ | SChar _ => True | _ => False end ->
  oval m' (rs v) = Some y.
Proof using Hw code cf gl ng.
  intros O Ov Hv. destruct v as [z|r|l|c|r|x]; try contradiction; cbn [res_sym] in *.
  - rewrite <- Ov. apply oval_imm_any.
  - destruct Hv as [H0 HD]. destruct (oval_st_inv w cmem ma _ _ Ov) as [I E].
    rewrite (oval_st w cmem m' _); [rewrite (only_g_lw g ma m' _ O H0 HD), E; reflexivity|].
    unfold inb in *. rewrite (proj1 O). exact I.
  - rewrite <- Ov. apply oval_imm_any.
Qed.

Lemma only_g_inb S s m hi g ma m1 : rep S s m -> (g < ng)%nat -> agree w R lo hi m ma -> only_g g ma m1 ->
  inb m1 (a_glob R g) w = true.
Proof. intros Rp Hg A O. unfold inb. rewrite (proj1 O), (proj1 A). exact (proj1 (proj2 (rp_g S s m Rp g Hg))). Qed.
Lemma glob_write_runs S s m g ma m1 c y : wf_senv S -> rep S s m -> (g < ng)%nat ->
  agree w R lo (FP m - top S) m ma -> only_g g ma m1 ->
  (inb m1 (a_glob R g) w = true -> code_runs c m1 (sw m1 (a_glob R g) y)) ->
  only_g g ma (sw m1 (a_glob R g) y) /\ code_runs c m1 (sw m1 (a_glob R g) y) /\
  oval (sw m1 (a_glob R g) y) (St (a_glob R g)) = Some (wrap y).
Proof.
  intros Wf Rp Hg A O Cr. pose proof (rep_bounds S s m Wf Rp) as B. destruct (rp_g S s m Rp g Hg) as [G0 _].
  pose proof (only_g_inb S s m _ g ma m1 Rp Hg A O) as I1.
  split; [apply only_g_sw; [lia | exact O]|]. split; [exact (Cr I1)|].
  apply (oval_st_sw_same w Hw cmem); [lia | exact I1].
Qed.
Lemma eval_opd_trunc_code E top r x keep : fst (eval_opd E top r (OTrunc x) keep) = fst (eval_opd E top r x keep).
Proof. cbn [eval_opd]. destruct (eval_opd E top r x keep). reflexivity. Qed.

(* get_expr_value(var_g, o): any int operand evaluated INTO the word of global g *)
Lemma glob_value_runs S s m g : wf_senv S -> rep S s m -> (g < ng)%nat -> forall o,
  oscoped w ng (length (ioffs S)) (length (boffs S)) o -> need_int S o false <= FP m - lo ->
  exists ma m', agree w R lo (FP m - top S) m ma /\ only_g g ma m' /\
     code_runs (value_code (env_of S) (top S) (RGlob g) o) m m' /\
     oval m' (rs (sym_of (RGlob g) (bub_of (env_of S) (top S) (RGlob g) o false))) = Some (wval w R (env_of S) m o).
Proof.
  intros Wf Rp Hg. pose proof (rep_bounds S s m Wf Rp) as B. pose proof (rp_regs S s m Rp) as L.
  pose proof (wfs_w S Wf) as Ews. pose proof (Ews : wsize (env_of S) = w) as HwE. destruct (rp_g S s m Rp g Hg) as [G0 [G1 G2]].
  set (E := env_of S) in *. set (tp := top S) in *.
  (* nothing has run yet *)
  pose proof (fun i y => glob_write_runs S s m g m m i y Wf Rp Hg (agree_refl w R lo _ m) (only_g_refl g m)) as Start.
  induction o as [ch z|i|op x IHx y IHy|u x IHx|h|tx IHt|yj]; intros Sc Hn.
  - exists m, m. split; [apply agree_refl|]. split; [apply only_g_refl|]. split; [apply code_runs_nil|].
    destruct ch; apply oval_imm.
  - (* a local: loaded into the global *)
    cbn [oscoped] in Sc. destruct (rep_slot_i S s m i (FP m - top S) Wf Rp Sc (Z.le_refl _)) as [O1 [O2 [O3 _]]].
    destruct (Start [AInstr (ALwso (RGlob g) (SReg RFp) (SLit (- int_off E i)))] (lw m (FP m - int_off E i))) as [Og [C Ov]].
    { intros I1. apply code_runs_one. intros q Cq. exact (frame_lwso_act q m (a_glob R g) _ L Cq O1 O3 I1). }
    eexists m, _. split; [apply agree_refl|]. split; [exact Og|]. split; [exact C|].
    cbn [bub_of sym_of pop_value snd res_sym regaddr wval]. rewrite Ov. f_equal. apply (wrap_small w), (lw_range w Hw1), (lo_wf m L).
  - (* binary: the operands as usual, the operation into the global *)
    destruct (rep_opd_hyps S s m _ false Wf Rp Sc Hn) as [_ [_ [Ro [[Oop [Ox Oy]] T]]]]. cbn [temps] in T.
    destruct (pair_runs w R E lo Hw HwE code cmem lab x y (eval_opd_props w R E lo Hw HwE code cmem lab x)
                (eval_opd_props w R E lo Hw HwE code cmem lab y) tp m L Ro Ox Oy (proj1 (room_max w Hw _ _ _ T))) as [A4 [Sl [Sr C4]]].
    set (m4 := pair_mem w R E tp x y m) in *. pose proof (lo_wf m L) as Wfm.
    destruct (glob_write_runs S s m g m4 m4 _ (wval w R E m (OArith op x y)) Wf Rp Hg A4 (only_g_refl g m4)
                (arith_runs w R E lo Hw code cmem lab op x y (RGlob g) _ _ _ m m4 Oop Wfm Ox Oy Sl Sr)) as [Og [Ci Ov]].
    eexists m4, _. split; [exact A4|]. split; [exact Og|]. split.
    + unfold value_code. rewrite eval_opd_arith, (finish_opd_eq w E HwE). cbn [bub_of fst pop_value push_code]. rewrite !app_nil_r.
      exact (code_runs_app _ _ _ _ _ C4 Ci).
    + cbn [bub_of sym_of pop_value snd res_sym regaddr]. rewrite Ov. cbn [wval]. now rewrite (wrap_wrap w Hw1).
  - (* unary: the argument into the global, then the operation on it *)
    cbn [oscoped] in Sc. unfold need_int in Hn. cbn [temps] in Hn. rewrite Nat.max_0_r in Hn.
    destruct (IHx Sc Hn) as [ma [m1 [A [O [Cx Ovx]]]]].
    pose proof (rep_oexp S s m x (FP m - tp) Wf Rp Sc (Z.le_refl _)) as Ox. pose proof (lo_wf m L) as Wfm.
    destruct (un_runs w R Hw code cmem lab u (RGlob g) _ _ m1 ltac:(cbn [regaddr]; lia) (only_g_inb S s m _ g ma m1 Rp Hg A O) Ovx
                (wval_range w R E Hw m x Wfm)) as [V Cu].
    cbn [regaddr] in V, Cu. set (mf := match u with UNeg => sw _ _ _ | UPos => _ end) in *.
    assert (Of : only_g g ma mf).
    { unfold mf. destruct u; [apply only_g_sw; [lia | exact O]|]. destruct (is_state_of _ _); [exact O | apply only_g_sw; [lia | exact O]]. }
    exists ma, mf. split; [exact A|]. split; [exact Of|]. split; [rewrite (value_code_un w E HwE); exact (code_runs_app _ _ _ _ _ Cx Cu)|].
    cbn [bub_of sym_of pop_value snd res_sym regaddr]. rewrite (wval_un w R E lo Hw _ m u x Wfm Ox), <- V.
    exact (oval_st w cmem mf _ (only_g_inb S s m _ g ma mf Rp Hg A Of)).
  - (* another global: used where it is *)
    cbn [oscoped] in Sc. destruct (rp_g S s m Rp h Sc) as [H0 [H1 H2]].
    exists m, m. split; [apply agree_refl|]. split; [apply only_g_refl|]. split; [apply code_runs_nil|].
    exact (oval_st w cmem m _ H1).
  - (* byte access: the value into the global as usual, then its low byte: lbs [var_g], var_r *)
    cbn [oscoped] in Sc. destruct Sc as [Stx Sh].
    assert (Hn' : need_int S tx false <= FP m - lo) by (unfold need_int in *; cbn [temps] in Hn; exact Hn).
    destruct (IHt Stx Hn') as [ma [m1 [A [O [Cx Ovx]]]]].
    assert (Sb : exists r, bub_of E tp (RGlob g) tx false = BuReg r /\ (r = RGlob g \/ exists h, r = RGlob h /\ tx = OGlob h)).
    { destruct tx; try (exfalso; exact Sh); cbn [bub_of]; eexists; (split; [reflexivity|]); [left; reflexivity | left; reflexivity | right; eauto]. }
    destruct Sb as [r [Eb Hr]]. unfold value_code in Cx |- *. rewrite eval_opd_trunc_code. cbn [bub_of]. rewrite Eb in *.
    cbn [to_byte sym_of pop_value fst snd res_sym] in *. rewrite app_nil_r in Cx.
    destruct (oval_st_inv w cmem m1 _ _ Ovx) as [Ir Er].
    assert (Hra : 0 <= regaddr R r < W).
    { destruct Hr as [-> | [h [-> ->]]]; cbn [regaddr]; [lia|]. cbn [oscoped] in Stx. destruct (rp_g S s m Rp h Stx) as [H0 _]. lia. }
    assert (Wf1 : wf_mem m1) by (apply (proj1 (proj2 O)), (proj1 (proj2 A)), (lo_wf m L)).
    destruct (glob_write_runs S s m g ma m1 [AInstr (ALbs (RGlob g) (SRegAddr r))] _ Wf Rp Hg A O
                (fun I1 => code_runs_one (ALbs (RGlob g) (SRegAddr r)) _ _ (fun q Cq => addr_lbs_act q m1 (a_glob R g) _ Wf1 Cq Hra Ir I1))) as [Og [Ci Ov]].
    eexists ma, _. split; [exact A|]. split; [exact Og|]. split; [exact (code_runs_app _ _ _ _ _ Cx Ci)|].
    cbn [regaddr wval]. rewrite Ov, Er. f_equal.
    apply (wrap_small w), (byte_inrange w Hw), Z.mod_pos_bound. lia.
  - (* a byte-sized local read as an int: loaded into the global with lbso *)
    cbn [oscoped] in Sc.
    destruct (rep_slot_y w R lo fb gl ng nbg Hw S s m yj (FP m - top S) Wf Rp Sc (Z.le_refl _)) as [O1 [O2 [O3 _]]].
    destruct (Start [AInstr (ALbso (RGlob g) (SReg RFp) (SLit (- byte_off E yj)))] (lb m (FP m - byte_off E yj))) as [Og [C Ov]].
    { intros I1. apply code_runs_one. intros q Cq. exact (frame_lbso_act q m (a_glob R g) _ L Cq O1 O3 I1). }
    eexists m, _. split; [apply agree_refl|]. split; [exact Og|]. split; [exact C|].
    cbn [bub_of sym_of pop_value snd res_sym regaddr wval]. rewrite Ov. f_equal.
    exact (wrap_small w _ (byte_inrange w Hw _ (lb_range m _ (lo_wf m L)))).
Qed.
Definition extends (S S1 : senv) : Prop :=
  (exists l, ioffs S1 = ioffs S ++ l) /\ (exists l, boffs S1 = boffs S ++ l) /\ top S <= top S1 /\ ws S1 = ws S.
Lemma extends_refl S : extends S S.
Proof. split; [exists []; now rewrite app_nil_r|]. split; [exists []; now rewrite app_nil_r|]. split; [lia | reflexivity]. Qed.
Lemma extends_trans S1 S2 S3 : extends S1 S2 -> extends S2 S3 -> extends S1 S3.
Proof.
  intros [[l1 E1] [[k1 F1] [T1 W1']]] [[l2 E2] [[k2 F2] [T2 W2']]].
  split; [exists (l1 ++ l2); rewrite E2, E1; now rewrite app_assoc|].
  split; [exists (k1 ++ k2); rewrite F2, F1; now rewrite app_assoc|]. split; [lia | congruence].
Qed.
Lemma extends_push_int S : 0 <= ws S -> extends S (push_int S).
Proof. intros H. split; [eexists; reflexivity|]. split; [exists []; cbn; now rewrite app_nil_r|]. cbn. split; [lia | reflexivity]. Qed.
Lemma extends_push_bool S : extends S (push_bool S).
Proof. split; [exists []; cbn; now rewrite app_nil_r|]. split; [eexists; reflexivity|]. cbn. split; [lia | reflexivity]. Qed.
(* leaving a block: the outer locals are still represented *)
Lemma rep_shrink S S1 s s1 m : extends S S1 ->
  length (si s) = length (ioffs S) -> length (sb s) = length (boffs S) -> rep S1 s1 m -> rep S (trunc s s1) m.
Proof.
  intros [[l El] [[k Ek] [Ht _]]] Li Lb Rp. destruct Rp as [Rg Rlo Rh Rsz Rli Rlb Ri Rb Rap Rgl Rgn Rgg Rgd Rbn Rbg Rbd].
  constructor; cbn [trunc si sb]; try assumption; try lia.
  - rewrite firstn_length, Rli, El, app_length. lia.
  - rewrite firstn_length, Rlb, Ek, app_length. lia.
  - intros i Hi. rewrite Li. specialize (Ri i ltac:(rewrite El, app_length; lia)). rewrite El, app_nth1 in Ri by exact Hi.
    rewrite Ri. rewrite <- (firstn_skipn (length (ioffs S)) (si s1)) at 1. rewrite app_nth1; [reflexivity|].
    rewrite firstn_length, Rli, El, app_length. lia.
  - intros j Hj. rewrite Lb. specialize (Rb j ltac:(rewrite Ek, app_length; lia)). rewrite Ek, app_nth1 in Rb by exact Hj.
    assert (En : nth j (firstn (length (boffs S)) (sb s1)) 0 = nth j (sb s1) 0).
    { rewrite <- (firstn_skipn (length (boffs S)) (sb s1)) at 2. rewrite app_nth1; [reflexivity|].
      rewrite firstn_length, Rlb, Ek, app_length. lia. }
    rewrite En. exact Rb.
Qed.
Lemma trunc_same_len s s' s1 : length (si s) = length (si s') -> length (sb s) = length (sb s') -> trunc s s1 = trunc s' s1.
Proof. intros A B. unfold trunc. now rewrite A, B. Qed.

Ltac destruct_lets :=
  repeat match goal with
  | |- context [add_label ?a ?b] => destruct (add_label a b)
  | |- context [declare_bool ?a ?b ?c] => destruct (declare_bool a b c)
  | |- context [assign_bool ?a ?b ?c ?d] => destruct (assign_bool a b c d)
  | |- context [assign_bglob ?a ?b ?c ?d] => destruct (assign_bglob a b c d)
  | |- context [lower_branch ?a ?b ?c ?d ?e] => destruct (lower_branch a b c d e)
  | |- context [lower_stmts ?a ?b ?c ?d] => destruct (lower_stmts a b c d) as [[[? ?] ?] ?]
  end.
Lemma lower_stmt_env S li s st : let '(_, S', _, _) := lower_stmt S li s st in S' = snd (need_stmt S s).
Proof.
  destruct s as [o|i o|e|j e|x| |ln o|ln e|c s1 s2|c b k|ss| | |op a b|i op a b|dst f args|r|gg og|gg gop ga gb|hh eh]; cbn [lower_stmt need_stmt need_bool_decl snd];
    try reflexivity; try (destruct x; reflexivity); try (destruct r; reflexivity); destruct_lets; reflexivity.
Qed.
Lemma need_stmt_extends S s : 0 <= ws S -> extends S (snd (need_stmt S s)).
Proof.
  intros H. destruct s as [o|i o|e|j e|x| |ln o|ln e|c s1 s2|c b k|ss| | |op a b|i op a b|dst f args|r|gg og|gg gop ga gb|hh eh]; cbn [need_stmt snd]; try apply extends_refl.
  - apply extends_push_int. exact H.
  - destruct e; apply extends_push_bool.
  - destruct x; apply extends_refl.
  - apply extends_push_int. exact H.
  - destruct dst; try apply extends_refl. apply extends_push_int. exact H.
  - destruct r; apply extends_refl.
Qed.
Lemma lower_stmt_exited S li s st : let '(_, _, _, ex) := lower_stmt S li s st in ex = true -> exits s = true.
Proof.
  destruct s as [o|i o|e|j e|x| |ln o|ln e|c s1 s2|c b k|ss| | |op a b|i op a b|dst f args|r|gg og|gg gop ga gb|hh eh]; cbn [lower_stmt exits]; try (intros; discriminate); auto;
    destruct_lets; intros; discriminate.
Qed.

Definition stmt_spec (d : Z) (s : stmt) (s0 : store) (evs : list Z) (out : outcome) (s1 : store) : Prop :=
  forall S li st C S' st' ex p m,
    lower_stmt S li s st = (C, S', st', ex) -> plc C p -> wf_senv S -> tight S -> rep S s0 m -> d = FP m - lo ->
    sscoped w ng nbg lib_hyps cf (length (ioffs S)) (length (boffs S)) (in_loop li) s -> fst (need_stmt S s) <= FP m - lo ->
    reaches li S S' s0 s1 evs out p (p + size C) m.
Definition stmts_spec (d : Z) (ss : stmts) (s0 : store) (evs : list Z) (out : outcome) (s1 : store) : Prop :=
  forall S li st C S' st' ex p m,
    lower_stmts S li ss st = (C, S', st', ex) -> plc C p -> wf_senv S -> tight S -> rep S s0 m -> d = FP m - lo ->
    ssscoped w ng nbg lib_hyps cf (length (ioffs S)) (length (boffs S)) (in_loop li) ss -> need_stmts S ss <= FP m - lo ->
    reaches li S S' s0 s1 evs out p (p + size C) m.
(* a call of function f from an entry memory: fp at the callee's frame, the return address in the
   word below it, argument k in the (k + 2)-th word below it; d bytes of stack below fp *)
Definition call_spec (d : Z) (f : nat) (vs : list Z) (G : gstore) (evs : list Z) (res : cres) : Prop :=
  forall m, lib_hyps -> cf f (length vs) -> regs_ok w R lo m -> d = FP m - lo -> 0 <= FP m - lo <= W / 2 -> FP m <= msize m ->
    (ap_sep w R lo -> lw m (a_ap R) = lo) ->
    (forall k, (k < length vs)%nat -> sgn (lw m (FP m - (Z.of_nat k + 2) * w)) = nth k vs 0) ->
    FP m <= gl -> greps G m -> glayout ->
    exists m', match res with
      | CRet v G' => runs (mk (lab (func_label f)) m) (map EOut evs) (mk (lw m (FP m - w)) m') /\ gagree w R lo gl (FP m) m m' /\
                  match v with Some x => sgn (lw m' (FP m - w)) = x | None => True end /\ greps G' m'
      | CFault ft => runs (mk (lab (func_label f)) m) (map EOut evs) (mk (a_lib R + fault_off ft) m')
      end.
(* every callable function is in the code: label, entry guard, body; its guard constant is a word
   (used by fun_entry, and through it by fun_body_reaches and the call cases of stmts_runs) *)
Hypothesis cf_ok : forall f n, cf f n -> exists fd st, nth_error funs f = Some fd /\ fn_params fd = n /\
  0 <= fun_need w fd < W / 2 /\ plc (fst (lower_fun w f fd st)) (lab (func_label f)) /\
  ssscoped w ng nbg lib_hyps cf n 0 false (fn_body fd).

Lemma trunc_self s : trunc s s = s.
Proof. destruct s as [a b c]. unfold trunc; cbn [si sb sg]. now rewrite !firstn_all. Qed.
Lemma trunc_trunc s0 s1 s2 : (length (si s0) <= length (si s1))%nat -> (length (sb s0) <= length (sb s1))%nat ->
  trunc s0 (trunc s1 s2) = trunc s0 s2.
Proof. intros A B. unfold trunc; cbn [si sb]. rewrite !firstn_firstn. f_equal; f_equal; lia. Qed.
Lemma trunc_idem s0 s1 : trunc s0 (trunc s0 s1) = trunc s0 s1.
Proof. apply trunc_trunc; lia. Qed.
Lemma exit_pc_exit li out e1 e2 ra : out <> ONormal -> exit_pc li out e1 ra = exit_pc li out e2 ra.
Proof. intros N. destruct out, li as [[? ?]|]; cbn; congruence. Qed.
Lemma lower_stmts_extends ss : forall S li st, 0 <= ws S -> let '(_, S', _, _) := lower_stmts S li ss st in extends S S'.
Proof.
  induction ss as [|s r IH]; intros S li st Hws; cbn [lower_stmts]; [apply extends_refl|].
  pose proof (lower_stmt_env S li s st) as Ee. destruct (lower_stmt S li s st) as [[[c S1] st1] ex].
  pose proof (need_stmt_extends S s Hws) as X. rewrite <- Ee in X.
  destruct ex; [exact X|].
  assert (Hws1 : 0 <= ws S1) by (destruct X as [_ [_ [_ Ew]]]; lia).
  specialize (IH S1 li st1 Hws1). destruct (lower_stmts S1 li r st1) as [[[cr S2] st2] ex2].
  eapply extends_trans; eauto.
Qed.
Lemma rep_len_le S S1 s s1 m m1 : extends S S1 -> rep S s m -> rep S1 s1 m1 ->
  (length (si s) <= length (si s1))%nat /\ (length (sb s) <= length (sb s1))%nat.
Proof.
  intros [[l El] [[k Ek] _]] Rp Rp1. rewrite (rp_li S s m Rp), (rp_lb S s m Rp),
    (rp_li S1 s1 m1 Rp1), (rp_lb S1 s1 m1 Rp1), El, Ek, !app_length. lia.
Qed.

Lemma tight_step S s : wf_senv S -> tight S -> tight (snd (need_stmt S s)).
Proof.
  intros Wf T. pose proof (wfs_w S Wf) as Ews. unfold tight in *.
  destruct s as [o|i o|e|j e|x| |ln o|ln e|c s1 s2|c b k|ss| | |op a b|i op a b|dst f args|r|gg og|gg gop ga gb|hh eh];
    cbn [need_stmt need_bool_decl snd]; try exact T; try (destruct x; exact T); try (destruct r; exact T);
    try (destruct dst; try exact T); cbn [push_int push_bool top ioffs boffs]; rewrite ?app_length; cbn [length]; rewrite ?Ews; lia.
Qed.
Lemma need_stmts_ge_top ss : forall S, 0 <= ws S -> top S <= need_stmts S ss.
Proof.
  induction ss as [|s r IH]; intros S Hws; cbn [need_stmts]; [lia|].
  pose proof (need_stmt_extends S s Hws) as X. destruct (need_stmt S s) as [n S1]. cbn [snd] in X.
  destruct X as [_ [_ [Ht Ew]]]. specialize (IH S1 ltac:(lia)). unfold zmax. lia.
Qed.
(* a prefix that keeps the frame (condition evaluation, earlier statements) before a run *)
Lemma frame_post_pre out m m1 m2 : regs_ok w R lo m -> fagree m m1 -> frame_post out m1 m2 -> frame_post out m m2.
Proof.
  intros L A B. pose proof (FP_fagree m m1 L A) as F1.
  destruct out; cbn [frame_post] in *; try exact I; try (apply (fagree_trans m m1 m2 L A B)).
  rewrite F1 in B. eapply (gagree_trans w R lo gl); [|exact B]. apply (gagree_mono w R lo gl (FP m - fb)); [lia | exact A].
Qed.
Lemma frame_post_normal_pre out m m1 m2 : regs_ok w R lo m -> frame_post ONormal m m1 -> frame_post out m1 m2 -> frame_post out m m2.
Proof using Hw Hfb Hgl cf_ok. intros L A B. apply (frame_post_pre out m m1 m2 L A B). Qed.
Lemma ra_fagree S s m m1 : wf_senv S -> rep S s m -> fagree m m1 -> lw m1 (FP m1 - w) = lw m (FP m - w).
Proof.
  intros Wf Rp A. pose proof (rep_bounds S s m Wf Rp) as B. pose proof (rp_regs S s m Rp) as L. rewrite (FP_fagree m m1 L A).
  apply (gagree_lw w R lo gl Hw (FP m - fb) m m1 _ A); [lia | unfold dj; lia | lia].
Qed.
Lemma post_exit S S1 S' s s' out m m2 : out <> ONormal -> post S S1 s s' out m m2 -> post S S' s (trunc s s') out m m2.
Proof. intros N Po. destruct out; cbn [post] in *; try exact Po; try (rewrite trunc_idem; exact Po). contradiction. Qed.
Lemma rep_greps S s m : rep S s m -> greps (gs_of s) m.
Proof.
  intros Rp. split; (split; [first [apply (rp_gn S s m Rp) | apply (rp_gbn S s m Rp)]
                            | first [apply (rp_g S s m Rp) | apply (rp_gb S s m Rp)]]).
Qed.
Lemma greps_agree S s m m' hi : rep S s m -> agree w R lo hi m m' -> hi <= FP m -> greps (gs_of s) m'.
Proof.
  intros Rp A Hh. split; cbn [gs_of fst snd].
  - split; [apply (rp_gn S s m Rp) | apply (glob_agree w R lo gl ng nbg Hw Hgl S s m m' hi Rp A Hh)].
  - split; [apply (rp_gbn S s m Rp) | apply (globb_agree w R lo gl ng nbg Hw Hgl S s m m' hi Rp A Hh)].
Qed.
Lemma rep_glayout S s m : rep S s m -> glayout.
Proof. intros Rp. split; [apply (rp_gd w R lo gl ng nbg S s m Rp) | apply (rp_gbd S s m Rp)]. Qed.

Lemma nth_fun_ioffs n i : (i < n)%nat -> nth i (ioffs (is_you_senv w n)) 0 = (Z.of_nat i + 2) * w.
Proof.
  intros Hi. cbn [is_you_senv ioffs].
  rewrite (nth_indep _ 0 ((Z.of_nat 0 + 2) * w)) by (rewrite map_length, seq_length; exact Hi).
  rewrite (map_nth (fun i => (Z.of_nat i + 2) * w) (seq 0 n) 0%nat i), seq_nth by exact Hi. reflexivity.
Qed.
Lemma wf_fun_senv n : wf_senv (is_you_senv w n).
Proof.
  assert (Ln : length (ioffs (is_you_senv w n)) = n) by (cbn [is_you_senv ioffs]; now rewrite map_length, seq_length).
  constructor; rewrite ?Ln; cbn [is_you_senv ws top boffs length]; rewrite ?Hfb; try reflexivity; try lia.
  - intros i Hi. rewrite (nth_fun_ioffs n i Hi). nia.
  - intros i i' Hi Hi' Ne. rewrite (nth_fun_ioffs n i Hi), (nth_fun_ioffs n i' Hi'). nia.
Qed.
Lemma tight_fun_senv n : tight (is_you_senv w n).
Proof. unfold tight. cbn [is_you_senv top ioffs boffs length]. rewrite map_length, seq_length. lia. Qed.
Lemma rep_fun_entry n vs G m : length vs = n -> regs_ok w R lo m -> (Z.of_nat n + 1) * w <= FP m - lo ->
  0 <= FP m - lo <= W / 2 -> FP m <= msize m -> (ap_sep w R lo -> lw m (a_ap R) = lo) ->
  (forall k, (k < n)%nat -> sgn (lw m (FP m - (Z.of_nat k + 2) * w)) = nth k vs 0) ->
  FP m <= gl -> greps G m -> glayout ->
  rep (is_you_senv w n) (mkstore vs [] (fst G) (snd G)) m.
Proof.
  intros Lv L Hr Hh Hs Hap Hv Hfg [[Gn Gg] [Bn Bg]] [Gd Gbd].
  assert (Ln : length (ioffs (is_you_senv w n)) = n) by (cbn [is_you_senv ioffs]; now rewrite map_length, seq_length).
  constructor; rewrite ?Ln; cbn [si sb sg sgb]; try assumption; try (cbn [is_you_senv top]; lia); try reflexivity.
  - intros i Hi. rewrite (nth_fun_ioffs n i Hi). apply Hv. exact Hi.
  - intros j Hj. cbn [is_you_senv boffs length] in Hj. lia.
Qed.

Lemma exit_pc_leaves li li' out e e' ra : leaves out -> exit_pc li out e ra = exit_pc li' out e' ra.
Proof. destruct out; cbn [leaves]; intros H; try contradiction; destruct li as [[? ?]|], li' as [[? ?]|]; reflexivity. Qed.
Lemma leaves_not_normal out : leaves out -> out <> ONormal.
Proof. destruct out; cbn; intros H; try contradiction; discriminate. Qed.
Lemma lib_ap_sep m : lib_hyps -> regs_ok w R lo m -> ap_sep w R lo.
Proof. intros [Hfp [H0 [H1 [H2 [_ [_ Hap]]]]]] L. destruct L. unfold ap_sep. rewrite Hap, H0, H1, H2 in *. lia. Qed.
Lemma fetch_result_runs S s m i x : wf_senv S -> rep S s m -> (i < length (ioffs S))%nat -> top S + w <= FP m - lo ->
  sgn (lw m (FP m - (top S + w))) = x ->
  exists m', code_runs [AInstr (ALwso R1 (SReg RFp) (SLit (- (top S + ws S)))); AInstr (ASwso (SReg RFp) (SLit (- nth i (ioffs S) 0)) (SReg R1))] m m' /\
             rep S (mkstore (upd i x (si s)) (sb s) (sg s) (sgb s)) m' /\ fagree m m'.
Proof.
  intros Wf Rp Hi Hr Hx. pose proof (rep_bounds S s m Wf Rp) as B. pose proof (rp_regs S s m Rp) as L. rewrite (wfs_w S Wf).
  destruct (frame_load_runs m (top S + w) L ltac:(lia) ltac:(apply inb_true; lia)) as [Cl [A1 Ov]].
  apply (agree_mono lo (FP m - top S)) in A1; [|lia].
  destruct (set_int_runs S s m _ i (SReg R1) _ Wf Rp A1 Hi Ov (lw_range w Hw1 m _ (lo_wf m L))) as [m' [Cs [Rp3 Fa]]]. rewrite Hx in Rp3.
  exists m'. split; [exact (code_runs_app [_] [_] _ _ _ Cl Cs) | split; assumption].
Qed.
Lemma need_args_ge args : forall S, 0 <= ws S -> top S + Z.of_nat (length args) * ws S <= need_args S args.
Proof.
  induction args as [|o r IH]; intros S H; cbn [need_args length]; [lia|].
  specialize (IH (after_ra S) H). cbn [after_ra top ws] in IH. unfold zmax. lia.
Qed.
Lemma tight_frame_top S s m : tight S -> rep S s m -> frame_top w s = top S.
Proof. intros T Rp. unfold frame_top. rewrite (rp_li S s m Rp), (rp_lb S s m Rp). symmetry. exact T. Qed.

Lemma rep_of_gagree S s m m' G' : wf_senv S -> rep S s m -> gagree w R lo gl (FP m - top S) m m' -> greps G' m' ->
  rep S (with_g s G') m'.
Proof.
  intros Wf Rp A [[Gn Gg] [Bn Bg]]. destruct (rep_locals_gagree w R lo fb gl ng nbg Hw Hgl S s m m' Wf Rp A) as [L' [EF [Sz [Hi [Hb Ha]]]]].
  destruct Rp as [Rg Rlo Rh Rsz Rli Rlb Ri Rb Rap Rgl Rgn Rgg Rgd Rbn Rbg Rbd].
  constructor; cbn [with_g si sb sg sgb]; rewrite ?EF, ?Sz; try assumption.
Qed.
Lemma greps_setfp G m v : regs_ok w R lo m -> greps G m -> greps G (sw m fp v).
Proof.
  intros L [[Gn Gg] [Bn Bg]]. split; (split; [assumption|]).
  - intros g Hg. destruct (Gg g Hg) as [G0 [G1 G2]].
    split; [exact G0|]. split; [rewrite inb_sw; exact G1|]. rewrite <- G2. f_equal. apply (lw_sw_other w Hw1); destruct L; lia.
  - intros h Hh. destruct (Bg h Hh) as [G0 [G1 [G2 G3]]].
    split; [exact G0|]. split; [rewrite inb_sw; exact G1|]. split; [|exact G3]. rewrite <- G2. apply (lb_sw_other w Hw1); destruct L; lia.
Qed.
Lemma rep_only_g S s m ma mf g xw : wf_senv S -> rep S s m -> agree w R lo (FP m - top S) m ma -> (g < ng)%nat ->
  only_g g ma mf -> lw mf (a_glob R g) = xw -> rep S (set_g s g (sgn xw)) mf /\ fagree m mf.
Proof.
  intros Wf Rp A Hg Of Vf. pose proof (rp_regs S s m Rp) as L. pose proof (rep_bounds S s m Wf Rp) as B.
  destruct (rp_g S s m Rp g Hg) as [G0 _].
  assert (Gm : gagree w R lo gl (FP m - top S) m mf).
  { eapply (gagree_trans w R lo gl); [apply (agree_gagree w R lo gl); exact A | apply (only_g_gagree g); [lia | exact Of]]. }
  split; [|apply (gagree_mono w R lo gl (FP m - top S)); [lia | exact Gm]].
  apply (rep_of_gagree S s m mf (upd g (sgn xw) (sg s), sgb s) Wf Rp Gm). split; cbn [fst snd].
  - split; [rewrite length_upd; apply (rp_gn S s m Rp)|]. intros k Hk.
    destruct (rp_g S s m Rp k Hk) as [K0 [K1 K2]]. split; [exact K0|].
    split; [unfold inb; rewrite (proj1 Of), (proj1 A); exact K1|].
    destruct (Nat.eq_dec k g) as [->|Ne].
    + rewrite nth_upd_same by (rewrite (rp_gn S s m Rp); exact Hg). rewrite Vf. reflexivity.
    + rewrite nth_upd_other by congruence. rewrite <- K2. f_equal.
      rewrite (only_g_lw g ma mf _ Of); [| lia | destruct (rp_gd w R lo gl ng nbg S s m Rp k g Hk Hg Ne); lia].
      destruct (dj_above w R lo gl Hw Hgl (FP m - top S) m (a_glob R k) w L) as [Ha D]; [lia | lia |].
      exact (agree_lw w R lo Hw (FP m - top S) m ma _ A Ha D).
  - split; [apply (rp_gbn S s m Rp)|]. intros h Hh.
    destruct (rp_gb S s m Rp h Hh) as [B0 [B1 [B2 B3]]]. split; [exact B0|].
    split; [unfold inb; rewrite (proj1 Of), (proj1 A); exact B1|]. split; [|exact B3]. rewrite <- B2.
    destruct (dj_above w R lo gl Hw Hgl (FP m - top S) m (a_bglob R h) 1 L) as [Ha D]; [lia | lia |].
    rewrite <- (agree_lb w R lo (FP m - top S) m ma _ A Ha D).
    apply (proj2 (proj2 Of)); [exact Ha|]. destruct (proj2 (rp_gbd S s m Rp) g h Hg Hh); lia.
Qed.
Lemma rep_set_glob S s m m1 g xw : wf_senv S -> rep S s m -> agree w R lo (FP m - top S) m m1 -> (g < ng)%nat -> inrange w xw ->
  let m' := sw m1 (a_glob R g) xw in
  rep S (set_g s g (sgn xw)) m' /\ fagree m m'.
Proof.
  intros Wf Rp A Hg Hx m'. destruct (rp_g S s m Rp g Hg) as [G0 _].
  pose proof (rep_bounds S s m Wf Rp) as B. assert (Ha : 0 <= a_glob R g) by lia.
  apply (rep_only_g S s m m1 m' g xw Wf Rp A Hg (only_g_sw g m1 m1 xw Ha (only_g_refl g m1))).
  unfold m'. rewrite (lw_sw_same w Hw1) by exact Ha. exact (wrap_small w xw Hx).
Qed.
(* g = f(args): the result, at frame offset top + w, loaded into the global *)
Lemma fetch_result_glob_runs S s m g x : wf_senv S -> rep S s m -> (g < ng)%nat -> top S + w <= FP m - lo ->
  sgn (lw m (FP m - (top S + w))) = x ->
  exists m', code_runs [AInstr (ALwso (RGlob g) (SReg RFp) (SLit (- (top S + ws S))))] m m' /\ rep S (set_g s g x) m' /\ fagree m m'.
Proof.
  intros Wf Rp Hg Hr Hx. pose proof (rep_bounds S s m Wf Rp) as B. pose proof (rp_regs S s m Rp) as L. rewrite (wfs_w S Wf).
  destruct (rp_g S s m Rp g Hg) as [_ [G1 _]].
  destruct (rep_set_glob S s m m g _ Wf Rp (agree_refl w R lo _ m) Hg (lw_range w Hw1 m (FP m - (top S + w)) (lo_wf m L))) as [Rp' Fa].
  rewrite Hx in Rp'. eexists. split; [|split; [exact Rp' | exact Fa]].
  apply code_runs_one. intros q Cq. exact (frame_lwso_act q m (a_glob R g) _ L Cq ltac:(lia) ltac:(apply inb_true; lia) G1).
Qed.
Lemma assign_glob_runs li S s m g o st C S' st' ex p :
  lower_stmt S li (SAssignG g o) st = (C, S', st', ex) -> plc C p -> wf_senv S -> rep S s m ->
  sscoped w ng nbg lib_hyps cf (length (ioffs S)) (length (boffs S)) (in_loop li) (SAssignG g o) ->
  fst (need_stmt S (SAssignG g o)) <= FP m - lo ->
  reaches li S S' s (set_g s g (ieval w s o)) [] ONormal p (p + size C) m.
Proof.
  intros Ev P Wf Rp [Hg Sc] Hn. cbn [lower_stmt] in Ev. injection Ev as <- <- <- <-.
  cbn [need_stmt fst] in Hn. rewrite assign_glob_eq in *.
  destruct (glob_value_runs S s m g Wf Rp Hg (OUn UPos o) Sc) as [ma [mf [A [O [C Ov]]]]];
    [unfold need_int in *; cbn [temps]; rewrite Nat.max_0_r; exact Hn|].
  destruct (rep_only_g S s m ma mf g _ Wf Rp A Hg O (eq_sym (proj2 (oval_st_inv w cmem mf _ _ Ov)))) as [Rpf Fa].
  rewrite (proj1 (sval_ieval S s m (OUn UPos o) Wf Rp Sc)) in Rpf.
  exact (reaches_normal li S S s _ [] p _ m mf (C p P) Fa Rpf Wf).
Qed.
(* g = a / b;  g /= b  (checked build): the division computed into the global *)
Lemma assign_glob_div_runs li S s m g op a b st C S' st' ex p :
  lower_stmt S li (SAssignGDiv g op a b) st = (C, S', st', ex) -> plc C p -> wf_senv S -> rep S s m ->
  sscoped w ng nbg lib_hyps cf (length (ioffs S)) (length (boffs S)) (in_loop li) (SAssignGDiv g op a b) ->
  fst (need_stmt S (SAssignGDiv g op a b)) <= FP m - lo ->
  (ieval w s b <> 0 -> reaches li S S' s (set_g s g (swrap w (arith_sem op (ieval w s a) (ieval w s b)))) [] ONormal p (p + size C) m) /\
  (ieval w s b = 0 -> reaches li S S' s s [] (OFault FDivZero) p (p + size C) m).
Proof.
  intros Ev P Wf Rp Sc Hn. cbn [lower_stmt] in Ev. destruct (add_label LDivAllowed st) as [da st1]. injection Ev as <- <- <- <-.
  cbn [sscoped need_stmt fst] in Sc, Hn. destruct Sc as [Hg [Hop [Sa [Sb Hl]]]].
  unfold assign_glob_div, eval_div, finish_opd in *.
  change (with_top (env_of S) (top S)) with (env_of S) in *.
  destruct (compare_operands (env_of S) a b) as [[c0 lhs] rhs] eqn:Ec. cbn [fst] in *.
  unfold need_int in Hn. rewrite (wfs_w S Wf) in Hn. cbn [temps] in Hn. fold (temps_cmp a b) in Hn.
  destruct (div_guard_runs S s m op a b da (RGlob g) c0 lhs rhs p Hl Wf Rp Hop Sa Sb ltac:(lia) Ec
              (proj1 (proj2 (rp_g S s m Rp g Hg))) P) as [m4 [A4 [Ok Fl]]].
  split; [|intros Z0; exact (reaches_fault li S S s s FDivZero p _ m m4 (Fl Z0))].
  intros Nz. destruct (Ok Nz) as [r [Wr Rn]]. cbn [regaddr] in Rn.
  rewrite (sw_wrap_eq w m4 (a_glob R g) r (wrap r)) in Rn by (symmetry; apply (wrap_wrap w Hw1)).
  destruct (rep_set_glob S s m m4 g (wrap r) Wf Rp A4 Hg (wrap_range w Hw1 r)) as [Rp' Fa].
  replace (sgn (wrap r)) with (swrap w (arith_sem op (ieval w s a) (ieval w s b))) in Rp' by (unfold swrap; now rewrite Wr).
  exact (reaches_normal li S S s _ [] p _ m _ Rn Fa Rp' Wf).
Qed.
Lemma rep_set_bglob S s m h v : wf_senv S -> rep S s m -> (h < nbg)%nat -> v = 0 \/ v = 1 ->
  let m' := Machine.sb m (a_bglob R h) v in
  rep S (set_gb s h v) m' /\ fagree m m'.
Proof.
  intros Wf Rp Hh Hv m'. pose proof (rep_bounds S s m Wf Rp) as B. pose proof (rp_regs S s m Rp) as L.
  destruct (rp_gb S s m Rp h Hh) as [B0 _]. set (a := a_bglob R h) in *.
  assert (Ha : 0 <= a) by lia.
  assert (Gm : gagree w R lo gl (FP m - top S) m m').
  { unfold m', Machine.sb. split; [reflexivity|]. split.
    - intros Wfm. apply wf_setb; [exact Wfm | exact Ha | apply Z.mod_pos_bound; lia].
    - intros x X N0 N1 N2 N3 N4. apply getb_setb_other; [exact Ha | exact X | lia]. }
  split; [|apply (gagree_mono w R lo gl (FP m - top S)); [lia | exact Gm]].
  apply (rep_of_gagree S s m m' (sg s, upd h v (sgb s)) Wf Rp Gm). split; cbn [fst snd].
  - split; [apply (rp_gn S s m Rp)|]. intros g Hg.
    destruct (rp_g S s m Rp g Hg) as [K0 [K1 K2]]. split; [exact K0|]. split; [exact K1|]. rewrite <- K2. f_equal.
    apply (lw_sb_other w Hw1); [exact Ha | lia | destruct (proj2 (rp_gbd S s m Rp) g h Hg Hh); lia].
  - split; [rewrite length_upd; apply (rp_gbn S s m Rp)|]. intros k Hk.
    destruct (rp_gb S s m Rp k Hk) as [K0 [K1 [K2 K3]]]. split; [exact K0|]. split; [exact K1|].
    destruct (Nat.eq_dec k h) as [->|Ne].
    + rewrite nth_upd_same by (rewrite (rp_gbn S s m Rp); exact Hh). split; [|exact Hv].
      unfold m'. rewrite lb_sb_same. apply Z.mod_small. lia.
    + rewrite nth_upd_other by congruence. split; [|exact K3]. rewrite <- K2.
      apply getb_setb_other; [exact Ha | lia | exact (proj1 (rp_gbd S s m Rp) k h Hk Hh Ne)].
Qed.
(* h = e  for a bool global: get_expr_value(r1, e); sbs var_h, value *)
Lemma assign_bglob_runs li S s m h e st C S' st' ex p :
  lower_stmt S li (SAssignBG h e) st = (C, S', st', ex) -> plc C p -> wf_senv S -> rep S s m ->
  sscoped w ng nbg lib_hyps cf (length (ioffs S)) (length (boffs S)) (in_loop li) (SAssignBG h e) ->
  fst (need_stmt S (SAssignBG h e)) <= FP m - lo ->
  reaches li S S' s (set_gb s h (b2z (bevals w s e))) [] ONormal p (p + size C) m.
Proof.
  intros Ev P Wf Rp [Hh Sc] Hn. cbn [lower_stmt] in Ev. unfold assign_bglob in Ev.
  destruct (eval_bool_value (env_of S) R1 e st) as [[c0 v] st0] eqn:E0. injection Ev as <- <- <- <-.
  cbn [need_stmt fst] in Hn. rewrite (wfs_w S Wf) in Hn.
  apply placed_app in P. destruct P as [P0 P1].
  destruct (value_bool_runs S s m e st c0 v st0 p Wf Rp Sc Hn E0 P0) as [m1 [R1' [A1 O1]]].
  pose proof (rep_agree S s m m1 Wf Rp A1) as Rp1. pose proof (rep_bounds S s m1 Wf Rp1) as B1.
  destruct (rp_gb S s m1 Rp1 h Hh) as [B0 [I1 _]].
  assert (Oa : oval m1 (Imm (a_bglob R h)) = Some (a_bglob R h)) by (rewrite oval_imm; f_equal; apply (wrap_small w); unfold inrange; lia).
  destruct (rep_set_bglob S s m1 h _ Wf Rp1 Hh (b2z_01 (bevals w s e))) as [Rp2 Fa].
  apply (reaches_normal li S S s _ [] p _ m (Machine.sb m1 (a_bglob R h) (b2z (bevals w s e)))); [|exact (fagree_trans m m1 _ (rp_regs S s m Rp) (agree_fagree S s m m1 Wf Rp A1) Fa) | exact Rp2 | exact Wf].
  rewrite size_app, Z.add_assoc.
  exact (runs_seq _ _ _ R1' (code_runs_one (ASbs (SRegAddr (RBGlob h)) v) m1 _ (fun q Cq => act_sbs w code cmem q m1 _ _ _ _ Cq Oa O1 I1) _ P1)).
Qed.
Lemma reaches_return li S S' s v p e m m' : rep S s m ->
  runs (mk p m) [] (mk (lw m (FP m - w)) m') -> agree w R lo (FP m) m m' ->
  match v with Some x => sgn (lw m' (FP m - w)) = x | None => True end ->
  reaches li S S' s s [] (OReturn v) p e m.
Proof.
  intros Rp Rn A V. exists m', (lw m (FP m - w)). split; [reflexivity|]. split; [exact Rn|].
  split; [apply (agree_gagree w R lo gl); exact A|]. split; [exact V|]. apply (greps_agree S s m m' _ Rp A). lia.
Qed.

(* a run that keeps the frame, into a memory that holds s1 in the grown environment S1, then code
   that reaches: the outer locals come back by rep_shrink when the outcome is a break or a continue *)
Lemma reaches_after li S S1 S2 s0 s1 s2 e1 e2 out p q e m m1 :
  wf_senv S -> rep S s0 m -> extends S S1 -> rep S1 s1 m1 ->
  runs (mk p m) (map EOut e1) (mk q m1) -> fagree m m1 ->
  reaches li S1 S2 s1 s2 e2 out q e m1 -> reaches li S S2 s0 s2 (e1 ++ e2) out p e m.
Proof.
  intros Wf Rp X Rp1 Rn1 Fa1 [m2 [pc2 [Ex2 [Rn2 [Fa2 Po2]]]]].
  pose proof (rp_regs S s0 m Rp) as L. pose proof (FP_fagree m m1 L Fa1) as F1.
  rewrite (ra_fagree S s0 m m1 Wf Rp Fa1) in Ex2.
  exists m2, pc2. split; [exact Ex2|]. split; [rewrite map_app; eapply runs_trans; [exact Rn1 | exact Rn2]|].
  split; [exact (frame_post_pre out m m1 m2 L Fa1 Fa2)|].
  destruct out; cbn [post] in Po2 |- *; try exact Po2; [| | rewrite <- F1; exact Po2];
    destruct (rep_len_le S S1 s0 s1 m m1 X Rp Rp1) as [La Lb]; rewrite <- (trunc_trunc s0 s1 s2 La Lb);
    exact (rep_shrink S S1 s0 _ m2 X (rp_li S s0 m Rp) (rp_lb S s0 m Rp) Po2).
Qed.
(* the same when the first part is itself known through `reaches` *)
Lemma reaches_seq li S S1 S2 s0 s1 s2 e1 e2 out p q e m :
  wf_senv S -> rep S s0 m -> extends S S1 -> reaches li S S1 s0 s1 e1 ONormal p q m ->
  (forall m1, rep S1 s1 m1 -> wf_senv S1 -> FP m1 = FP m -> reaches li S1 S2 s1 s2 e2 out q e m1) ->
  reaches li S S2 s0 s2 (e1 ++ e2) out p e m.
Proof.
  intros Wf Rp X [m1 [pc1 [Ex1 [Rn1 [Fa1 [Rp1 Wf1]]]]]] K. cbn [exit_pc] in Ex1. injection Ex1 as <-. cbn [frame_post] in Fa1.
  apply (reaches_after li S S1 S2 s0 s1 s2 e1 e2 out p q e m m1 Wf Rp X Rp1 Rn1 Fa1), (K m1 Rp1 Wf1).
  exact (FP_fagree m m1 (rp_regs S s0 m Rp) Fa1).
Qed.
Lemma reaches_exit li li' S S1 S' s s' evs out p e e' m : out <> ONormal ->
  (forall ra, exit_pc li out e ra = exit_pc li' out e' ra) ->
  reaches li S S1 s s' evs out p e m -> reaches li' S S' s (trunc s s') evs out p e' m.
Proof.
  intros Nn Xe [m2 [pc2 [Ex [Rn [Fa Po]]]]]. exists m2, pc2. split; [rewrite <- Xe; exact Ex|]. split; [exact Rn|]. split; [exact Fa|].
  exact (post_exit S S1 S' s s' out m m2 Nn Po).
Qed.
(* the end of a block: on normal completion the run goes on from e to e' (a jump, or nothing) and
   the block's locals are forgotten *)
Lemma reaches_close li S S1 s s' evs out p e e' m : wf_senv S -> rep S s m -> extends S S1 ->
  reaches li S S1 s s' evs out p e m -> (forall m2, runs (mk e m2) [] (mk e' m2)) ->
  reaches li S S s (trunc s s') evs out p e' m.
Proof.
  intros Wf Rp X H J. destruct (outcome_normal_dec out) as [-> | Nn];
    [|exact (reaches_exit li li S S1 S s s' evs out p e e' m Nn (fun ra => exit_pc_exit li out e e' ra Nn) H)].
  destruct H as [m2 [pc2 [Ex [Rn [Fa [Rp2 _]]]]]]. cbn [exit_pc] in Ex. injection Ex as <-.
  apply (reaches_normal li S S s _ evs p e' m m2); [|exact Fa | | exact Wf].
  - rewrite <- (app_nil_r (map EOut evs)). eapply runs_trans; [exact Rn | apply J].
  - exact (rep_shrink S S1 s s' m2 X (rp_li S s m Rp) (rp_lb S s m Rp) Rp2).
Qed.
(* a loop body that completes or continues has arrived at the continue label *)
Lemma reaches_continue li lc lb S S1 s s1 evs out p m : out = ONormal \/ out = OContinue ->
  wf_senv S -> rep S s m -> extends S S1 ->
  reaches (Some (lc, lb)) S S1 s s1 evs out p (lab lc) m -> reaches li S S s (trunc s s1) evs ONormal p (lab lc) m.
Proof.
  intros Nb Wf Rp X [m2 [pc2 [Ex [Rn [Fa Po]]]]].
  destruct Nb as [-> | ->]; cbn [exit_pc post frame_post] in Ex, Po, Fa; injection Ex as <-;
    apply (reaches_normal li S S s _ evs p _ m m2 Rn Fa); try exact Wf; [|exact Po].
  exact (rep_shrink S S1 s s1 m2 X (rp_li S s m Rp) (rp_lb S s m Rp) (proj1 Po)).
Qed.

(* the condition of an if / a loop, then the code it selects *)
Lemma reaches_cond li S S1 s s' evs out c L st cc st' p e m : wf_senv S -> rep S s m ->
  bscoped w ng nbg (length (ioffs S)) (length (boffs S)) c -> top S + Z.of_nat (temps_b c) * w <= FP m - lo ->
  lower_branch (env_of S) c [] (goto L) st = (cc, st') -> plc cc p ->
  (forall m1, rep S s m1 -> FP m1 = FP m -> reaches li S S1 s s' evs out (if bevals w s c then p + size cc else lab L) e m1) ->
  reaches li S S1 s s' evs out p e m.
Proof.
  intros Wf Rp Sc Hn Ec Pcc K. destruct (cond_runs S s m c L st cc st' p Wf Rp Sc Hn Ec Pcc) as [m1 [Rc A1]].
  pose proof (rep_agree S s m m1 Wf Rp A1) as Rp1.
  apply (reaches_after li S S S1 s s s' [] evs out p _ e m m1 Wf Rp (extends_refl S) Rp1 Rc (agree_fagree S s m m1 Wf Rp A1)).
  exact (K m1 Rp1 (FP_agree _ m m1 (rp_regs S s m Rp) A1)).
Qed.

Lemma lower_if_inv S li c s1 s2 st C S' st' ex p : lower_stmt S li (SIf c s1 s2) st = (C, S', st', ex) -> plc C p ->
  exists el ee st2 cc st3 c1 S1 st4 ex1 c2 S2 ex2,
    lower_branch (env_of S) c [] (goto el) st2 = (cc, st3) /\ lower_stmts S li s1 st3 = (c1, S1, st4, ex1) /\
    lower_stmts S li s2 st4 = (c2, S2, st', ex2) /\ S' = S /\
    plc cc p /\ plc c1 (p + size cc) /\ plc (goto ee) (p + size cc + size c1) /\ plc c2 (lab el) /\
    lab el + size c2 = p + size C /\ lab ee = p + size C.
Proof.
  cbn [lower_stmt]. destruct (add_label LElse st) as [el st1]. destruct (add_label LEndElse st1) as [ee st2].
  destruct (lower_branch (env_of S) c [] (goto el) st2) as [cc st3] eqn:Ec.
  destruct (lower_stmts S li s1 st3) as [[[c1 S1] st4] ex1] eqn:E1. destruct (lower_stmts S li s2 st4) as [[[c2 S2] st5] ex2] eqn:E2.
  intros Ev P. injection Ev as <- <- <- <-.
  apply placed_app in P. destruct P as [Pcc P]. apply placed_app in P. destruct P as [Pc1 P].
  apply (placed_app R lab code (goto ee)) in P. destruct P as [Pg [Lel P]]. apply placed_app in P. destruct P as [Pc2 [Lee _]].
  exists el, ee, st2, cc, st3, c1, S1, st4, ex1, c2, S2, ex2. rewrite Lel.
  repeat (split; [first [assumption | reflexivity]|]). szn. cbn [size goto] in Lee. split; lia.
Qed.
Lemma lower_while_inv S li c b k st C S' st' ex p : lower_stmt S li (SWhile c b k) st = (C, S', st', ex) -> plc C p ->
  exists ls lc lb st3 cc st4 c1 S1 st5 ex1 c2 S2 ex2,
    lower_branch (env_of S) c [] (goto lb) st3 = (cc, st4) /\ lower_stmts S (Some (lc, lb)) b st4 = (c1, S1, st5, ex1) /\
    lower_stmts S li k st5 = (c2, S2, st', ex2) /\ S' = S /\
    lab ls = p /\ plc cc p /\ plc c1 (p + size cc) /\ lab lc = p + size cc + size c1 /\ plc c2 (lab lc) /\
    plc (goto ls) (lab lc + size c2) /\ lab lb = p + size C.
Proof.
  cbn [lower_stmt]. destruct (add_label LLoop st) as [ls st1]. destruct (add_label LContinue st1) as [lc st2]. destruct (add_label LBreak st2) as [lb st3].
  destruct (lower_branch (env_of S) c [] (goto lb) st3) as [cc st4] eqn:Ec.
  destruct (lower_stmts S (Some (lc, lb)) b st4) as [[[c1 S1] st5] ex1] eqn:E1. destruct (lower_stmts S li k st5) as [[[c2 S2] st6] ex2] eqn:E2.
  intros Ev P. injection Ev as <- <- <- <-.
  cbn [app plc] in P. destruct P as [Lls P]. apply placed_app in P. destruct P as [Pcc P]. apply placed_app in P. destruct P as [Pc1 P].
  cbn [app plc] in P. destruct P as [Llc P]. apply placed_app in P. destruct P as [Pc2 P].
  apply (placed_app R lab code (goto ls)) in P. destruct P as [Pg [Llb _]].
  exists ls, lc, lb, st3, cc, st4, c1, S1, st5, ex1, c2, S2, ex2. rewrite Llc.
  repeat (split; [first [assumption | reflexivity]|]). szn. cbn [size goto] in Llb. lia.
Qed.

(* the return address and the arguments are pushed, fp is rebased: the callee's specification applies *)
Lemma call_args_runs d S s m ec f args evs res p : lib_hyps -> wf_senv S -> tight S -> rep S s m -> d = FP m - lo ->
  Forall (oscoped w ng (length (ioffs S)) (length (boffs S))) args -> Forall not_trunc args -> cf f (length args) ->
  top S + w <= FP m - lo -> need_args (after_ra S) args <= FP m - lo ->
  plc [push_ra S ec] p -> plc (push_args (after_ra S) args) (p + size [push_ra S ec]) ->
  call_spec (d - frame_top w s) f (map (ieval w s) args) (gs_of s) evs res ->
  exists mb m2, runs (mk p m) [] (mk (p + size [push_ra S ec] + size (push_args (after_ra S) args)) mb) /\
    agree w R lo (FP m - top S) m mb /\ lw mb (FP m - top S - w) = lab ec /\
    match res with
    | CRet v G' => runs (mk (lab (func_label f)) (sw mb fp (FP m + wrap (- top S)))) (map EOut evs)
                     (mk (lw (sw mb fp (FP m + wrap (- top S))) (FP m - top S - w)) m2) /\
                   gagree w R lo gl (FP m - top S) (sw mb fp (FP m + wrap (- top S))) m2 /\
                   match v with Some x => sgn (lw m2 (FP m - top S - w)) = x | None => True end /\ greps G' m2
    | CFault ft => runs (mk (lab (func_label f)) (sw mb fp (FP m + wrap (- top S)))) (map EOut evs) (mk (a_lib R + fault_off ft) m2)
    end.
Proof.
  intros Hl Wf Tg Rp Hd Sa Nta Cf Hn1 Hn2 Pra Pargs Hc.
  pose proof (wfs_w S Wf) as Ews. pose proof (rp_regs S s m Rp) as L.
  destruct (push_ra_runs S s m ec Wf Rp Hn1) as [Cra [Ara [Rpa Vra]]]. pose proof (Cra p Pra) as Rra.
  set (ma := sw m (FP m - (top S + w)) (lab ec)) in *.
  pose proof (FP_agree _ m ma L Ara) as Fma.
  destruct (push_args_runs args (after_ra S) s ma (wf_after_ra S Wf) Rpa Sa Nta ltac:(rewrite Fma; exact Hn2)) as [mb [Cargs [Ab Vargs]]].
  pose proof (Cargs _ Pargs) as Rargs.
  cbn [after_ra top] in Ab, Vargs. rewrite Ews, Fma in Ab, Vargs.
  assert (A0b : agree w R lo (FP m - top S) m mb).
  { eapply (agree_trans); [exact Ara|]. apply (agree_mono (FP m - (top S + w))); [lia | exact Ab]. }
  pose proof (lo_bf w R lo m L) as Hbf. pose proof (lo_fp w R lo m L) as Hfp0.
  pose proof (rp_lo w R lo gl ng nbg S s m Rp) as Hlo. pose proof (rp_half w R lo gl ng nbg S s m Rp) as Hhalf.
  pose proof (wfs_fb S Wf) as Ofb.
  assert (Vrb : lw mb (FP m - top S - w) = lab ec).
  { rewrite <- Vra. apply (agree_lw w R lo Hw (FP m - (top S + w)) ma mb _ Ab); [lia|]. unfold dj. destruct L. lia. }
  destruct (entry_mem S s m mb Wf Rp A0b) as [L1 [F1 [Sz1 G1]]]. set (m1 := sw mb fp (FP m + wrap (- top S))) in *.
  pose proof (need_args_ge args (after_ra S) ltac:(cbn [after_ra ws]; lia)) as Ga. cbn [after_ra top ws] in Ga. rewrite Ews in Ga.
  (* the argument words lie above the fp register *)
  assert (Hroom : forall k, (k < length args)%nat -> fp + w <= FP m - top S - (Z.of_nat k + 2) * w).
  { intros k Hk. assert ((Z.of_nat k + 2) * w <= (Z.of_nat (length args) + 1) * w) by (apply Z.mul_le_mono_nonneg_r; lia). lia. }
  pose proof Hl as [Hfp [_ [_ [_ [_ [_ Hap]]]]]].
  pose proof (rep_agree S s m mb Wf Rp A0b) as Rpb.
  destruct (Hc m1 Hl ltac:(rewrite map_length; exact Cf) L1 ltac:(rewrite F1, (tight_frame_top S s m Tg Rp), Hd; lia)
              ltac:(rewrite F1; lia) ltac:(rewrite F1, Sz1, (proj1 A0b); pose proof (rp_sz w R lo gl ng nbg S s m Rp); lia)) as [m2 Res].
  { intros Ap. replace (lw m1 (a_ap R)) with (lw mb (a_ap R)).
    - rewrite (ap_agree w R lo Hw _ m mb Ap A0b). apply (rp_ap w R lo gl ng nbg S s m Rp Ap).
    - symmetry. apply (lw_agree w Hw). intros x Hx. apply G1; rewrite Hap, Hfp in *; lia. }
  { intros k Hk. rewrite map_length in Hk. rewrite F1. specialize (Vargs k Hk).
    change 0 with (ieval w s (OLit false 0)). rewrite map_nth. rewrite <- Vargs. f_equal.
    replace (FP m - (top S + w + (Z.of_nat k + 1) * w)) with (FP m - top S - (Z.of_nat k + 2) * w) by lia.
    apply (lw_agree w Hw). intros x Hx. pose proof (Hroom k Hk). apply G1; lia. }
  { rewrite F1. pose proof (rp_gl w R lo gl ng nbg S s m Rp). lia. }
  { apply greps_setfp; [apply (rp_regs S s mb Rpb) | apply (rep_greps S s mb Rpb)]. }
  { apply (rep_glayout S s m Rp). }
  exists mb, m2. split; [|split; [exact A0b | split; [exact Vrb|]]].
  - exact (runs_seq _ _ _ Rra Rargs).
  - destruct res; [rewrite F1 in Res|]; exact Res.
Qed.

(* f(args) with its result stored as dst says, given the specification of the callee's run *)
Lemma call_reaches d dst f args s evs res S li st C S' st' ex p m :
  lower_stmt S li (SCall dst f args) st = (C, S', st', ex) -> plc C p -> wf_senv S -> tight S -> rep S s m -> d = FP m - lo ->
  sscoped w ng nbg lib_hyps cf (length (ioffs S)) (length (boffs S)) (in_loop li) (SCall dst f args) ->
  fst (need_stmt S (SCall dst f args)) <= FP m - lo ->
  call_spec (d - frame_top w s) f (map (ieval w s) args) (gs_of s) evs res ->
  match res with
  | CRet v G' => forall s', dest_store dst v (with_g s G') s' -> reaches li S S' s s' evs ONormal p (p + size C) m
  | CFault ft => reaches li S S' s s evs (OFault ft) p (p + size C) m
  end.
Proof.
  intros Ev P Wf Tg Rp Hd Sc Hn IHc. cbn [lower_stmt] in Ev.
  destruct (add_label LEndCall st) as [ec st1]. injection Ev as <- <- <- <-.
  cbn [sscoped need_stmt fst] in Sc, Hn. destruct Sc as [Sd [Cf [Sa Hl]]].
  apply need_max in Hn. destruct Hn as [Hn1 Hn2]. rewrite (wfs_w S Wf) in Hn1.
  pose proof (rp_regs S s m Rp) as L.
  unfold lower_call in P |- *. apply placed_app in P. destruct P as [Pra P]. apply placed_app in P. destruct P as [Pargs P].
  apply placed_app in P. destruct P as [Pcall Pdst].
  destruct (call_args_runs d S s m ec f args evs res p Hl Wf Tg Rp Hd (proj1 Sa) (proj2 Sa) Cf Hn1 Hn2 Pra Pargs IHc)
    as [mb [m2 [Rab [A0b [Vrb Res]]]]].
  destruct res as [v G'|ft].
  - intros s' Hds. destruct Res as [Rc [A2 [Vr Gr]]].
    destruct (user_call_runs S s m mb ec f _ evs m2 Wf Rp A0b Hn1 Vrb Pcall Rc A2) as [m3 [Rcall [A3 [V3 [E3 L2]]]]].
    rewrite <- V3 in Vr. replace (FP m - top S - w) with (FP m - (top S + w)) in Vr by lia.
    assert (Gr3 : greps G' m3) by (rewrite E3; apply greps_setfp; assumption).
    assert (Rpre : runs (mk p m) (map EOut evs) (mk (p + size [push_ra S ec] + size (push_args (after_ra S) args) + size (call_seq S ec f)) m3)).
    { change (map EOut evs) with ([] ++ map EOut evs). eapply runs_trans; [exact Rab | exact Rcall]. }
    pose proof (rep_of_gagree S s m m3 G' Wf Rp A3 Gr3) as Rp3.
    assert (Fa3 : fagree m m3) by (apply (gagree_mono w R lo gl (FP m - top S)); [pose proof (wfs_fb S Wf); lia | exact A3]).
    pose proof (FP_fagree m m3 L Fa3) as F3. rewrite <- F3 in Vr, Hn1.
    destruct dst as [| |i|g]; cbn [dest_store] in Hds.
    + subst s'. apply (reaches_normal li S S s _ evs p _ m m3); [|exact Fa3 | exact Rp3 | exact Wf]. apply (runs_eq_pc Rpre); szn; lia.
    + (* a declaration: the result is the new local, where the return address was *)
      destruct Hds as [x [-> ->]].
      apply (reaches_normal li S _ s _ evs p _ m m3); [apply (runs_eq_pc Rpre); szn; lia | exact Fa3 | | exact (wf_push_int S Wf)].
      exact (rep_push_int S (with_g s G') m3 m3 x Wf Rp3 (agree_refl w R lo _ m3) Hn1 Vr).
    + destruct Hds as [x [-> [Hi ->]]].
      destruct (fetch_result_runs S (with_g s G') m3 i x Wf Rp3 Sd Hn1 Vr) as [m5 [C5 [Rp5 Fa5]]]. pose proof (C5 _ Pdst) as R5.
      apply (reaches_normal li S S s _ evs p _ m m5); [|exact (fagree_trans m m3 m5 L Fa3 Fa5) | exact Rp5 | exact Wf].
      rewrite <- (app_nil_r (map EOut evs)). eapply runs_trans; [exact Rpre|]. apply (runs_eq_pc R5); szn; lia.
    + destruct Hds as [x [-> [Hi ->]]].
      destruct (fetch_result_glob_runs S (with_g s G') m3 g x Wf Rp3 Sd Hn1 Vr) as [m5 [C5 [Rp5 Fa5]]]. pose proof (C5 _ Pdst) as R5.
      apply (reaches_normal li S S s _ evs p _ m m5); [|exact (fagree_trans m m3 m5 L Fa3 Fa5) | exact Rp5 | exact Wf].
      rewrite <- (app_nil_r (map EOut evs)). eapply runs_trans; [exact Rpre|]. apply (runs_eq_pc R5); szn; lia.
  - exists m2, (a_lib R + fault_off ft). split; [reflexivity|]. split; [|split; exact I].
    change (map EOut evs) with ([] ++ ([] ++ map EOut evs)). eapply runs_trans; [exact Rab|].
    eapply runs_trans; [exact (call_enter S s m mb ec f _ Wf Rp A0b Pcall) | exact Res].
Qed.

(* the code of a callable function (lower_fun): label, the five instructions of the entry guard,
   body.  The guard passes, leaving the memory as it is, when the frame fits into the d bytes below
   fp, and goes to the stack-overflow stub otherwise *)
Lemma fun_entry d f n fd m : cf f n -> nth_error funs f = Some fd -> lib_hyps -> regs_ok w R lo m -> d = FP m - lo ->
  0 <= FP m - lo <= W / 2 -> FP m <= msize m -> (ap_sep w R lo -> lw m (a_ap R) = lo) ->
  exists st1 c S1 st2 ex1, fn_params fd = n /\
    lower_stmts (is_you_senv w (fn_params fd)) None (fn_body fd) st1 = (c, S1, st2, ex1) /\
    plc c (lab (func_label f) + 5) /\ ssscoped w ng nbg lib_hyps cf n 0 false (fn_body fd) /\
    (d < fun_need w fd -> exists m', runs (mk (lab (func_label f)) m) [] (mk (a_lib R + off_stack_overflow) m')) /\
    (fun_need w fd <= d -> runs (mk (lab (func_label f)) m) [] (mk (lab (func_label f) + 5) m)).
Proof.
  intros Cf Hfd Hl L Hd Hh Hs Hap.
  destruct (cf_ok f _ Cf) as [fd' [st [Hfd' [Hnp [Hnd [Pf Scf]]]]]]. rewrite Hfd in Hfd'. injection Hfd' as <-.
  unfold lower_fun in Pf. destruct (add_label LNoOverflow st) as [no st1].
  destruct (lower_stmts (is_you_senv w (fn_params fd)) None (fn_body fd) st1) as [[[c S1] st2] ex1] eqn:El.
  cbn [fst app placed res_ins res_sym regaddr] in Pf. destruct Pf as [Lf [Cj [Csub [Chc [Cso [Chalt [Lno Pc]]]]]]].
  set (pf := lab (func_label f)) in *.
  pose proof Hl as [Hfp [_ [_ [_ [_ [_ Hapz]]]]]]. specialize (Hap (lib_ap_sep m Hl L)).
  destruct (stub_not_halts off_stack_overflow (sw m r1 (lw m fp - lw m (a_ap R))) Hl (or_intror eq_refl)) as [Nh Ws].
  assert (Iap : inb m (a_ap R) w = true) by (apply inb_true; pose proof (lo_bf w R lo m L); rewrite Hapz, Hfp in *; lia).
  destruct (entry_guard_idiom w Hw code cmem pf m (Imm (lab no)) (Imm (a_lib R + off_stack_overflow)) (a_lib R + off_stack_overflow)
              r1 fp (a_ap R) (fun_need w fd) Cj ltac:(rewrite (oval_lab w cmem lab lab_range), Lno; f_equal; lia)
              Csub ltac:(replace (pf + 2) with (pf + 1 + 1) by lia; exact Chc) ltac:(replace (pf + 3) with (pf + 1 + 1 + 1) by lia; exact Cso)
              ltac:(replace (pf + 4) with (pf + 1 + 1 + 1 + 1) by lia; exact Chalt)
              (lo_r1 m L) (lo_i1 m L) (lo_if m L) Iap ltac:(rewrite oval_imm, Ws; reflexivity)) as [Gp [Gf _]].
  assert (HW : W / 2 < W) by (pose proof (W_even w Hw1); pose proof (half_pos w Hw1); lia).
  fold (FP m) in Gp, Gf. rewrite Hap in Gp, Gf.
  rewrite (wrap_small w (FP m - lo)), (wrap_small w (fun_need w fd)) in Gp, Gf by (unfold inrange; lia).
  exists st1, c, S1, st2, ex1. split; [exact Hnp|]. split; [exact El|].
  split; [replace (pf + 5) with (pf + 1 + 1 + 1 + 1 + 1) by lia; exact Pc|]. split; [exact Scf|]. split.
  - intros Hlt. destruct (Gf ltac:(lia) (proj1 (stub_not_halts off_stack_overflow _ Hl (or_intror eq_refl)))) as [Rg _]. eexists. exact Rg.
  - intros Hge. apply Gp. lia.
Qed.
(* the body of a function whose frame fits, run from the entry memory of the call *)
Lemma fun_body_reaches d f vs G fd evs out s1 m : nth_error funs f = Some fd -> fun_need w fd <= d ->
  stmts_spec d (fn_body fd) (mkstore vs [] (fst G) (snd G)) evs out s1 ->
  lib_hyps -> cf f (length vs) -> regs_ok w R lo m -> d = FP m - lo -> 0 <= FP m - lo <= W / 2 -> FP m <= msize m ->
  (ap_sep w R lo -> lw m (a_ap R) = lo) ->
  (forall k, (k < length vs)%nat -> sgn (lw m (FP m - (Z.of_nat k + 2) * w)) = nth k vs 0) ->
  FP m <= gl -> greps G m -> glayout ->
  exists S1 e, reaches None (is_you_senv w (fn_params fd)) S1 (mkstore vs [] (fst G) (snd G)) s1 evs out (lab (func_label f)) e m.
Proof.
  intros Hfd Hge Hb Hl Cf L Hd Hh Hs Hap Hv Hfg Hgr Hgd.
  destruct (fun_entry d f _ fd m Cf Hfd Hl L Hd Hh Hs Hap) as [st1 [c [S1 [st2 [ex1 [Hnp [El [Pc [Scf [_ Gp]]]]]]]]]].
  set (Sf := is_you_senv w (fn_params fd)) in *.
  assert (Ht : top Sf <= fun_need w fd) by (apply need_stmts_ge_top; cbn [Sf is_you_senv ws]; lia).
  cbn [Sf is_you_senv top] in Ht.
  assert (Lio : length (ioffs Sf) = fn_params fd) by (cbn [Sf is_you_senv ioffs]; now rewrite map_length, seq_length).
  destruct (Hb Sf None st1 c S1 st2 ex1 _ m El Pc (wf_fun_senv _) (tight_fun_senv _)
              (rep_fun_entry _ vs G m (eq_sym Hnp) L ltac:(lia) Hh Hs Hap ltac:(rewrite Hnp; exact Hv) Hfg Hgr Hgd) Hd
              ltac:(rewrite Lio, Hnp; exact Scf) ltac:(unfold fun_need in Hge; fold Sf in Hge; lia)) as [m' [pc' [Ex [Rn [Fa Po]]]]].
  exists S1, (lab (func_label f) + 5 + size c), m', pc'. split; [exact Ex|]. split; [|split; assumption].
  change (map EOut evs) with ([] ++ map EOut evs). eapply runs_trans; [exact (Gp Hge) | exact Rn].
Qed.

(* a loop whose condition holds: the condition and the body, from the loop head to wherever the body
   leaves (the continue label, when it completes); then what is left to do there: the continuation of
   a `for` and the jump back to the loop head *)
Lemma while_body d c b k s e1 out1 s1 S li st C S' st' ex p m : bevals w s c = true -> stmts_spec d b s e1 out1 s1 ->
  lower_stmt S li (SWhile c b k) st = (C, S', st', ex) -> plc C p -> wf_senv S -> tight S -> rep S s m -> d = FP m - lo ->
  sscoped w ng nbg lib_hyps cf (length (ioffs S)) (length (boffs S)) (in_loop li) (SWhile c b k) ->
  fst (need_stmt S (SWhile c b k)) <= FP m - lo ->
  exists lc lb S1 c2 S2, S' = S /\ lab lb = p + size C /\ extends S S1 /\ extends S S2 /\
    reaches (Some (lc, lb)) S S1 s s1 e1 out1 p (lab lc) m /\
    (forall m2, runs (mk (lab lc + size c2) m2) [] (mk p m2)) /\
    forall s' e2 out2 s2, stmts_spec d k s' e2 out2 s2 -> forall m2, rep S s' m2 -> FP m2 = FP m ->
      reaches li S S2 s' s2 e2 out2 (lab lc) (lab lc + size c2) m2.
Proof.
  intros Hc IHb Ev P Wf Tg Rp Hd Sc Hn.
  destruct (lower_while_inv S li c b k st C S' st' ex p Ev P)
    as [ls [lc [lb [st3 [cc [st4 [c1 [S1 [st5 [ex1 [c2 [S2 [ex2 [Ec [E1 [E2 [ES [Lls [Pcc [Pc1 [Llc [Pc2 [Pg Llb]]]]]]]]]]]]]]]]]]]]]]].
  pose proof (lower_stmts_extends b S (Some (lc, lb)) st4 ltac:(rewrite (wfs_w S Wf); lia)) as X1. rewrite E1 in X1.
  pose proof (lower_stmts_extends k S li st5 ltac:(rewrite (wfs_w S Wf); lia)) as X2. rewrite E2 in X2.
  cbn [sscoped need_stmt fst] in Sc, Hn. destruct Sc as [Scc [Sc1 Sc2]].
  apply need_max in Hn. destruct Hn as [Hnc Hn]. apply need_max in Hn. destruct Hn as [Hn1 Hn2]. rewrite (wfs_w S Wf) in Hnc.
  exists lc, lb, S1, c2, S2. repeat (split; [assumption|]). split; [|split].
  - apply (reaches_cond _ S S1 s s1 e1 out1 c lb st3 cc st4 p _ m Wf Rp Scc Hnc Ec Pcc). intros m1 Rp1 F1. rewrite <- F1 in Hd, Hn1. rewrite Hc, Llc.
    exact (IHb S (Some (lc, lb)) st4 c1 S1 st5 ex1 _ m1 E1 Pc1 Wf Tg Rp1 Hd Sc1 Hn1).
  - intros m2. rewrite <- Lls. exact (goto_runs ls _ m2 Pg).
  - intros s' e2 out2 s2 IHk m2 Rp2 F2. rewrite <- F2 in Hd, Hn2. exact (IHk S li st5 c2 S2 st' ex2 _ m2 E2 Pc2 Wf Tg Rp2 Hd Sc2 Hn2).
Qed.
Lemma scoped_rest S s inl r :
  match s with
  | SDeclI _ | SDeclDiv _ _ _ | SCall DDecl _ _ => ssscoped w ng nbg lib_hyps cf (Datatypes.S (length (ioffs S))) (length (boffs S)) inl r
  | SDeclB _ => ssscoped w ng nbg lib_hyps cf (length (ioffs S)) (Datatypes.S (length (boffs S))) inl r
  | _ => ssscoped w ng nbg lib_hyps cf (length (ioffs S)) (length (boffs S)) inl r
  end ->
  ssscoped w ng nbg lib_hyps cf (length (ioffs (snd (need_stmt S s)))) (length (boffs (snd (need_stmt S s)))) inl r.
Proof.
  destruct s as [o|i o|e|j e|x| |ln o|ln e|c0 t1 t2|c0 b k|ss| | |op a b|i op a b|dst f args|rv|gg og|gg gop ga gb|hh eh];
    try destruct x; try destruct dst; try destruct rv; cbn [need_stmt need_bool_decl snd push_int push_bool ioffs boffs];
    rewrite ?app_length; cbn [length]; rewrite ?Nat.add_1_r; exact (fun H => H).
Qed.

Theorem stmts_runs :
  (forall d s s0 evs out s1, exec w funs d s s0 evs out s1 -> stmt_spec d s s0 evs out s1) /\
  (forall d ss s0 evs out s1, execs w funs d ss s0 evs out s1 -> stmts_spec d ss s0 evs out s1) /\
  (forall d f vs G evs res, callf w funs d f vs G evs res -> call_spec d f vs G evs res).
Proof.
  apply (exec_execs_callf_ind w funs stmt_spec stmts_spec call_spec).
  - (* int x = o *)
    intros d o s S li st C S' st' ex p m Ev P Wf Tg Rp Hd Sc Hn. cbn [lower_stmt] in Ev. injection Ev as <- <- <- <-.
    cbn [need_stmt fst sscoped] in *. apply need_max in Hn. destruct Hn as [Hn1 Hn2]. rewrite (wfs_w S Wf) in Hn2.
    destruct (decl_int_runs S s m o Wf Rp (proj1 Sc) (proj2 Sc) Hn1 Hn2) as [m' [C [Rp' A]]].
    exact (reaches_normal li S _ s _ [] p _ m m' (C p P) (agree_fagree S s m m' Wf Rp A) Rp' (wf_push_int S Wf)).
  - (* xi = o *)
    intros d i o s Hi S li st C S' st' ex p m Ev P Wf Tg Rp Hd Sc Hn. exact (assign_int_runs li S s m i o st C S' st' ex p Ev P Wf Rp Sc Hn).
  - (* bool p = e *)
    intros d e s S li st C S' st' ex p m Ev P Wf Tg Rp Hd Sc Hn. cbn [lower_stmt] in Ev.
    destruct (declare_bool (env_of S) e st) as [c st1] eqn:Ed. injection Ev as <- <- <- <-. cbn [sscoped] in Sc.
    destruct (declare_bool_runs S s m e st c st1 p Wf Rp Sc Hn Ed P) as [m' [Rn [Rp' A]]].
    exact (reaches_normal li S _ s _ [] p _ m m' Rn (agree_fagree S s m m' Wf Rp A) Rp' (wf_push_bool S Wf)).
  - (* pj = e *)
    intros d j e s Hj S li st C S' st' ex p m Ev P Wf Tg Rp Hd Sc Hn. exact (assign_bool_runs li S s m j e st C S' st' ex p Ev P Wf Rp Sc Hn).
  - (* write *)
    intros d x s S li st C S' st' ex p m Ev P Wf Tg Rp Hd Sc Hn. cbn [lower_stmt] in Ev. injection Ev as <- <- <- <-.
    destruct (write_runs S s m x _ p Wf Rp Sc Hn P) as [m' [Rn [Rp' Fa]]].
    exact (reaches_normal li S S s s [_] p _ m m' Rn Fa Rp' Wf).
  - (* writeln *)
    intros d s S li st C S' st' ex p m Ev P Wf Tg Rp Hd Sc Hn. cbn [lower_stmt] in Ev. injection Ev as <- <- <- <-.
    cbn [plc res_ins res_sym] in P. destruct P as [Cy _].
    apply (reaches_normal li S S s s [10] p _ m m); [|apply fagree_refl | exact Rp | exact Wf].
    cbn [size map]. replace (p + (1 + 0)) with (p + 1) by lia.
    exact (yield_imm_runs p m 10 Cy).
  - (* write(int) *)
    intros d ln o s S li st C S' st' ex p m Ev P Wf Tg Rp Hd Sc Hn. exact (writei_runs li S s m ln o st C S' st' ex p Ev P Wf Rp Sc Hn).
  - (* write(bool) *)
    intros d ln e s S li st C S' st' ex p m Ev P Wf Tg Rp Hd Sc Hn. exact (writeb_runs li S s m ln e st C S' st' ex p Ev P Wf Rp Sc Hn).
  - (* if: the condition, the selected branch, and from the end of the first one the jump over the second *)
    intros d c s1 s2 s evs out s' Hx IH S li st C S' st' ex p m Ev P Wf Tg Rp Hd Sc Hn.
    destruct (lower_if_inv S li c s1 s2 st C S' st' ex p Ev P)
      as [el [ee [st2 [cc [st3 [c1 [S1 [st4 [ex1 [c2 [S2 [ex2 [Ec [E1 [E2 [-> [Pcc [Pc1 [Pg [Pc2 [Lel Lee]]]]]]]]]]]]]]]]]]]]].
    pose proof (lower_stmts_extends s1 S li st3 ltac:(rewrite (wfs_w S Wf); lia)) as X1. rewrite E1 in X1.
    pose proof (lower_stmts_extends s2 S li st4 ltac:(rewrite (wfs_w S Wf); lia)) as X2. rewrite E2 in X2.
    cbn [sscoped need_stmt fst] in Sc, Hn. destruct Sc as [Scc [Sc1 Sc2]].
    apply need_max in Hn. destruct Hn as [Hnc Hn]. apply need_max in Hn. destruct Hn as [Hn1 Hn2]. rewrite (wfs_w S Wf) in Hnc.
    apply (reaches_cond li S S s _ evs out c el st2 cc st3 p _ m Wf Rp Scc Hnc Ec Pcc). intros m1 Rp1 F1. rewrite <- F1 in Hd, Hn1, Hn2.
    destruct (bevals w s c).
    + apply (reaches_close li S S1 s s' evs out _ (p + size cc + size c1) _ m1 Wf Rp1 X1 (IH S li st3 c1 S1 st4 ex1 _ m1 E1 Pc1 Wf Tg Rp1 Hd Sc1 Hn1)).
      intros m2. rewrite <- Lee. exact (goto_runs ee _ m2 Pg).
    + apply (reaches_close li S S2 s s' evs out _ (lab el + size c2) _ m1 Wf Rp1 X2 (IH S li st4 c2 S2 st' ex2 _ m1 E2 Pc2 Wf Tg Rp1 Hd Sc2 Hn2)).
      intros m2. rewrite Lel. apply runs_refl.
  - (* while: condition false *)
    intros d c b k s Hc S li st C S' st' ex p m Ev P Wf Tg Rp Hd Sc Hn.
    destruct (lower_while_inv S li c b k st C S' st' ex p Ev P)
      as [ls [lc [lb [st3 [cc [st4 [c1 [S1 [st5 [ex1 [c2 [S2 [ex2 [Ec [E1 [E2 [-> [Lls [Pcc [Pc1 [Llc [Pc2 [Pg Llb]]]]]]]]]]]]]]]]]]]]]]].
    cbn [sscoped need_stmt fst] in Sc, Hn. destruct Sc as [Scc _]. apply need_max in Hn. destruct Hn as [Hnc _]. rewrite (wfs_w S Wf) in Hnc.
    apply (reaches_cond li S S s s [] ONormal c lb st3 cc st4 p _ m Wf Rp Scc Hnc Ec Pcc). intros m1 Rp1 _. rewrite Hc, Llb.
    exact (reaches_normal li S S s s [] _ _ m1 m1 (runs_refl _ _) (fagree_refl w R lo fb gl m1) Rp1 Wf).
  - (* while: the body breaks *)
    intros d c b k s evs s1 Hc Hb IHb S li st C S' st' ex p m Ev P Wf Tg Rp Hd Sc Hn.
    destruct (while_body d c b k s evs OBreak s1 S li st C S' st' ex p m Hc IHb Ev P Wf Tg Rp Hd Sc Hn)
      as [lc [lb [S1 [c2 [S2 [-> [Llb [_ [_ [[m2 [pc2 [Ex [Rn [Fa Po]]]]] _]]]]]]]]]].
    cbn [exit_pc] in Ex. injection Ex as <-. rewrite Llb in Rn. exact (reaches_normal li S S s _ evs _ _ m m2 Rn Fa Po Wf).
  - (* while: the body returns or faults *)
    intros d c b k s evs out s1 Hc Hb IHb Lv S li st C S' st' ex p m Ev P Wf Tg Rp Hd Sc Hn.
    destruct (while_body d c b k s evs out s1 S li st C S' st' ex p m Hc IHb Ev P Wf Tg Rp Hd Sc Hn)
      as [lc [lb [S1 [c2 [S2 [-> [_ [_ [_ [Hb0 _]]]]]]]]]].
    exact (reaches_exit _ li S S1 S s s1 evs out _ _ _ m (leaves_not_normal out Lv) (fun ra => exit_pc_leaves _ li out _ _ ra Lv) Hb0).
  - (* while: the continuation of a `for` does not complete *)
    intros d c b k s e1 out1 s1 e2 out2 s2 Hc Hb IHb Nb Hk IHk Nn2 S li st C S' st' ex p m Ev P Wf Tg Rp Hd Sc Hn.
    destruct (while_body d c b k s e1 out1 s1 S li st C S' st' ex p m Hc IHb Ev P Wf Tg Rp Hd Sc Hn)
      as [lc [lb [S1 [c2 [S2 [-> [_ [X1 [_ [Hb0 [_ K]]]]]]]]]]].
    apply (reaches_exit li li S S2 S s s2 (e1 ++ e2) out2 p (lab lc + size c2) _ m Nn2 (fun ra => exit_pc_exit li out2 _ _ ra Nn2)).
    apply (reaches_seq li S S S2 s (trunc s s1) s2 e1 e2 out2 p (lab lc) _ m Wf Rp (extends_refl S) (reaches_continue li lc lb S S1 s s1 e1 out1 p m Nb Wf Rp X1 Hb0)).
    intros m2 Rp2 _ F2. exact (K _ _ _ _ IHk m2 Rp2 F2).
  - (* while: one more iteration: body, continuation, the jump back, and the loop again *)
    intros d c b k s e1 out1 s1 e2 s2 e3 out3 s3 Hc Hb IHb Nb Hk IHk Hw' IHw S li st C S' st' ex p m Ev P Wf Tg Rp Hd Sc Hn.
    destruct (while_body d c b k s e1 out1 s1 S li st C S' st' ex p m Hc IHb Ev P Wf Tg Rp Hd Sc Hn)
      as [lc [lb [S1 [c2 [S2 [_ [_ [X1 [X2 [Hb0 [J K]]]]]]]]]]].
    rewrite app_assoc. apply (reaches_seq li S S S' s (trunc s s2) s3 (e1 ++ e2) e3 out3 p p _ m Wf Rp (extends_refl S)).
    + apply (reaches_close li S S2 s s2 (e1 ++ e2) ONormal p (lab lc + size c2) p m Wf Rp X2); [|exact J].
      apply (reaches_seq li S S S2 s (trunc s s1) s2 e1 e2 ONormal p (lab lc) _ m Wf Rp (extends_refl S) (reaches_continue li lc lb S S1 s s1 e1 out1 p m Nb Wf Rp X1 Hb0)).
      intros m2 Rp2 _ F2. exact (K _ _ _ _ IHk m2 Rp2 F2).
    + intros m3 Rp3 _ F3. rewrite <- F3 in Hd, Hn. exact (IHw S li st C S' st' ex p m3 Ev P Wf Tg Rp3 Hd Sc Hn).
  - (* block *)
    intros d ss s evs out s' Hx IH S li st C S' st' ex p m Ev P Wf Tg Rp Hd Sc Hn. cbn [lower_stmt] in Ev.
    pose proof (lower_stmts_extends ss S li st ltac:(rewrite (wfs_w S Wf); lia)) as X1.
    destruct (lower_stmts S li ss st) as [[[c S1] st1] ex1] eqn:E1. injection Ev as <- <- <- <-.
    cbn [sscoped need_stmt fst] in Sc, Hn.
    exact (reaches_close li S S1 s s' evs out p _ _ m Wf Rp X1 (IH S li st c S1 st1 ex1 p m E1 P Wf Tg Rp Hd Sc Hn) (fun m2 => runs_refl _ _)).
  - (* break *)
    intros d s S li st C S' st' ex p m Ev P Wf Tg Rp Hd Sc Hn. cbn [lower_stmt sscoped] in Ev, Sc.
    destruct li as [[lc lb]|]; [|discriminate Sc]. injection Ev as <- <- <- <-.
    exists m, (lab lb). split; [reflexivity|]. split; [exact (goto_runs lb p m P)|]. split; [apply fagree_refl|].
    cbn [post]. rewrite trunc_self. exact Rp.
  - (* continue *)
    intros d s S li st C S' st' ex p m Ev P Wf Tg Rp Hd Sc Hn. cbn [lower_stmt sscoped] in Ev, Sc.
    destruct li as [[lc lb]|]; [|discriminate Sc]. injection Ev as <- <- <- <-.
    exists m, (lab lc). split; [reflexivity|]. split; [exact (goto_runs lc p m P)|]. split; [apply fagree_refl|].
    cbn [post]. rewrite trunc_self. exact Rp.
  - (* int x = a / b *)
    intros d op a b s Nz S li st C S' st' ex p m Ev P Wf Tg Rp Hd Sc Hn. exact (proj1 (decldiv_runs li S s m op a b st C S' st' ex p Ev P Wf Rp Sc Hn) Nz).
  - (* int x = a / 0 *)
    intros d op a b s Z0 S li st C S' st' ex p m Ev P Wf Tg Rp Hd Sc Hn. exact (proj2 (decldiv_runs li S s m op a b st C S' st' ex p Ev P Wf Rp Sc Hn) Z0).
  - (* xi = a / b *)
    intros d i op a b s Hi Nz S li st C S' st' ex p m Ev P Wf Tg Rp Hd Sc Hn. exact (proj1 (assdiv_runs li S s m i op a b st C S' st' ex p Ev P Wf Rp Sc Hn) Nz).
  - (* xi = a / 0 *)
    intros d i op a b s Z0 S li st C S' st' ex p m Ev P Wf Tg Rp Hd Sc Hn. exact (proj2 (assdiv_runs li S s m i op a b st C S' st' ex p Ev P Wf Rp Sc Hn) Z0).
  - (* a call that returns *)
    intros d dst f args s evs v G' s' Hc IHc Hds S li st C S' st' ex p m Ev P Wf Tg Rp Hd Sc Hn.
    exact (call_reaches d dst f args s evs (CRet v G') S li st C S' st' ex p m Ev P Wf Tg Rp Hd Sc Hn IHc s' Hds).
  - (* a call that faults *)
    intros d dst f args s evs ft Hc IHc S li st C S' st' ex p m Ev P Wf Tg Rp Hd Sc Hn.
    exact (call_reaches d dst f args s evs (CFault ft) S li st C S' st' ex p m Ev P Wf Tg Rp Hd Sc Hn IHc).
  - (* g = o *)
    intros d g o s Hg S li st C S' st' ex p m Ev P Wf Tg Rp Hd Sc Hn. exact (assign_glob_runs li S s m g o st C S' st' ex p Ev P Wf Rp Sc Hn).
  - (* g = a / b *)
    intros d g op a b s Hg Nz S li st C S' st' ex p m Ev P Wf Tg Rp Hd Sc Hn. exact (proj1 (assign_glob_div_runs li S s m g op a b st C S' st' ex p Ev P Wf Rp Sc Hn) Nz).
  - (* g = a / 0 *)
    intros d g op a b s Z0 S li st C S' st' ex p m Ev P Wf Tg Rp Hd Sc Hn. exact (proj2 (assign_glob_div_runs li S s m g op a b st C S' st' ex p Ev P Wf Rp Sc Hn) Z0).
  - (* h = e, bool global *)
    intros d h e s Hh S li st C S' st' ex p m Ev P Wf Tg Rp Hd Sc Hn. exact (assign_bglob_runs li S s m h e st C S' st' ex p Ev P Wf Rp Sc Hn).
  - (* return; *)
    intros d s S li st C S' st' ex p m Ev P Wf Tg Rp Hd Sc Hn. cbn [lower_stmt] in Ev. injection Ev as <- <- <- <-.
    destruct (return_runs S s m None p Wf Rp I P) as [m' [Rn [A V]]].
    exact (reaches_return li S S s None p _ m m' Rp Rn A V).
  - (* return o; *)
    intros d o s S li st C S' st' ex p m Ev P Wf Tg Rp Hd Sc Hn. cbn [lower_stmt] in Ev. injection Ev as <- <- <- <-.
    cbn [sscoped need_stmt fst] in Sc, Hn.
    destruct (return_runs S s m (Some o) p Wf Rp (conj Sc Hn) P) as [m' [Rn [A V]]].
    exact (reaches_return li S S s (Some _) p _ m m' Rp Rn A V).
  - (* the empty list *)
    intros d s S li st C S' st' ex p m Ev P Wf Tg Rp Hd Sc Hn. cbn [lower_stmts] in Ev. injection Ev as <- <- <- <-.
    apply (reaches_normal li S S s s [] p _ m m); [|apply fagree_refl | exact Rp | exact Wf].
    cbn [size map]. replace (p + 0) with p by lia. apply runs_refl.
  - (* s; rest -- s completes *)
    intros d s r s0 e1 s1 e2 out s2 H1 IH1 H2 IH2 S li st C S' st' ex p m Ev P Wf Tg Rp Hd Sc Hn. cbn [lower_stmts] in Ev.
    pose proof (lower_stmt_env S li s st) as Ee. pose proof (lower_stmt_exited S li s st) as Eex.
    destruct (lower_stmt S li s st) as [[[c S1] st1] ex1] eqn:E1.
    assert (Nex : ex1 = false).
    { destruct ex1; [|reflexivity]. specialize (Eex eq_refl). destruct s; try discriminate Eex; inversion H1. }
    subst ex1. destruct (lower_stmts S1 li r st1) as [[[cr S2] st2] ex2] eqn:E2. injection Ev as <- <- <- <-.
    apply placed_app in P. destruct P as [Pc Pr].
    cbn [ssscoped need_stmts] in Sc, Hn. destruct Sc as [Scs Scr].
    pose proof (tight_step S s Wf Tg) as Tg1. pose proof (need_stmt_extends S s ltac:(rewrite (wfs_w S Wf); lia)) as X1.
    pose proof (scoped_rest S s (in_loop li) r Scr) as Scr'. rewrite <- Ee in Tg1, X1, Scr'.
    destruct (need_stmt S s) as [n S1'] eqn:En. apply need_max in Hn. destruct Hn as [Hns Hnr]. cbn [snd] in Ee. subst S1'.
    rewrite size_app, Z.add_assoc.
    apply (reaches_seq li S S1 S2 s0 s1 s2 e1 e2 out p (p + size c) _ m Wf Rp X1
             (IH1 S li st c S1 st1 false p m E1 Pc Wf Tg Rp Hd Scs ltac:(rewrite En; exact Hns))).
    intros m1 Rp1 Wf1 F1. rewrite <- F1 in Hd, Hnr. exact (IH2 S1 li st1 cr S2 st2 ex2 _ m1 E2 Pr Wf1 Tg1 Rp1 Hd Scr' Hnr).
  - (* s; rest -- s does not complete: the rest is skipped *)
    intros d s r s0 e1 out s1 H1 IH1 Nn S li st C S' st' ex p m Ev P Wf Tg Rp Hd Sc Hn. cbn [lower_stmts] in Ev.
    destruct (lower_stmt S li s st) as [[[c S1] st1] ex1] eqn:E1.
    cbn [ssscoped need_stmts] in Sc, Hn. destruct Sc as [Scs _].
    destruct (need_stmt S s) as [n S1'] eqn:En. apply need_max in Hn. destruct Hn as [Hns _].
    assert (Pc : plc c p) by (destruct ex1; [injection Ev as <- <- <- <-; exact P |
      destruct (lower_stmts S1 li r st1) as [[[cr S2] st2] ex2]; injection Ev as <- <- <- <-; apply placed_app in P; tauto]).
    destruct (IH1 S li st c S1 st1 ex1 p m E1 Pc Wf Tg Rp Hd Scs ltac:(rewrite En; exact Hns)) as [m1 [pc1 [Ex1 [Rn1 [Fa1 Po1]]]]].
    exists m1, pc1. split; [rewrite <- Ex1; apply exit_pc_exit; exact Nn|]. split; [exact Rn1|]. split; [exact Fa1|].
    destruct out; try exact Po1. exfalso; apply Nn; reflexivity.
  - (* a call whose entry guard fails *)
    intros d f vs G fd Hfd Hlt m Hl Cf L Hd Hh Hs Hap Hv Hfg Hgr Hgd.
    destruct (fun_entry d f _ fd m Cf Hfd Hl L Hd Hh Hs Hap) as [st1 [c [S1 [st2 [ex1 [_ [_ [_ [_ [Gf _]]]]]]]]]]. exact (Gf Hlt).
  - (* a call that returns *)
    intros d f vs G fd evs v s1 Hfd Hge Hb IHb m Hl Cf L Hd Hh Hs Hap Hv Hfg Hgr Hgd.
    destruct (fun_body_reaches d f vs G fd evs _ s1 m Hfd Hge IHb Hl Cf L Hd Hh Hs Hap Hv Hfg Hgr Hgd) as [S1 [e [m' [pc' [Ex [Rn [Fa Po]]]]]]].
    cbn [exit_pc] in Ex. injection Ex as <-. exists m'. split; [exact Rn|]. split; [exact Fa | exact Po].
  - (* a call that faults inside *)
    intros d f vs G fd evs ft s1 Hfd Hge Hb IHb m Hl Cf L Hd Hh Hs Hap Hv Hfg Hgr Hgd.
    destruct (fun_body_reaches d f vs G fd evs _ s1 m Hfd Hge IHb Hl Cf L Hd Hh Hs Hap Hv Hfg Hgr Hgd) as [S1 [e [m' [pc' [Ex [Rn _]]]]]].
    cbn [exit_pc] in Ex. injection Ex as <-. exists m'. exact Rn.
Qed.
End Stmt.

Definition defs_ok (st st' : lstate) (C : list aline) : Prop :=
  st_le st st' /\ Forall (between st st') (deflabels C) /\ NoDup (deflabels C).
Lemma defs_ok_eq {st st' C} C' : defs_ok st st' C -> deflabels C' = deflabels C -> defs_ok st st' C'.
Proof. unfold defs_ok. intros H ->. exact H. Qed.
Lemma defs_ok_nil st C : deflabels C = [] -> defs_ok st st C.
Proof. intros H. unfold defs_ok. rewrite H. split; [apply st_le_refl|]. split; constructor. Qed.
Lemma defs_ok_label nm st : let (l, st1) := add_label nm st in defs_ok st st1 [ALabel l].
Proof.
  pose proof (add_label_le nm st) as M. pose proof (add_label_between nm st) as B. destruct (add_label nm st) as [l st1].
  split; [exact M|]. split; [constructor; [exact B | constructor] | constructor; [intros [] | constructor]].
Qed.
Lemma defs_ok_app {st st1 st2 c1 c2} : defs_ok st st1 c1 -> defs_ok st1 st2 c2 -> defs_ok st st2 (c1 ++ c2).
Proof.
  intros [M1 [F1 D1]] [M2 [F2 D2]]. split; [exact (st_le_trans _ _ _ M1 M2) | exact (defs_app_sep st st1 st2 c1 c2 M1 M2 F1 D1 F2 D2)].
Qed.
Lemma label_eq_dec (a b : label) : {a = b} + {a <> b}.
Proof. destruct (label_eqb a b) eqn:E; [left; apply label_eqb_eq; exact E | right; intros H; apply label_eqb_eq in H; congruence]. Qed.
(* The counters hand out the labels of a statement before the code of its parts is generated, and the
   labels are placed between the parts.  How often a piece of code defines a label is additive over
   concatenation, so the order of the pieces does not matter. *)
Definition lcount (C : list aline) (x : label) : nat := count_occ label_eq_dec (deflabels C) x.
Lemma lcount_app a b x : lcount (a ++ b) x = (lcount a x + lcount b x)%nat.
Proof. unfold lcount. rewrite deflabels_app. apply count_occ_app. Qed.
Lemma lcount_eq C C' x : deflabels C = deflabels C' -> lcount C x = lcount C' x.
Proof. unfold lcount. intros ->. reflexivity. Qed.
Lemma defs_ok_reorder {st st' C} C' : defs_ok st st' C -> (forall x, lcount C' x = lcount C x) -> defs_ok st st' C'.
Proof.
  unfold lcount. intros [M [F D]] E. split; [exact M|]. split.
  - rewrite Forall_forall in *. intros x I. apply F. apply (count_occ_In label_eq_dec) in I. apply (count_occ_In label_eq_dec). rewrite <- E. exact I.
  - apply (NoDup_count_occ label_eq_dec). intros x. rewrite E. apply (NoDup_count_occ label_eq_dec). exact D.
Qed.

Lemma value_code_nolabels E top r o : deflabels (value_code E top r o) = [].
Proof. unfold value_code. now rewrite deflabels_app, eval_opd_nolabels, pop_value_nolabels. Qed.
Lemma decl_int_nolabels S o : deflabels (decl_int S o) = [].
Proof.
  assert (G : forall x, deflabels (let (c0, bub) := eval_opd (env_of S) (top S) R1 x true in
                                   match bub with
                                   | BuPushed _ => c0
                                   | _ => let (c1, v) := pop_value R1 bub in c0 ++ c1 ++ [AInstr (ASwso (SReg RFp) (SLit (- (top S + ws S))) v)]
                                   end) = []).
  { intros x. pose proof (eval_opd_nolabels (env_of S) x (top S) R1 true) as H.
    destruct (eval_opd (env_of S) (top S) R1 x true) as [c0 bub]. cbn [fst] in H.
    pose proof (pop_value_nolabels R1 bub) as P. destruct (pop_value R1 bub) as [c1 v]. cbn [fst] in P.
    destruct bub; defl; rewrite ?H, ?P; reflexivity. }
  destruct o; try exact (G _); reflexivity.
Qed.
Lemma assign_int_nolabels S i o : deflabels (assign_int S i o) = [].
Proof. now rewrite assign_int_eq, deflabels_app, value_code_nolabels. Qed.
Lemma assign_glob_nolabels S g o : deflabels (assign_glob S g o) = [].
Proof. rewrite assign_glob_eq. apply value_code_nolabels. Qed.
Lemma lower_return_nolabels S r : deflabels (lower_return S r) = [].
Proof. destruct r as [o|]; [|reflexivity]. now rewrite lower_return_eq, deflabels_app, value_code_nolabels. Qed.
Lemma lower_write_nolabels S x : deflabels (lower_write S x) = [].
Proof. destruct x as [z|c|o]; try reflexivity. now rewrite lower_write_eq, !deflabels_app, eval_opd_nolabels, pop_value_nolabels. Qed.
Lemma push_args_nolabels args : forall S, deflabels (push_args S args) = [].
Proof. induction args as [|o r IH]; intros S; cbn [push_args]; [reflexivity|]. defl. rewrite decl_int_nolabels, IH. reflexivity. Qed.
Lemma eval_div_labels E top r op a b keep da : deflabels (fst (eval_div E top r op a b keep da)) = [da].
Proof.
  unfold eval_div. pose proof (compare_operands_nolabels (with_top E top) a b) as H.
  destruct (compare_operands (with_top E top) a b) as [[c lhs] rhs]. cbn [fst] in H.
  unfold finish_opd. destruct keep; cbn [fst]; unfold div_guard; defl; rewrite H; reflexivity.
Qed.
Lemma call_tail_labels S ec f ln : deflabels (call_tail S ec f ln) = [ec].
Proof. destruct ln; reflexivity. Qed.
Lemma lower_call_labels S ec dst f args : deflabels (lower_call S ec dst f args) = [ec].
Proof. unfold lower_call, call_seq. defl. rewrite push_args_nolabels. destruct dst; reflexivity. Qed.
Lemma assign_bool_defs E off e st c st' : assign_bool E off e st = (c, st') -> defs_ok st st' c.
Proof.
  unfold assign_bool. destruct (eval_bool_value E R1 e st) as [[c0 v] st0] eqn:E0. intros Ev. inversion Ev; subst.
  apply (defs_ok_eq _ (eval_bool_value_defs E e R1 st c0 v st' E0)). defl. apply app_nil_r.
Qed.
Lemma assign_bglob_defs E h e st c st' : assign_bglob E h e st = (c, st') -> defs_ok st st' c.
Proof.
  unfold assign_bglob. destruct (eval_bool_value E R1 e st) as [[c0 v] st0] eqn:E0. intros Ev. inversion Ev; subst.
  apply (defs_ok_eq _ (eval_bool_value_defs E e R1 st c0 v st' E0)). defl. apply app_nil_r.
Qed.
Lemma declare_bool_defs E e st c st' : declare_bool E e st = (c, st') -> defs_ok st st' c.
Proof.
  assert (K : value_lowering_keep E e st = (c, st') -> defs_ok st st' c).
  { unfold value_lowering_keep. intros L. apply (lower_branch_defs _ e _ _ _ _ _ L); reflexivity. }
  destruct e; cbn [declare_bool]; try exact K; apply assign_bool_defs.
Qed.

Scheme stmt_mind := Induction for stmt Sort Prop
  with stmts_mind := Induction for stmts Sort Prop.
Combined Scheme stmt_stmts_ind from stmt_mind, stmts_mind.

Theorem lower_stmts_defs :
  (forall s S li st, let '(C, _, st', _) := lower_stmt S li s st in defs_ok st st' C) /\
  (forall ss S li st, let '(C, _, st', _) := lower_stmts S li ss st in defs_ok st st' C).
Proof.
  apply stmt_stmts_ind.
  - intros o S li st. apply defs_ok_nil, decl_int_nolabels.
  - intros i o S li st. apply defs_ok_nil, assign_int_nolabels.
  - intros e S li st. cbn [lower_stmt]. destruct (declare_bool (env_of S) e st) as [c st1] eqn:Ed. exact (declare_bool_defs _ _ _ _ _ Ed).
  - intros j e S li st. cbn [lower_stmt].
    destruct (assign_bool (env_of S) (nth j (boffs S) 0) e st) as [c st1] eqn:Ea. exact (assign_bool_defs _ _ _ _ _ _ Ea).
  - intros x S li st. apply defs_ok_nil, lower_write_nolabels.
  - intros S li st. apply defs_ok_nil. reflexivity.
  - intros ln o S li st. cbn [lower_stmt].
    pose proof (defs_ok_label LEndCall st) as D1. destruct (add_label LEndCall st) as [ec st1].
    apply (defs_ok_eq _ D1). defl. rewrite decl_int_nolabels. apply call_tail_labels.
  - (* write(bool): the return label is taken before the argument is lowered *)
    intros ln e S li st. cbn [lower_stmt].
    pose proof (defs_ok_label LEndCall st) as D1. destruct (add_label LEndCall st) as [ec st1].
    destruct (declare_bool (env_of (after_ra S)) e st1) as [c st2] eqn:Ed. apply declare_bool_defs in Ed.
    apply (defs_ok_reorder _ (defs_ok_app D1 Ed)). intros x.
    rewrite !lcount_app, (lcount_eq _ [ALabel ec] x (call_tail_labels _ _ _ _)). change (lcount [push_ra S ec] x) with 0%nat. lia.
  - intros c s1 IH1 s2 IH2 S li st. cbn [lower_stmt].
    pose proof (defs_ok_label LElse st) as D1. destruct (add_label LElse st) as [el st1].
    pose proof (defs_ok_label LEndElse st1) as D2. destruct (add_label LEndElse st1) as [ee st2].
    destruct (lower_branch (env_of S) c [] (goto el) st2) as [cc st3] eqn:Ec.
    pose proof (lower_branch_defs _ c _ _ _ _ _ Ec eq_refl eq_refl) as D3.
    pose proof (IH1 S li st3) as D4. destruct (lower_stmts S li s1 st3) as [[[c1 S1] st4] ex1].
    pose proof (IH2 S li st4) as D5. destruct (lower_stmts S li s2 st4) as [[[c2 S2] st5] ex2].
    apply (defs_ok_reorder _ (defs_ok_app D1 (defs_ok_app D2 (defs_ok_app D3 (defs_ok_app D4 D5))))).
    intros x. rewrite !lcount_app. change (lcount (goto ee) x) with 0%nat. lia.
  - intros c b IH1 k IH2 S li st. cbn [lower_stmt].
    pose proof (defs_ok_label LLoop st) as D1. destruct (add_label LLoop st) as [ls st1].
    pose proof (defs_ok_label LContinue st1) as D2. destruct (add_label LContinue st1) as [lc st2].
    pose proof (defs_ok_label LBreak st2) as D3. destruct (add_label LBreak st2) as [lb st3].
    destruct (lower_branch (env_of S) c [] (goto lb) st3) as [cc st4] eqn:Ec.
    pose proof (lower_branch_defs _ c _ _ _ _ _ Ec eq_refl eq_refl) as D4.
    pose proof (IH1 S (Some (lc, lb)) st4) as D5. destruct (lower_stmts S (Some (lc, lb)) b st4) as [[[c1 S1] st5] ex1].
    pose proof (IH2 S li st5) as D6. destruct (lower_stmts S li k st5) as [[[c2 S2] st6] ex2].
    apply (defs_ok_reorder _ (defs_ok_app D1 (defs_ok_app D2 (defs_ok_app D3
             (defs_ok_app D4 (defs_ok_app D5 D6)))))).
    intros x. rewrite !lcount_app. change (lcount (goto ls) x) with 0%nat. lia.
  - intros ss IH S li st. cbn [lower_stmt]. specialize (IH S li st). destruct (lower_stmts S li ss st) as [[[c S1] st1] ex1]. exact IH.
  - intros S li st. apply defs_ok_nil. destruct li as [[? ?]|]; reflexivity.
  - intros S li st. apply defs_ok_nil. destruct li as [[? ?]|]; reflexivity.
  - intros op a b S li st. cbn [lower_stmt].
    pose proof (defs_ok_label LDivAllowed st) as D1. destruct (add_label LDivAllowed st) as [da st1].
    exact (defs_ok_eq _ D1 (eval_div_labels _ _ _ _ _ _ _ _)).
  - intros i op a b S li st. cbn [lower_stmt].
    pose proof (defs_ok_label LDivAllowed st) as D1. destruct (add_label LDivAllowed st) as [da st1].
    apply (defs_ok_eq _ D1). unfold assign_div. rewrite deflabels_app, eval_div_labels. reflexivity.
  - intros dst f args S li st. cbn [lower_stmt].
    pose proof (defs_ok_label LEndCall st) as D1. destruct (add_label LEndCall st) as [ec st1].
    exact (defs_ok_eq _ D1 (lower_call_labels _ _ _ _ _)).
  - intros r S li st. apply defs_ok_nil, lower_return_nolabels.
  - intros g o S li st. apply defs_ok_nil, assign_glob_nolabels.
  - intros g op a b S li st. cbn [lower_stmt].
    pose proof (defs_ok_label LDivAllowed st) as D1. destruct (add_label LDivAllowed st) as [da st1].
    exact (defs_ok_eq _ D1 (eval_div_labels _ _ _ _ _ _ _ _)).
  - intros h e S li st. cbn [lower_stmt].
    destruct (assign_bglob (env_of S) h e st) as [c st1] eqn:Ea. exact (assign_bglob_defs _ _ _ _ _ _ Ea).
  - intros S li st. apply defs_ok_nil. reflexivity.
  - intros s IHs r IHr S li st. cbn [lower_stmts].
    pose proof (IHs S li st) as D1. destruct (lower_stmt S li s st) as [[[c S1] st1] ex1]. destruct ex1; [exact D1|].
    pose proof (IHr S1 li st1) as D2. destruct (lower_stmts S1 li r st1) as [[[cr S2] st2] ex2]. exact (defs_ok_app D1 D2).
Qed.
Lemma lower_stmts_defs_eq ss S li st C S' st' ex : lower_stmts S li ss st = (C, S', st', ex) -> defs_ok st st' C.
Proof. intros L. pose proof (proj2 lower_stmts_defs ss S li st) as D. rewrite L in D. exact D. Qed.

Section TopS.
Variable w : Z.
Hypothesis Hw : 2 <= w.
Variable code : Z -> option instr.
Variable cmem : mem.
Variable R : regmap.
Variable lo : Z.
Variable ext : label -> Z.
Hypothesis ext_range : forall x, 0 <= ext x < Machine.W w.
Variable funs : list fundef.
Variable gl : Z.
Variable ng : nat.
Variable nbg : nat.
Hypothesis Hgl : lo <= gl.
Notation act := (Machine.act w code cmem).
Notation Halts := (HidV.Sphinx.Halts.Halts act).
Notation runs := (HidV.Sphinx.Halts.runs act).
Notation FP := (LowerBoolProofs.FP w R).
(* statement lists without calls of the program's functions (calls: program_lowering_correct) *)
Definition no_calls (f n : nat) : Prop := False.
Notation scoped := (ssscoped w ng nbg (lib_hyps w R code) no_calls).
Lemma no_calls_cf lab : forall f n, no_calls f n -> exists fd st, nth_error funs f = Some fd /\ fn_params fd = n /\
  0 <= fun_need w fd < Machine.W w / 2 /\ placed R lab code (fst (lower_fun w f fd st)) (lab (func_label f)) /\
  scoped n 0%nat false (fn_body fd).
Proof. intros f n []. Qed.

(* statement lists inside a loop whose continue / break labels are defined elsewhere: where the run
   ends (the end of the code, a loop label, the return address, a fault stub), what has changed,
   what the memory represents *)
Theorem stmts_lowering_correct_gen ss d s0 evs out s1 S li st B m :
  execs w funs d ss s0 evs out s1 ->
  let r := lower_stmts S li ss st in
  let C := fst (fst (fst r)) in
  let S' := snd (fst (fst r)) in
  code_at code B (resolve R ext B C) -> 0 <= B -> B + size C < Machine.W w ->
  match li with Some (lc, lb) => below st lc /\ below st lb | None => True end ->
  wf_senv w w S -> tight w S -> rep w R lo gl ng nbg S s0 m -> d = FP m - lo ->
  scoped (length (ioffs S)) (length (boffs S)) (match li with Some _ => true | None => false end) ss ->
  need_stmts S ss <= FP m - lo ->
  exists m' pc',
    match out, li with
    | ONormal, _ => pc' = B + size C
    | OBreak, Some (_, lb) => pc' = ext lb
    | OContinue, Some (lc, _) => pc' = ext lc
    | OReturn _, _ => pc' = Machine.lw w m (FP m - w)
    | OFault ft, _ => pc' = a_lib R + fault_off ft
    | _, None => False
    end /\
    runs (mk B m) (map EOut evs) (mk pc' m') /\ frame_post w R lo w gl out m m' /\ post w R lo w gl ng nbg S S' s0 s1 out m m'.
Proof.
  intros Hx r C S' CA HB HS Hli Wf Tg Rp Hd Sc Hn.
  destruct (lower_stmts S li ss st) as [[[C0 S1] st'] ex] eqn:L. cbn [fst snd] in r, C, S'. subst C S'.
  destruct (lower_stmts_defs_eq ss S li st C0 S1 st' ex L) as [_ [Fb Nd]].
  destruct (resolved_placed code R ext B C0 _ ext_range Nd CA HB HS) as [P LR].
  set (lab := labenv ext B C0) in *.
  destruct (proj1 (proj2 (stmts_runs w R lo w Hw code cmem lab LR funs no_calls eq_refl gl ng nbg Hgl (no_calls_cf lab))) d ss s0 evs out s1 Hx S li st C0 S1 st' ex B m L P Wf Tg Rp Hd Sc Hn)
    as [m' [pc' [Ex [Rn [Fa Po]]]]].
  exists m', pc'. split; [|split; [exact Rn|split; [exact Fa | exact Po]]].
  assert (Xl : forall l, below st l -> lab l = ext l).
  { intros l Hb. apply labenv_ext. intro I. rewrite Forall_forall in Fb. exact (below_not_between st st' l Hb (Fb _ I)). }
  destruct out, li as [[lc lb]|]; cbn [exit_pc] in Ex; try discriminate Ex; inversion Ex; subst pc';
    try reflexivity; destruct Hli as [H1 H2]; apply Xl; assumption.
Qed.

(* A terminating run of the source program from store s0, producing the
   output bytes evs and ending normally in store s1, is matched by a silent-except-for-output run
   of the lowered code from any memory representing s0 to a memory representing s1 *)
Theorem stmts_lowering_correct ss d s0 evs s1 S st B m :
  execs w funs d ss s0 evs ONormal s1 ->
  let r := lower_stmts S None ss st in
  let C := fst (fst (fst r)) in
  let S' := snd (fst (fst r)) in
  code_at code B (resolve R ext B C) -> 0 <= B -> B + size C < Machine.W w ->
  wf_senv w w S -> tight w S -> rep w R lo gl ng nbg S s0 m -> d = FP m - lo ->
  scoped (length (ioffs S)) (length (boffs S)) false ss ->
  need_stmts S ss <= FP m - lo ->
  exists m', runs (mk B m) (map EOut evs) (mk (B + size C) m') /\
             rep w R lo gl ng nbg S' s1 m' /\ wf_senv w w S' /\ fagree w R lo w gl m m'.
Proof.
  intros Hx r C S' CA HB HS Wf Tg Rp Hd Sc Hn.
  destruct (stmts_lowering_correct_gen ss d s0 evs ONormal s1 S None st B m Hx CA HB HS I Wf Tg Rp Hd Sc Hn)
    as [m' [pc' [-> [Rn [Fa [Rp' Wf']]]]]].
  exists m'. split; [exact Rn|]. split; [exact Rp'|]. split; assumption.
Qed.
(* a fault: the run ends in its stub of the runtime library.  Without calls of the program's
   functions (no_calls) the only fault is a zero divisor, and the stub is division_by_zero *)
Theorem stmts_fault_correct ss d s0 evs ft s1 S st B m :
  execs w funs d ss s0 evs (OFault ft) s1 ->
  let C := fst (fst (fst (lower_stmts S None ss st))) in
  code_at code B (resolve R ext B C) -> 0 <= B -> B + size C < Machine.W w ->
  wf_senv w w S -> tight w S -> rep w R lo gl ng nbg S s0 m -> d = FP m - lo ->
  scoped (length (ioffs S)) (length (boffs S)) false ss ->
  need_stmts S ss <= FP m - lo ->
  exists m', runs (mk B m) (map EOut evs) (mk (a_lib R + fault_off ft) m').
Proof.
  intros Hx C CA HB HS Wf Tg Rp Hd Sc Hn.
  destruct (stmts_lowering_correct_gen ss d s0 evs (OFault ft) s1 S None st B m Hx CA HB HS I Wf Tg Rp Hd Sc Hn)
    as [m' [pc' [-> [Rn _]]]].
  exists m'. exact Rn.
Qed.
(* divergence is preserved the other way round: `runs` transports Halts both ways, so if the
   continuation of the statements never halts, neither does their start state *)
Corollary stmts_no_new_halt ss d s0 evs s1 S st B m :
  execs w funs d ss s0 evs ONormal s1 ->
  let C := fst (fst (fst (lower_stmts S None ss st))) in
  code_at code B (resolve R ext B C) -> 0 <= B -> B + size C < Machine.W w ->
  wf_senv w w S -> tight w S -> rep w R lo gl ng nbg S s0 m -> d = FP m - lo ->
  scoped (length (ioffs S)) (length (boffs S)) false ss ->
  need_stmts S ss <= FP m - lo ->
  (forall m', ~ Halts (mk (B + size C) m')) -> ~ Halts (mk B m).
Proof.
  intros Hx C CA HB HS Wf Tg Rp Hd Sc Hn Nh.
  destruct (stmts_lowering_correct ss d s0 evs s1 S st B m Hx CA HB HS Wf Tg Rp Hd Sc Hn) as [m' [Rn _]].
  intro Hh. apply (Nh m'). apply (proj1 Rn). exact Hh.
Qed.

(* a whole body `{ ss }` of an `empty` function: the statements, then the `return;` the front end
   appends: lower_body is the lowering of the statements followed by `return;` *)
Lemma lower_stmts_app_return ss : forall S li st,
  let '(c, S1, st1, ex) := lower_stmts S li ss st in
  ex = false -> exists Sx, lower_stmts S li (stmts_snoc ss (SReturn None)) st = (c ++ lower_return S1 None, Sx, st1, true).
Proof.
  induction ss as [|s r IH]; intros S li st; cbn [lower_stmts stmts_snoc].
  - intros _. exists S. reflexivity.
  - destruct (lower_stmt S li s st) as [[[c S1] st1] ex1]. destruct ex1; [intros; discriminate|].
    specialize (IH S1 li st1). destruct (lower_stmts S1 li r st1) as [[[cr S2] st2] ex2].
    intros E. destruct (IH E) as [Sx Ex]. rewrite Ex. exists Sx. now rewrite app_assoc.
Qed.
(* a whole body `{ ss }` of an `empty` function: the statements, then the implicit `return;` through
   the return-address slot at [fp] - w *)
Theorem body_lowering_correct ss d s0 evs s1 S st B m :
  execs w funs d ss s0 evs ONormal s1 ->
  let C := fst (lower_body S ss st) in
  code_at code B (resolve R ext B C) -> 0 <= B -> B + size C < Machine.W w ->
  wf_senv w w S -> tight w S -> rep w R lo gl ng nbg S s0 m -> d = FP m - lo ->
  scoped (length (ioffs S)) (length (boffs S)) false ss ->
  need_stmts S ss <= FP m - lo ->
  let ra := Machine.lw w m (FP m - w) in
  exists m', runs (mk B m) (map EOut evs) (mk ra m') /\ gagree w R lo gl (FP m) m m'.
Proof.
  intros Hx C CA HB HS Wf Tg Rp Hd Sc Hn ra.
  unfold lower_body in C.
  destruct (lower_stmts S None ss st) as [[[C0 S1] st'] ex] eqn:L. cbn [fst] in C. subst C.
  set (tail := [AInstr (ALwso R1 (SReg RFp) (SLit (- ws S))); AInstr (AJump (SReg R1)); AInstr AHaltI]) in *.
  destruct (lower_stmts_defs_eq ss S None st C0 S1 st' ex L) as [_ [Fb Nd]].
  assert (Nd' : NoDup (deflabels (C0 ++ tail))) by (rewrite deflabels_app; cbn [tail deflabels]; rewrite app_nil_r; exact Nd).
  destruct (resolved_placed code R ext B (C0 ++ tail) _ ext_range Nd' CA HB HS) as [P LR].
  set (lab := labenv ext B (C0 ++ tail)) in *.
  apply placed_app in P. destruct P as [P0 Pt].
  destruct (proj1 (proj2 (stmts_runs w R lo w Hw code cmem lab LR funs no_calls eq_refl gl ng nbg Hgl (no_calls_cf lab))) d ss s0 evs ONormal s1 Hx S None st C0 S1 st' ex B m L P0 Wf Tg Rp Hd Sc Hn)
    as [m1 [pc1 [Ex [Rn [Fa [Rp1 Wf1]]]]]].
  cbn [exit_pc] in Ex. inversion Ex; subst pc1. cbn [frame_post] in Fa.
  assert (Pt' : placed R lab code (lower_return S1 None) (B + size C0))
    by (cbn [lower_return]; rewrite (wfs_w w w S1 Wf1), <- (wfs_w w w S Wf); exact Pt).
  destruct (return_runs w R lo w Hw code cmem lab eq_refl gl ng nbg S1 s1 m1 None _ Wf1 Rp1 I Pt') as [m2 [R2 [A2 _]]].
  pose proof (rp_regs w R lo gl ng nbg S s0 m Rp) as L0. pose proof (FP_fagree w R lo w gl Hw Hgl m m1 L0 Fa) as F1.
  rewrite (ra_fagree w R lo w Hw eq_refl gl ng nbg Hgl S s0 m m1 Wf Rp Fa) in R2. rewrite F1 in A2.
  exists m2. split.
  - rewrite <- (app_nil_r (map EOut evs)). eapply runs_trans; [exact Rn | exact R2].
  - eapply (gagree_trans w R lo gl); [|apply (agree_gagree w R lo gl); exact A2]. apply (gagree_mono w R lo gl (FP m - w)); [lia | exact Fa].
Qed.
End TopS.

Section Check.
Variable w : Z.
Variable ng : nat.
Variable nbg : nat.
Variable cfb : nat -> nat -> bool.
Notation oscoped_b := (LowerStmtSem.oscoped_b w ng).
Notation bscoped_b := (LowerStmtSem.bscoped_b w ng nbg).
Notation sscoped_b := (LowerStmtSem.sscoped_b w ng nbg cfb).
Notation ssscoped_b := (LowerStmtSem.ssscoped_b w ng nbg cfb).
Variable lib : Prop.
Variable cf : nat -> nat -> Prop.
Hypothesis Hlib : lib.
Hypothesis cfb_ok : forall f n, cfb f n = true -> cf f n.
Lemma oscoped_b_ok ni nb o : oscoped_b ni nb o = true -> oscoped w ng ni nb o.
Proof.
  induction o as [ch z|i|op x IHx y IHy|u x IHx|g|tx IHt|yj]; cbn [oscoped_b oscoped]; intros H.
  - apply andb_true_iff in H. destruct H as [H H3]. apply andb_true_iff in H. destruct H as [H1 H2]. apply Z.leb_le in H1. apply Z.ltb_lt in H2.
    split; [lia|]. intros ->. cbn [negb orb] in H3. apply andb_true_iff in H3. destruct H3 as [H4 H5]. apply Z.leb_le in H4, H5. lia.
  - apply Nat.ltb_lt. exact H.
  - apply andb_true_iff in H. destruct H as [H H2]. apply andb_true_iff in H. destruct H as [H0 H1].
    split; [destruct op; try discriminate H0; exact I | split; auto].
  - auto.
  - apply Nat.ltb_lt. exact H.
  - apply andb_true_iff in H. destruct H as [H1 H2]. split; [apply IHt; exact H1|]. destruct tx; try discriminate H2; exact I.
  - destruct yj; apply Nat.ltb_lt; exact H.
Qed.
Lemma not_trunc_b_ok o : not_trunc_b o = true -> not_trunc o.
Proof. destruct o; intros H; try discriminate H; exact I. Qed.
Lemma bscoped_b_ok ni nb e : bscoped_b ni nb e = true -> bscoped w ng nbg ni nb e.
Proof.
  induction e as [b|j|op a b|e1 IH|e1 IH1 e2 IH2|e1 IH1 e2 IH2]; cbn [bscoped_b bscoped]; intros H; auto.
  - destruct j; apply Nat.ltb_lt; exact H.
  - apply andb_true_iff in H. destruct H. split; apply oscoped_b_ok; assumption.
  - apply andb_true_iff in H. destruct H. split; auto.
  - apply andb_true_iff in H. destruct H. split; auto.
Qed.
Lemma divop_b_ok op : divop_b op = true -> op = SDiv \/ op = SMod.
Proof. destruct op; intros H; try discriminate H; auto. Qed.
Lemma forallb_Forall {A} (f : A -> bool) (P : A -> Prop) l : (forall x, f x = true -> P x) -> forallb f l = true -> Forall P l.
Proof. intros HP H. apply Forall_forall. intros x I. apply HP. exact (proj1 (forallb_forall f l) H x I). Qed.
(* each conjunct of the boolean check is the reflection of the corresponding conjunct of sscoped *)
Ltac andb_split H := repeat (apply andb_true_iff in H; let H' := fresh H in destruct H as [H H']).
Lemma scoped_b_ok :
  (forall s ni nb il, sscoped_b ni nb il s = true -> sscoped w ng nbg lib cf ni nb il s) /\
  (forall ss ni nb il, ssscoped_b ni nb il ss = true -> ssscoped w ng nbg lib cf ni nb il ss).
Proof.
  apply stmt_stmts_ind; intros until il; intros Hb; cbn [sscoped_b sscoped ssscoped_b ssscoped] in Hb |- *; andb_split Hb;
    try solve [repeat split; auto using oscoped_b_ok, bscoped_b_ok, not_trunc_b_ok, divop_b_ok, (fun a b => proj1 (Nat.ltb_lt a b))].
  - destruct x; auto using oscoped_b_ok.
  - repeat split; [destruct d; try exact I; apply Nat.ltb_lt; exact Hb | exact (cfb_ok _ _ Hb2) | exact (forallb_Forall _ _ _ (oscoped_b_ok ni nb) Hb1)
                  | exact (forallb_Forall _ _ _ not_trunc_b_ok Hb0) | exact Hlib].
  - destruct r; auto using oscoped_b_ok.
  - split; [auto|]. destruct s as [| | | | | | | | | | | | | | |[]| | | |]; auto.
Qed.
End Check.

Lemma length_instrs R lab l : Z.of_nat (length (instrs R lab l)) = size l.
Proof. induction l as [|[x|i] r IH]; cbn [instrs size length]; lia. Qed.
Lemma lib_at_after w P B : B = Z.of_nat (length P) -> lib_at w (code_of (P ++ stdlib_code w B)) B.
Proof.
  intros EB k Hk. unfold code_of. destruct (Z.ltb_spec (B + k) 0); [lia|].
  rewrite nth_error_app2 by lia. f_equal. lia.
Qed.
Lemma lower_fun_label R lab code w f fd st p : placed R lab code (fst (lower_fun w f fd st)) p -> lab (func_label f) = p.
Proof.
  unfold lower_fun. destruct (add_label LNoOverflow st) as [no st']. destruct (lower_stmts _ None (fn_body fd) st') as [[[cc S1] st2] ex].
  cbn [fst app placed]. tauto.
Qed.
Lemma lower_funs_cons R lab code w funs f r st p fd : nth_error funs f = Some fd ->
  placed R lab code (lower_funs w funs (f :: r) st) p ->
  lab (func_label f) = p /\ placed R lab code (fst (lower_fun w f fd st)) p /\
  placed R lab code (lower_funs w funs r (snd (lower_fun w f fd st))) (p + size (fst (lower_fun w f fd st))).
Proof.
  intros Ef P. cbn [lower_funs] in P. rewrite Ef in P. destruct (lower_fun w f fd st) as [c st1] eqn:El. cbn [fst snd].
  apply placed_app in P. split; [|exact P]. apply (lower_fun_label R lab code w f fd st). rewrite El. exact (proj1 P).
Qed.
Lemma lower_funs_placed R lab code w funs : forall ord st p, placed R lab code (lower_funs w funs ord st) p ->
  Forall (fun f => nth_error funs f <> None) ord ->
  forall f, In f ord -> exists fd stf, nth_error funs f = Some fd /\ placed R lab code (fst (lower_fun w f fd stf)) (lab (func_label f)).
Proof.
  induction ord as [|g r IH]; intros st p P Ok f I; [contradiction|].
  inversion Ok as [|? ? Hg Okr]; subst. destruct (nth_error funs g) as [fd|] eqn:Eg; [|contradiction].
  destruct (lower_funs_cons R lab code w funs g r st p fd Eg P) as [Ep [Pc Pr]].
  destruct I as [->|I]; [|exact (IH _ _ Pr Okr f I)].
  exists fd, st. rewrite Ep. split; [exact Eg | exact Pc].
Qed.

(* the function labels func_<name>_0 are taken from the start: no counter ever produces them again *)
Definition fresh_st (st : lstate) : Prop := forall f, (1 <= st (LFunc f))%nat.
Lemma func_not_between st st' f : fresh_st st -> ~ between st st' (func_label f).
Proof. unfold between, func_label; cbn [fst snd]. intros H [A _]. specialize (H f). lia. Qed.
Lemma fresh_st_le st st' : fresh_st st -> st_le st st' -> fresh_st st'.
Proof. intros H L f. specialize (H f). specialize (L (LFunc f)). lia. Qed.
Lemma lower_fun_defs w f fd st c st1 : lower_fun w f fd st = (c, st1) ->
  st_le st st1 /\ exists L, deflabels c = func_label f :: L /\ Forall (between st st1) L /\ NoDup L.
Proof.
  unfold lower_fun. pose proof (defs_ok_label LNoOverflow st) as D1. destruct (add_label LNoOverflow st) as [no st'].
  destruct (lower_stmts (is_you_senv w (fn_params fd)) None (fn_body fd) st') as [[[cc S1] st2] ex] eqn:El.
  apply lower_stmts_defs_eq in El. destruct (defs_ok_app D1 El) as [M D].
  intros E. inversion E; subst c st1. split; [exact M|]. exists (deflabels ([ALabel no] ++ cc)). split; [reflexivity | exact D].
Qed.
Lemma lower_funs_defs w funs : forall ord st, fresh_st st -> NoDup ord ->
  exists st', st_le st st' /\ NoDup (deflabels (lower_funs w funs ord st)) /\
    Forall (fun x => (exists f, In f ord /\ x = func_label f) \/ between st st' x) (deflabels (lower_funs w funs ord st)).
Proof.
  induction ord as [|f r IH]; intros st Fr Nd; cbn [lower_funs].
  - exists st. split; [apply st_le_refl|]. split; constructor.
  - inversion Nd as [|? ? Nf Ndr]; subst. destruct (nth_error funs f) as [fd|].
    2:{ exists st. split; [apply st_le_refl|]. split; constructor. }
    destruct (lower_fun w f fd st) as [c st1] eqn:El. destruct (lower_fun_defs w f fd st c st1 El) as [M1 [L [EL [FL DL]]]].
    destruct (IH st1 (fresh_st_le st st1 Fr M1) Ndr) as [st' [M2 [Dr Fr']]].
    exists st'. split; [eapply st_le_trans; eauto|]. rewrite deflabels_app, EL. cbn [app].
    rewrite Forall_forall in FL, Fr'.
    assert (Dis : forall x, In x L -> In x (deflabels (lower_funs w funs r st1)) -> False).
    { intros x I1 I2. specialize (FL x I1). destruct (Fr' x I2) as [[g [_ ->]] | B].
      - exact (func_not_between st st1 g Fr FL).
      - unfold between in *. lia. }
    split.
    + constructor.
      * intro I. apply in_app_or in I. destruct I as [I|I].
        -- exact (func_not_between st st1 f Fr (FL _ I)).
        -- destruct (Fr' _ I) as [[g [Ig Eg]] | B].
           ++ unfold func_label in Eg. inversion Eg; subst g. contradiction.
           ++ exact (func_not_between st1 st' f (fresh_st_le st st1 Fr M1) B).
      * apply NoDup_app_intro; assumption.
    + apply Forall_forall. intros x [<- | I]; [left; exists f; split; [left; reflexivity | reflexivity]|].
      apply in_app_or in I. destruct I as [I|I].
      * right. specialize (FL x I). unfold between in *. specialize (M2 (fst x)). lia.
      * destruct (Fr' x I) as [[g [Ig ->]] | B]; [left; exists g; split; [right; exact Ig | reflexivity]|].
        right. unfold between in *. specialize (M1 (fst x)). lia.
Qed.
Lemma add_new_nodup new : forall seen, NoDup seen -> NoDup (add_new seen new).
Proof.
  induction new as [|f r IH]; intros seen Nd; cbn [add_new]; [exact Nd|]. apply IH.
  destruct (existsb (Nat.eqb f) seen) eqn:E; [exact Nd|].
  apply NoDup_app_intro; [exact Nd | constructor; [intros [] | constructor]|].
  intros x I1 [E' | []]. subst x. assert (existsb (Nat.eqb f) seen = true) by (apply existsb_exists; exists f; split; [exact I1 | apply Nat.eqb_refl]).
  congruence.
Qed.
Lemma gen_order_nodup funs fuel : forall seen k, NoDup seen -> NoDup (gen_order fuel funs seen k).
Proof.
  induction fuel as [|n IH]; intros seen k Nd; cbn [gen_order]; [exact Nd|].
  destruct (nth_error seen k); [|exact Nd]. apply IH. apply add_new_nodup. exact Nd.
Qed.
Theorem program_labels_nodup w funs : NoDup (deflabels (lower_program w funs)).
Proof.
  unfold lower_program.
  destruct (lower_funs_defs w funs (program_order funs) st_init) as [st' [_ [D _]]]; [intros f; cbn; lia | | exact D].
  unfold program_order. apply gen_order_nodup. constructor; [intros [] | constructor].
Qed.

(* the state section hidc emits: ap, fp, r0, r1, r2, the stack, the entry arguments (last parameter
   first), the return address of the entry point (all_is_win) *)
Record init_ok (w stack : Z) (args : list Z) (ra : Z) (ga : nat -> Z) (ginit : list Z) (gb : nat -> Z) (binit : list Z) (m : mem) : Prop := {
  io_wf : wf_mem m;
  io_ap : Machine.lw w m 0 = 5 * w;                                     (* ap: .word stack_start *)
  io_fp : Machine.lw w m w = (stack + Z.of_nat (length args) + 6) * w;  (* fp: .word stack_end *)
  io_sz : (stack + Z.of_nat (length args) + 6) * w <= msize m;
  io_ra : Machine.lw w m ((stack + Z.of_nat (length args) + 5) * w) = ra;
  io_args : forall k, (k < length args)%nat ->
            Machine.sgn w (Machine.lw w m ((stack + Z.of_nat (length args) + 6) * w - (Z.of_nat k + 2) * w)) = nth k args 0;
  (* the int globals: words after stack_end (at the addresses ga), pairwise apart, holding their initial values *)
  io_g : forall g, (g < length ginit)%nat -> (stack + Z.of_nat (length args) + 6) * w <= ga g < Machine.W w /\ inb m (ga g) w = true /\
                   Machine.sgn w (Machine.lw w m (ga g)) = nth g ginit 0;
  io_gd : forall g g', (g < length ginit)%nat -> (g' < length ginit)%nat -> g <> g' -> ga g + w <= ga g' \/ ga g' + w <= ga g;
  (* the bool globals: bytes after stack_end (at the addresses gb), apart from each other and from the words, holding 0 or 1 *)
  io_gb : forall h, (h < length binit)%nat -> (stack + Z.of_nat (length args) + 6) * w <= gb h < Machine.W w /\ inb m (gb h) 1 = true /\
                   Machine.lb m (gb h) = nth h binit 0 /\ (nth h binit 0 = 0 \/ nth h binit 0 = 1);
  io_gbd : (forall h h', (h < length binit)%nat -> (h' < length binit)%nat -> h <> h' -> gb h <> gb h') /\
           (forall g h, (g < length ginit)%nat -> (h < length binit)%nat -> gb h + 1 <= ga g \/ ga g + w <= gb h) }.
(* hidc's layout of the globals (glob_addr: after stack_end, in the order of first reference, a word
   per int global and a byte per bool global) satisfies the separation hypotheses of init_ok, for
   every program and all globals that the generated functions refer to *)
Definition gsize (w : Z) (r : gref) : Z := match r with GI _ => w | GB _ => 1 end.
Lemma gref_eqb_eq a b : gref_eqb a b = true <-> a = b.
Proof.
  destruct a as [g|g], b as [h|h]; cbn [gref_eqb]; rewrite ?Nat.eqb_eq; split; intros H; try discriminate; try congruence.
Qed.
Lemma gref_off_nonneg w r l : 0 <= w -> 0 <= gref_off w r l.
Proof.
  intros Hw. induction l as [|x t IH]; cbn [gref_off]; [lia|]. destruct (gref_eqb x r); [lia|]. destruct x; lia.
Qed.
Lemma gref_off_apart w l : 0 <= w -> forall r r', In r l -> In r' l -> r <> r' ->
  gref_off w r l + gsize w r <= gref_off w r' l \/ gref_off w r' l + gsize w r' <= gref_off w r l.
Proof.
  intros Hw. induction l as [|x t IH]; intros r r' I I' Ne; [destruct I|]. cbn [gref_off].
  destruct (gref_eqb x r) eqn:E; destruct (gref_eqb x r') eqn:E'.
  - apply gref_eqb_eq in E, E'. congruence.
  - apply gref_eqb_eq in E. subst x. left. pose proof (gref_off_nonneg w r' t Hw). unfold gsize. destruct r; lia.
  - apply gref_eqb_eq in E'. subst x. right. pose proof (gref_off_nonneg w r t Hw). unfold gsize. destruct r'; lia.
  - assert (It : In r t) by (destruct I as [->|I]; [|exact I]; assert (X : gref_eqb r r = true) by (apply gref_eqb_eq; reflexivity); congruence).
    assert (It' : In r' t) by (destruct I' as [->|I']; [|exact I']; assert (X : gref_eqb r' r' = true) by (apply gref_eqb_eq; reflexivity); congruence).
    destruct (IH r r' It It' Ne); [left | right]; lia.
Qed.
Theorem glob_addr_layout w stack nparams funs ng nbg : 0 <= w ->
  (forall g, (g < ng)%nat -> In (GI g) (globals_order funs)) ->
  (forall h, (h < nbg)%nat -> In (GB h) (globals_order funs)) ->
  let ga := fun g => glob_addr w stack nparams funs (GI g) in
  let gb := fun h => glob_addr w stack nparams funs (GB h) in
  (forall g, (stack + Z.of_nat nparams + 6) * w <= ga g) /\ (forall h, (stack + Z.of_nat nparams + 6) * w <= gb h) /\
  (forall g g', (g < ng)%nat -> (g' < ng)%nat -> g <> g' -> ga g + w <= ga g' \/ ga g' + w <= ga g) /\
  (forall h h', (h < nbg)%nat -> (h' < nbg)%nat -> h <> h' -> gb h <> gb h') /\
  (forall g h, (g < ng)%nat -> (h < nbg)%nat -> gb h + 1 <= ga g \/ ga g + w <= gb h).
Proof.
  intros Hw Hi Hb ga gb. unfold ga, gb, glob_addr. set (l := globals_order funs) in *. set (F := (stack + Z.of_nat nparams + 6) * w).
  split; [intros g; pose proof (gref_off_nonneg w (GI g) l Hw); lia|].
  split; [intros h; pose proof (gref_off_nonneg w (GB h) l Hw); lia|].
  split; [|split].
  - intros g g' Hg Hg' Ne. destruct (gref_off_apart w l Hw (GI g) (GI g') (Hi g Hg) (Hi g' Hg') ltac:(congruence)) as [X|X];
      cbn [gsize] in X; lia.
  - intros h h' Hh Hh' Ne. destruct (gref_off_apart w l Hw (GB h) (GB h') (Hb h Hh) (Hb h' Hh') ltac:(congruence)) as [X|X];
      cbn [gsize] in X; lia.
  - intros g h Hg Hh. destruct (gref_off_apart w l Hw (GI g) (GB h) (Hi g Hg) (Hb h Hh) ltac:(discriminate)) as [X|X];
      cbn [gsize] in X; lia.
Qed.
(* what the machine shows after the program's own output *)
Definition result_flags (res : cres) : list event :=
  match res with
  | CRet _ _ => [EFlag 0]                            (* all_is_win: flag win *)
  | CFault FDivZero => [EFlag 3; EFlag 1]            (* flag division_by_zero; flag error *)
  | CFault FStackOverflow => [EFlag 2; EFlag 1]      (* flag stack_overflow; flag error *)
  end.
Lemma init_regs w stack args ra dft lib ga ginit gb binit m : 1 <= w -> 0 <= stack ->
  (stack + Z.of_nat (length args) + 6) * w < Machine.W w / 2 ->
  init_ok w stack args ra ga ginit gb binit m ->
  let R := hidc_regs_gb w dft lib ga gb in
  LowerBoolProofs.FP w R m = (stack + Z.of_nat (length args) + 6) * w /\ regs_ok w R (5 * w) m.
Proof.
  intros Hw Hst Hfp In R. pose proof (io_sz _ _ _ _ _ _ _ _ _ In) as Sz.
  set (F := (stack + Z.of_nat (length args) + 6) * w) in *.
  assert (HF : LowerBoolProofs.FP w R m = F) by exact (io_fp _ _ _ _ _ _ _ _ _ In).
  assert (H6 : 6 * w <= F) by (apply Z.mul_le_mono_nonneg_r; lia).
  split; [exact HF|]. constructor; rewrite ?HF; cbn [R hidc_regs_gb a_r0 a_r1 a_r2 a_fp];
    try exact (io_wf _ _ _ _ _ _ _ _ _ In); try lia; apply inb_true; lia.
Qed.
(* the static side conditions, executable: every generated function exists, is well scoped, calls
   generated functions with the right number of arguments, and has a guard constant that is a word;
   the entry point comes first.  They make every generated function callable in the sense of
   stmts_runs, once the program's code is in place *)
Lemma checked_callable w ng nbg funs R lab code p :
  let ord := program_order funs in
  let cf := fun f k => cf_b funs ord f k = true in
  forallb (fun_ok_b w ng nbg funs ord) ord = true -> lib_hyps w R code ->
  placed R lab code (lower_program w funs) p ->
  forall f k, cf f k -> exists fd st, nth_error funs f = Some fd /\ fn_params fd = k /\
    0 <= fun_need w fd < Machine.W w / 2 /\ placed R lab code (fst (lower_fun w f fd st)) (lab (func_label f)) /\
    ssscoped w ng nbg (lib_hyps w R code) cf k 0%nat false (fn_body fd).
Proof.
  intros ord cf Hfs Hl P f k Hc. rewrite forallb_forall in Hfs.
  apply andb_true_iff in Hc. destruct Hc as [Hin Hk]. apply existsb_exists in Hin. destruct Hin as [g [Ig Eg]].
  apply Nat.eqb_eq in Eg. subst g.
  assert (Ov : Forall (fun f => nth_error funs f <> None) ord).
  { apply Forall_forall. intros g I. specialize (Hfs g I). unfold fun_ok_b in Hfs. destruct (nth_error funs g); discriminate. }
  destruct (lower_funs_placed R lab code w funs ord st_init p P Ov f Ig) as [fd [stf [Efd Pf]]].
  specialize (Hfs f Ig). unfold fun_ok_b in Hfs. rewrite Efd in Hfs, Hk. apply Nat.eqb_eq in Hk.
  apply andb_true_iff in Hfs. destruct Hfs as [Hfs Hsc]. apply andb_true_iff in Hfs. destruct Hfs as [Hn0 Hn1].
  apply Z.leb_le in Hn0. apply Z.ltb_lt in Hn1.
  exists fd, stf. repeat split; try assumption. rewrite <- Hk.
  exact (proj2 (scoped_b_ok w ng nbg (cf_b funs ord) (lib_hyps w R code) cf Hl (fun _ _ H => H)) _ _ _ _ Hsc).
Qed.
Section Program.
Variable w : Z.
Hypothesis Hw : 2 <= w.
Variable funs : list fundef.
Variable stack : Z.                (* hidc -s: words of stack *)
Variable args : list Z.            (* the values of the entry point's parameters *)
Variable dft : Z.                  (* where a `defeat` word would be (not used by the fragment) *)
Variable ga : nat -> Z.            (* the addresses of the int globals (hidc: the words after stack_end) *)
Variable ginit : list Z.           (* their initial values *)
Variable gb : nat -> Z.            (* the addresses of the bool globals (bytes after stack_end) *)
Variable binit : list Z.           (* their initial values (0 or 1) *)
Variable cmem : mem.
Let C := lower_program w funs.
Let lib := size C.
Let R := hidc_regs_gb w dft lib ga gb.
Let ng := length ginit.
Let nbg := length binit.
Let ext0 : label -> Z := fun _ => 0.
Let prog := resolve R ext0 0 C ++ stdlib_code w lib.
Let code := code_of prog.
Notation act := (Machine.act w code cmem).
Notation Halts := (HidV.Sphinx.Halts.Halts act).
Notation runs := (HidV.Sphinx.Halts.runs act).
Notation csteps := (HidV.Sphinx.Halts.csteps act).
Let n := Z.of_nat (length args).

(* For every program of the fragment that passes the static check, every
   stack size, all argument values: if the source semantics (with the stack accounting of the
   checked build) says that the entry point, called with d = (stack + n + 1) * w bytes of stack,
   emits the bytes evs and returns / faults, then the machine started at address 0 on the image
   hidc lays out emits exactly these bytes, then the flags of all_is_win (resp. of the fault
   stub), then sleeps forever: it never halts. *)
Theorem program_lowering_correct evs res m0 :
  prog_ok_b w ng nbg funs (length args) = true ->
  0 <= stack -> lib + stdlib_len <= Machine.W w -> (stack + n + 6) * w < Machine.W w / 2 ->
  init_ok w stack args (lib + off_all_is_win) ga ginit gb binit m0 ->
  callf w funs ((stack + n + 1) * w) 0 args (ginit, binit) evs res ->
  exists m', runs (mk 0 m0) (map EOut evs ++ result_flags res) (tnt lib m') /\
             ~ Halts (mk 0 m0) /\
             forall k, csteps (mk 0 m0) (map EOut evs ++ result_flags res ++ repeat sleep_ev k) (tnt lib m').
Proof.
  intros Hok Hst Hlib Hfp Hin Hc. assert (Hw1 : 1 <= w) by lia.
  unfold prog_ok_b in Hok. set (ord := program_order funs) in *.
  apply andb_true_iff in Hok. destruct Hok as [Hok Hcf0]. apply andb_true_iff in Hok. destruct Hok as [Hhd Hfs].
  assert (HWp : Machine.W w / 2 < Machine.W w) by (pose proof (W_even w Hw1); pose proof (half_pos w Hw1); lia).
  assert (Hlen : stdlib_len = 108) by reflexivity. assert (Hsz : 0 <= lib) by apply size_nonneg.
  destruct (resolved_placed code R ext0 0 C (Machine.W w)) as [P LR];
    [intros x; unfold ext0; lia | apply program_labels_nodup | apply code_at_code_of_app | lia | fold lib; lia |].
  set (lab := labenv ext0 0 C) in *.
  assert (Hl : lib_hyps w R code).
  { unfold lib_hyps, R, hidc_regs_gb; cbn [a_fp a_r0 a_r1 a_r2 a_lib a_ap]. repeat split; try lia.
    apply (lib_at_after w _ lib). unfold resolve. rewrite length_instrs. reflexivity. }
  pose proof (checked_callable w ng nbg funs R lab code 0 Hfs Hl P) as Cfk. fold ord in Cfk.
  assert (E0 : lab (func_label 0) = 0).
  { destruct (Cfk 0%nat _ Hcf0) as [fd [_ [Efd _]]]. destruct ord as [|[|?] r] eqn:Eo; try discriminate Hhd.
    unfold C, lower_program in P. fold ord in P. rewrite Eo in P. exact (proj1 (lower_funs_cons R lab code w funs 0 r st_init 0 fd Efd P)). }
  destruct (init_regs w stack args _ dft lib ga ginit gb binit m0 Hw1 Hst Hfp Hin) as [HF L]. fold R n in HF, L.
  destruct Hin as [_ Iap _ Isz Ira Iargs Ig Igd Ib Ibd]. fold n in Isz, Ira, Iargs. set (F := (stack + n + 6) * w) in *.
  pose proof (proj2 (proj2 (stmts_runs w R (5 * w) w Hw code cmem lab LR funs _ eq_refl F ng nbg ltac:(unfold F; nia) Cfk))
                _ 0%nat args (ginit, binit) evs res Hc m0 Hl Hcf0 L) as Sp. rewrite HF in Sp.
  destruct (Sp ltac:(unfold F; lia) ltac:(unfold F; nia) Isz (fun _ => Iap) Iargs (Z.le_refl F)
              (conj (conj eq_refl Ig) (conj eq_refl Ib)) (conj Igd Ibd)) as [m' Res].
  rewrite E0 in Res.
  destruct Hl as [_ [_ [_ [_ [CAl [BR _]]]]]]. exists m'.
  assert (Ab : exists pcs, runs (mk 0 m0) (map EOut evs) (mk pcs m') /\ absorbed w code cmem lib (mk pcs m') (result_flags res)).
  { destruct res as [v G|ft].
    - exists (lib + off_all_is_win). split; [|exact (all_is_win_absorbing w code cmem lib Hw CAl BR m')].
      destruct Res as [Rn _]. replace (F - w) with ((stack + n + 5) * w) in Rn by (unfold F; lia). rewrite Ira in Rn. exact Rn.
    - exists (lib + fault_off ft). split; [exact Res|].
      destruct ft; [exact (division_by_zero_absorbing w code cmem lib Hw CAl BR m') | exact (stack_overflow_absorbing w code cmem lib Hw CAl BR m')]. }
  destruct Ab as [pcs [Rn [Nh [Rt [_ Cs]]]]]. cbn [mm] in Rt, Cs. destruct (runs_not_halts act _ _ _ Rn Nh) as [N0 C0].
  split; [eapply runs_trans; [exact Rn | exact Rt]|]. split; [exact N0|].
  intros k. eapply csteps_app; [exact C0 | apply Cs].
Qed.
(* in particular (C03 for these programs): the compiled program never halts *)
Corollary program_never_halts evs res m0 :
  prog_ok_b w ng nbg funs (length args) = true ->
  0 <= stack -> lib + stdlib_len <= Machine.W w -> (stack + n + 6) * w < Machine.W w / 2 ->
  init_ok w stack args (lib + off_all_is_win) ga ginit gb binit m0 ->
  callf w funs ((stack + n + 1) * w) 0 args (ginit, binit) evs res ->
  ~ Halts (mk 0 m0).
Proof.
  intros H1 H2 H3 H4 H5 H6. destruct (program_lowering_correct evs res m0 H1 H2 H3 H4 H5 H6) as [m' [_ [N _]]]. exact N.
Qed.
(* with computable hypotheses: the static conditions as one boolean, the source run as a result of
   the interpreter *)
Corollary program_run_computed fuel evs res m0 :
  run_ok_b w ng nbg funs stack (length args) = true ->
  init_ok w stack args (lib + off_all_is_win) ga ginit gb binit m0 ->
  icall w funs fuel ((stack + n + 1) * w) 0 args (ginit, binit) = Some (evs, res) ->
  exists m', runs (mk 0 m0) (map EOut evs ++ result_flags res) (tnt lib m') /\ ~ Halts (mk 0 m0).
Proof.
  intros Hok Hin Hc. unfold run_ok_b in Hok.
  apply andb_true_iff in Hok. destruct Hok as [Hok H4]. apply andb_true_iff in Hok. destruct Hok as [Hok H3].
  apply andb_true_iff in Hok. destruct Hok as [H1 H2]. apply Z.leb_le in H2, H3. apply Z.ltb_lt in H4.
  destruct (program_lowering_correct evs res m0 H1 H2 H3 H4 Hin (proj2 (proj2 (interp_sound w funs fuel)) _ _ _ _ _ _ Hc)) as [m' [Rn [Nh _]]].
  exists m'. split; [exact Rn | exact Nh].
Qed.
End Program.

Lemma istmts_exec w funs fuel d ss s0 e :
  match istmts w funs fuel d ss s0 with Some (e', ONormal, _) => e' = e | _ => False end ->
  exists s1, execs w funs d ss s0 e ONormal s1.
Proof.
  intros H. pose proof (proj1 (proj2 (interp_run w funs fuel)) d ss s0) as X.
  destruct (istmts w funs fuel d ss s0) as [[[e' out] s1]|]; [|contradiction].
  destruct out; try contradiction. subst e'. exists s1. exact X.
Qed.
(* satisfiability examples: w = 2, hidc's register layout, a 64-byte state section *)
Section ExamplesS.
(* int x = a + 1; bool p = x < b;
   while (x < 9) { write((x + 48) is byte); if (x == 7) { break; } x += 1; }
   if (p and c != 2) { write('A'); } else { writeln(); }
   { int k = c * c; write(k is byte); } *)
Definition sx_ss : stmts :=
  SCons (SDeclI (OArith SAdd (OVar 0) (OLit false 1)))
  (SCons (SDeclB (BCmp SLt (OVar 3) (OVar 1)))
  (SCons (SWhile (BCmp SLt (OVar 3) (OLit false 9))
            (SCons (SWrite (WrByte (OArith SAdd (OVar 3) (OLit false 48))))
            (SCons (SIf (BCmp SEq (OVar 3) (OLit false 7)) (SCons SBreak SNil) SNil)
            (SCons (SAssignI 3 (OArith SAdd (OVar 3) (OLit false 1))) SNil)))
            SNil)
  (SCons (SIf (BAnd (BVar (BLocal 0)) (BCmp SNe (OVar 2) (OLit false 2))) (SCons (SWrite (WrChar 65)) SNil) (SCons SWriteln SNil))
  (SCons (SBlock (SCons (SDeclI (OArith SMul (OVar 2) (OVar 2))) (SCons (SWrite (WrByte (OVar 4))) SNil)))
   SNil)))).
Definition sx_S : senv := is_you_senv 2 3.
Definition sx_st : lstate := fun _ => 0%nat.
Definition sx_s0 : store := mkstore [5; 7; 2] [] [] [].
Definition sx_out : list Z := [54; 55; 10; 4].
Definition sx_code : list aline := fst (lower_body sx_S sx_ss sx_st).
Definition sx_ra : Z := size sx_code.            (* the caller: an absorbing stub right after the body *)
Definition sx_ext (l : label) : Z := 0.
Definition sx_prog : list instr := resolve (hidc_regs 2 62 200) sx_ext 0 sx_code ++ [IJ (Imm sx_ra); IHalt].
(* ap = 40 (the stack area starts there); fp = 60; return address at 58; a = 5 at 56, b = 7 at 54, c = 2 at 52 *)
Definition sx_mem : mem :=
  Machine.sw 2 (Machine.sw 2 (Machine.sw 2 (Machine.sw 2 (Machine.sw 2 (Machine.sw 2 ex_zero 0 40) 2 60) 58 sx_ra) 56 5) 54 7) 52 2.

Example sx_exec : exists s1, execs 2 [] 20 sx_ss sx_s0 sx_out ONormal s1.
Proof. apply (istmts_exec 2 [] 40). vm_compute. reflexivity. Qed.
Lemma sx_wf : wf_senv 2 2 sx_S.
Proof. exact (wf_fun_senv 2 2 ltac:(lia) eq_refl 3). Qed.
(* the frame both body examples start in, as far as `rep` looks at it: a 64-byte state section,
   [ap] = lo, [fp] = 60, the arguments 5, 7, 2 below the return-address slot at 58 *)
Lemma ex_rep lo lib m : wf_mem m -> msize m = 64 -> 10 <= lo <= 52 ->
  Machine.lw 2 m 0 = lo -> Machine.lw 2 m 2 = 60 ->
  Machine.lw 2 m 56 = 5 -> Machine.lw 2 m 54 = 7 -> Machine.lw 2 m 52 = 2 ->
  rep 2 (hidc_regs 2 62 lib) lo 60 0 0 sx_S sx_s0 m.
Proof.
  intros Wf Sz Hlo Ap Fp A0 A1 A2. set (R := hidc_regs 2 62 lib).
  assert (HF : LowerBoolProofs.FP 2 R m = 60) by exact Fp.
  assert (HW : Machine.W 2 / 2 = 32768) by reflexivity.
  apply (rep_fun_entry 2 R lo 60 0 0 3 [5; 7; 2] ([], []) m); rewrite ?HF, ?HW; try lia.
  - reflexivity.
  - constructor; rewrite ?HF, ?HW; cbn [R hidc_regs hidc_regs_g hidc_regs_gb a_r0 a_r1 a_r2 a_fp];
      try exact Wf; try lia; apply inb_true; lia.
  - intros _. exact Ap.
  - intros k Hk. destruct k as [|[|[|k]]]; [exact (f_equal (Machine.sgn 2) A0) | exact (f_equal (Machine.sgn 2) A1) | exact (f_equal (Machine.sgn 2) A2) | lia].
  - split; (split; [reflexivity | intros g Hg; lia]).
  - split; [|split]; intros; lia.
Qed.
Lemma sx_wf_mem a b c d e f : wf_mem (Machine.sw 2 (Machine.sw 2 (Machine.sw 2 (Machine.sw 2 (Machine.sw 2 (Machine.sw 2 ex_zero 0 a) 2 b) 58 c) 56 d) 54 e) 52 f).
Proof. repeat (apply (wf_sw 2); [|lia]). apply wf_ex_zero. Qed.
Lemma sx_rep : rep 2 (hidc_regs 2 62 200) 40 60 0 0 sx_S sx_s0 sx_mem.
Proof. apply ex_rep; try apply sx_wf_mem; try lia; vm_compute; reflexivity. Qed.
Lemma sx_scoped ng nbg lib cf : ssscoped 2 ng nbg lib cf 3 0 false sx_ss.
Proof. cbn. change (Machine.W 2 / 2) with 32768. repeat split; try lia; exact I. Qed.

(* the theorem applies: the body runs to the return address, emitting the source's output *)
Example body_lowering_ex :
  exists m', HidV.Sphinx.Halts.runs (Machine.act 2 (code_of sx_prog) (zmem 0)) (mk 0 sx_mem) (map EOut sx_out) (mk sx_ra m').
Proof.
  destruct sx_exec as [s1 Hx].
  destruct (body_lowering_correct 2 ltac:(lia) (code_of sx_prog) (zmem 0) (hidc_regs 2 62 200) 40 sx_ext
              ltac:(intros x; vm_compute; split; [discriminate | reflexivity])
              [] 60 0%nat 0%nat ltac:(lia) sx_ss 20 sx_s0 sx_out s1 sx_S sx_st 0 sx_mem Hx) as [m' [Rn _]].
  - apply code_at_code_of_app.
  - lia.
  - vm_compute. reflexivity.
  - apply sx_wf.
  - reflexivity.
  - apply sx_rep.
  - vm_compute. reflexivity.
  - apply sx_scoped.
  - vm_compute. intro; discriminate.
  - exists m'. replace (Machine.lw 2 sx_mem (LowerBoolProofs.FP 2 (hidc_regs 2 62 200) sx_mem - 2)) with sx_ra in Rn by (vm_compute; reflexivity).
    exact Rn.
Qed.

(* end to end on the verified VM: the resolved model output, started in the state section below,
   is absorbed in the caller stub after emitting exactly the output of the source semantics *)
Definition sx_bytes : list Z := map (fun a => getb sx_mem (Z.of_nat a)) (seq 0 64).
Example body_vm_run_ex :
  match run_program 2 sx_bytes [] sx_prog [] mon_none 2000 with
  | OAbsorbed evs s _ => evs = map EOut sx_out /\ pc s = sx_ra
  | _ => False
  end.
Proof. vm_compute. split; reflexivity. Qed.
End ExamplesS.

(* a program that prints numbers, with the runtime library in the code *)
Section ExamplesLib.
(* int x = a * 100; writeln(x - 7); write(x > b);   with a = 5, b = 7:  "493\n" then "true" *)
Definition lx_ss : stmts :=
  SCons (SDeclI (OArith SMul (OVar 0) (OLit false 100)))
  (SCons (SWriteI true (OArith SSub (OVar 3) (OLit false 7)))
  (SCons (SWriteB false (BCmp SGt (OVar 3) (OVar 1))) SNil)).
Definition lx_out : list Z := [52; 57; 51; 10; 116; 114; 117; 101].
Definition lx_code : list aline := fst (lower_body sx_S lx_ss sx_st).
Definition lx_lib : Z := size lx_code.              (* the library follows the function *)
Definition lx_regs : regmap := hidc_regs 2 62 lx_lib.
Definition lx_prog : list instr := resolve lx_regs sx_ext 0 lx_code ++ stdlib_code 2 lx_lib.
(* ap = 10 = stack_start; the entry return address is all_is_win, the first label of the library *)
Definition lx_mem : mem :=
  Machine.sw 2 (Machine.sw 2 (Machine.sw 2 (Machine.sw 2 (Machine.sw 2 (Machine.sw 2 ex_zero 0 10) 2 60) 58 lx_lib) 56 5) 54 7) 52 2.

Example lx_exec : exists s1, execs 2 [] 50 lx_ss sx_s0 lx_out ONormal s1.
Proof. apply (istmts_exec 2 [] 10). vm_compute. reflexivity. Qed.
Lemma lx_lib_hyps : lib_hyps 2 lx_regs (code_of lx_prog).
Proof.
  unfold lib_hyps. repeat split; try reflexivity; try (vm_compute; intro; discriminate).
  apply (lib_at_after 2 _ lx_lib). vm_compute. reflexivity.
Qed.
Lemma lx_rep : rep 2 lx_regs 10 60 0 0 sx_S sx_s0 lx_mem.
Proof. apply ex_rep; try apply sx_wf_mem; try lia; vm_compute; reflexivity. Qed.
Example lib_body_lowering_ex :
  exists m', HidV.Sphinx.Halts.runs (Machine.act 2 (code_of lx_prog) (zmem 0)) (mk 0 lx_mem) (map EOut lx_out) (mk lx_lib m').
Proof.
  destruct lx_exec as [s1 Hx].
  destruct (body_lowering_correct 2 ltac:(lia) (code_of lx_prog) (zmem 0) lx_regs 10 sx_ext
              ltac:(intros x; vm_compute; split; [discriminate | reflexivity])
              [] 60 0%nat 0%nat ltac:(lia) lx_ss 50 sx_s0 lx_out s1 sx_S sx_st 0 lx_mem Hx) as [m' [Rn _]].
  - apply code_at_code_of_app.
  - lia.
  - vm_compute. reflexivity.
  - apply sx_wf.
  - reflexivity.
  - apply lx_rep.
  - vm_compute. reflexivity.
  - exact (proj2 (scoped_b_ok 2 0 0 (fun _ _ => false) _ no_calls lx_lib_hyps ltac:(intros f k H; discriminate H)) lx_ss 3%nat 0%nat false ltac:(vm_compute; reflexivity)).
  - vm_compute. intro; discriminate.
  - exists m'. replace (Machine.lw 2 lx_mem (LowerBoolProofs.FP 2 lx_regs lx_mem - 2)) with lx_lib in Rn by (vm_compute; reflexivity).
    exact Rn.
Qed.
(* end to end on the verified VM: the program prints "493\n" and "true", returns into all_is_win,
   raises the win flag and is absorbed *)
Definition lx_bytes : list Z := map (fun a => getb lx_mem (Z.of_nat a)) (seq 0 64).
Example lib_body_vm_run_ex :
  match run_program 2 lx_bytes [] lx_prog [] mon_none 5000 with
  | OAbsorbed evs s _ => firstn 9 evs = map EOut lx_out ++ [EFlag 0]
  | _ => False
  end.
Proof. vm_compute. reflexivity. Qed.
End ExamplesLib.

(* a whole program: recursion, division, all three ways to end *)
Section ExamplesProg.
(* int f1(int p0) { if (p0 < 2) { return 1; } int r = f1(p0 - 1); return r * p0; }
   empty @is_you(int a0) { int x = f1(a0); writeln(x); int q = x / (a0 - 5); writeln(q % 7); return; } *)
Definition px_funs : list fundef :=
  [ mkfun 1 (SCons (SCall DDecl 1 [OVar 0])
            (SCons (SWriteI true (OVar 1))
            (SCons (SDeclDiv SDiv (OVar 1) (OArith SSub (OVar 0) (OLit false 5)))
            (SCons (SDeclDiv SMod (OVar 2) (OLit false 7))
            (SCons (SWriteI true (OVar 3))
            (SCons (SReturn None) SNil))))));
    mkfun 1 (SCons (SIf (BCmp SLt (OVar 0) (OLit false 2)) (SCons (SReturn (Some (OLit false 1))) SNil) SNil)
            (SCons (SCall DDecl 1 [OArith SSub (OVar 0) (OLit false 1)])
            (SCons (SReturn (Some (OArith SMul (OVar 1) (OVar 0)))) SNil))) ].
Definition px_code : list aline := lower_program 2 px_funs.
Definition px_lib : Z := size px_code.
Definition px_prog : list instr := resolve (hidc_regs 2 0 px_lib) (fun _ => 0) 0 px_code ++ stdlib_code 2 px_lib.
(* the image of hidc's state section for `-s stack`: ap, fp, r0..r2, the stack, the argument, all_is_win *)
Definition px_mem (stack a0 : Z) : mem :=
  let F := (stack + 7) * 2 in
  Machine.sw 2 (Machine.sw 2 (Machine.sw 2 (Machine.sw 2 (mkmem F (FMapPositive.PositiveMap.empty Z)) 0 10) 2 F) (F - 2) px_lib) (F - 4) a0.
(* the same image with the code size and the size of the state section as parameters:
   px_mem stack a0 = ex_image stack px_lib a0 ((stack + 7) * 2), bx_mem a0 = ex_image 40 bx_lib a0 94;
   gx_mem and tx_mem are ex_image 40 _ a0 _ with the word of the int global written after it *)
Definition ex_image (stack lib a0 sz : Z) : mem :=
  let F := (stack + 7) * 2 in
  Machine.sw 2 (Machine.sw 2 (Machine.sw 2 (Machine.sw 2 (mkmem sz (FMapPositive.PositiveMap.empty Z)) 0 10) 2 F) (F - 2) lib) (F - 4) a0.
Lemma ex_init stack lib a0 sz : 0 <= stack <= 100 -> (stack + 7) * 2 <= sz -> 0 <= lib <= 60000 -> - 1000 <= a0 <= 1000 ->
  init_ok 2 stack [a0] (lib + off_all_is_win) (fun _ => 0) [] (fun _ => 0) [] (ex_image stack lib a0 sz).
Proof.
  intros Hs Hz Hl Ha. unfold ex_image. set (F := (stack + 7) * 2).
  assert (Wz : wf_mem (mkmem sz (FMapPositive.PositiveMap.empty Z))) by (intros a; unfold getb; cbn [mdata]; rewrite FMapPositive.PositiveMap.gempty; lia).
  assert (HW : Machine.W 2 = 65536) by reflexivity.
  constructor; cbn [length]; change (Z.of_nat 1) with 1.
  - repeat (apply (wf_sw 2); [|lia]). exact Wz.
  - rewrite !(lw_sw_other 2) by lia. rewrite (lw_sw_same 2) by lia. reflexivity.
  - rewrite !(lw_sw_other 2) by lia. rewrite (lw_sw_same 2) by lia. rewrite (wrap_small 2) by (unfold inrange; lia). unfold F. lia.
  - rewrite !msize_sw. cbn [msize]. lia.
  - replace ((stack + 1 + 5) * 2) with (F - 2) by (unfold F; lia). rewrite (lw_sw_other 2) by lia. rewrite (lw_sw_same 2) by lia.
    rewrite (wrap_small 2) by (unfold inrange; lia). unfold off_all_is_win. lia.
  - intros k Hk. destruct k as [|k]; [|cbn in Hk; lia]. cbn [nth]. change (Z.of_nat 0) with 0.
    replace ((stack + 1 + 6) * 2 - (0 + 2) * 2) with (F - 4) by (unfold F; lia). rewrite (lw_sw_same 2) by lia.
    apply (sgn_wrap_small 2); [lia|]. change (Machine.W 2 / 2) with 32768. lia.
  - intros g Hg. cbn in Hg. lia.
  - intros g g' Hg. cbn in Hg. lia.
  - intros g Hg. cbn in Hg. lia.
  - split; intros ? ? Hg; cbn in Hg; lia.
Qed.
Lemma px_init stack a0 : 0 <= stack <= 100 -> - 1000 <= a0 <= 1000 -> init_ok 2 stack [a0] (px_lib + off_all_is_win) (fun _ => 0) [] (fun _ => 0) [] (px_mem stack a0).
Proof. intros Hs Ha. apply (ex_init stack px_lib a0 ((stack + 7) * 2) Hs (Z.le_refl _)); [vm_compute; split; discriminate | exact Ha]. Qed.
Lemma px_ok : prog_ok_b 2 0 0 px_funs 1 = true.
Proof. vm_compute. reflexivity. Qed.
(* the source semantics, computed: 4! = 24, 24 / (4 - 5) = -24, -24 % 7 = 4;  5! = 120, then 120 / 0;
   with 8 words of stack the recursion does not fit *)
Definition px_out4 : list Z := [50; 52; 10; 52; 10].
Definition px_out5 : list Z := [49; 50; 48; 10].
Notation px_act := (Machine.act 2 (code_of px_prog) (zmem 0)).
Example program_returns_ex : exists m',
  HidV.Sphinx.Halts.runs px_act (mk 0 (px_mem 40 4)) (map EOut px_out4 ++ [EFlag 0]) (tnt px_lib m') /\
  ~ HidV.Sphinx.Halts.Halts px_act (mk 0 (px_mem 40 4)).
Proof.
  exact (program_run_computed 2 ltac:(lia) px_funs 40 [4] 0 (fun _ => 0) [] (fun _ => 0) [] (zmem 0) 100 px_out4 (CRet None ([], [])) (px_mem 40 4)
           ltac:(vm_compute; reflexivity) (px_init 40 4 ltac:(lia) ltac:(lia)) ltac:(vm_compute; reflexivity)).
Qed.
Example program_divides_by_zero_ex : exists m',
  HidV.Sphinx.Halts.runs px_act (mk 0 (px_mem 40 5)) (map EOut px_out5 ++ [EFlag 3; EFlag 1]) (tnt px_lib m') /\
  ~ HidV.Sphinx.Halts.Halts px_act (mk 0 (px_mem 40 5)).
Proof.
  exact (program_run_computed 2 ltac:(lia) px_funs 40 [5] 0 (fun _ => 0) [] (fun _ => 0) [] (zmem 0) 100 px_out5 (CFault FDivZero) (px_mem 40 5)
           ltac:(vm_compute; reflexivity) (px_init 40 5 ltac:(lia) ltac:(lia)) ltac:(vm_compute; reflexivity)).
Qed.
Example program_overflows_ex : exists m',
  HidV.Sphinx.Halts.runs px_act (mk 0 (px_mem 8 4)) [EFlag 2; EFlag 1] (tnt px_lib m') /\
  ~ HidV.Sphinx.Halts.Halts px_act (mk 0 (px_mem 8 4)).
Proof.
  exact (program_run_computed 2 ltac:(lia) px_funs 8 [4] 0 (fun _ => 0) [] (fun _ => 0) [] (zmem 0) 100 [] (CFault FStackOverflow) (px_mem 8 4)
           ltac:(vm_compute; reflexivity) (px_init 8 4 ltac:(lia) ltac:(lia)) ltac:(vm_compute; reflexivity)).
Qed.
(* the same three runs on the verified VM *)
Definition px_bytes (stack a0 : Z) : list Z := map (fun a => getb (px_mem stack a0) (Z.of_nat a)) (seq 0 (Z.to_nat ((stack + 7) * 2))).
Example program_vm_run_ex :
  match run_program 2 (px_bytes 40 4) [] px_prog [] mon_none 4000 with
  | OAbsorbed evs _ _ => firstn 6 evs = map EOut px_out4 ++ [EFlag 0]
  | _ => False
  end /\
  match run_program 2 (px_bytes 40 5) [] px_prog [] mon_none 4000 with
  | OAbsorbed evs _ _ => firstn 6 evs = map EOut px_out5 ++ [EFlag 3; EFlag 1]
  | _ => False
  end /\
  match run_program 2 (px_bytes 8 4) [] px_prog [] mon_none 4000 with
  | OAbsorbed evs _ _ => firstn 2 evs = [EFlag 2; EFlag 1]
  | _ => False
  end.
Proof. vm_compute. repeat split; reflexivity. Qed.

(* a program with an int global and a bool global, both read and assigned:
     int g0 = 5;  bool h0 = false;
     empty @is_you(int a0) { g0 = g0 + a0; h0 = g0 > 6; if (h0) { write('Y'); } else { write('N'); }
                             write(g0 is byte); writeln(g0); g0 /= a0 - 4; writeln(-g0); return; } *)
Definition gx_funs : list fundef :=
  [ mkfun 1 (SCons (SAssignG 0 (OArith SAdd (OGlob 0) (OVar 0)))
            (SCons (SAssignBG 0 (BCmp SGt (OGlob 0) (OLit false 6)))
            (SCons (SIf (BVar (BGlobal 0)) (SCons (SWrite (WrChar 89)) SNil) (SCons (SWrite (WrChar 78)) SNil))
            (SCons (SWrite (WrByte (OGlob 0)))
            (SCons (SWriteI true (OGlob 0))
            (SCons (SAssignGDiv 0 SDiv (OGlob 0) (OArith SSub (OVar 0) (OLit false 4)))
            (SCons (SWriteI true (OUn UNeg (OGlob 0)))
            (SCons (SReturn None) SNil)))))))) ].
Definition gx_code : list aline := lower_program 2 gx_funs.
Definition gx_lib : Z := size gx_code.
(* hidc's layout (-s 40, one parameter): stack_end = 94; var_g0_0 at 94 (.word 5), var_h0_0 at 96 (.byte 0) *)
Definition gx_ga (g : nat) : Z := glob_addr 2 40 1 gx_funs (GI g).
Definition gx_gb (h : nat) : Z := glob_addr 2 40 1 gx_funs (GB h).
Definition gx_prog : list instr := resolve (hidc_regs_gb 2 0 gx_lib gx_ga gx_gb) (fun _ => 0) 0 gx_code ++ stdlib_code 2 gx_lib.
Definition gx_mem (a0 : Z) : mem :=
  Machine.sw 2 (Machine.sw 2 (Machine.sw 2 (Machine.sw 2 (Machine.sw 2 (mkmem 97 (FMapPositive.PositiveMap.empty Z)) 0 10) 2 94) 92 gx_lib) 90 a0) 94 5.
Example gx_layout : gx_ga 0 = 94 /\ gx_gb 0 = 96.
Proof. vm_compute. split; reflexivity. Qed.
(* the image of px_mem for -s 40 with one int global (5, at stack_end) and at most one bool global (false, after it) *)
Lemma ex_init_g lib a0 sz ga gb binit : 0 <= lib <= 60000 -> - 1000 <= a0 <= 1000 -> ga 0%nat = 94 ->
  96 + Z.of_nat (length binit) <= sz -> (forall h, (h < length binit)%nat -> h = 0%nat /\ gb h = 96 /\ nth h binit 0 = 0) ->
  init_ok 2 40 [a0] (lib + off_all_is_win) ga [5] gb binit (Machine.sw 2 (ex_image 40 lib a0 sz) 94 5).
Proof.
  intros Hl Ha G0 Hz Hb.
  destruct (ex_init 40 lib a0 sz ltac:(lia) ltac:(lia) Hl Ha) as [Iwf Iap Ifp Isz Ira Iargs _ _ _ _].
  assert (HW : Machine.W 2 = 65536) by reflexivity.
  assert (Sz : msize (ex_image 40 lib a0 sz) = sz) by (unfold ex_image; rewrite !msize_sw; reflexivity).
  constructor; cbn [length] in *; change (Z.of_nat 1) with 1 in *.
  - apply (wf_sw 2); [exact Iwf | lia].
  - rewrite (lw_sw_other 2) by lia. exact Iap.
  - rewrite (lw_sw_other 2) by lia. exact Ifp.
  - rewrite msize_sw. exact Isz.
  - rewrite (lw_sw_other 2) by lia. exact Ira.
  - intros k Hk. rewrite (lw_sw_other 2) by lia. exact (Iargs k Hk).
  - intros g Hg. replace g with 0%nat by lia. rewrite G0, HW. split; [lia|].
    split; [apply inb_true; rewrite ?msize_sw, ?Sz; lia | rewrite (lw_sw_same 2) by lia; reflexivity].
  - intros g g' Hg Hg'. lia.
  - intros h Hh. destruct (Hb h Hh) as [-> [-> ->]]. rewrite HW. split; [lia|].
    split; [apply inb_true; rewrite ?msize_sw, ?Sz; lia|]. split; [|left; reflexivity].
    unfold Machine.lb, ex_image. rewrite !(getb_sw_other 2) by lia. unfold getb; cbn [mdata]. now rewrite FMapPositive.PositiveMap.gempty.
  - split.
    + intros h h' Hh Hh'. destruct (Hb h Hh) as [-> _], (Hb h' Hh') as [-> _]. intros []; reflexivity.
    + intros g h Hg Hh. replace g with 0%nat by lia. destruct (Hb h Hh) as [_ [-> _]]. rewrite G0. lia.
Qed.
Lemma gx_init a0 : - 1000 <= a0 <= 1000 -> init_ok 2 40 [a0] (gx_lib + off_all_is_win) gx_ga [5] gx_gb [0] (gx_mem a0).
Proof.
  intros Ha. apply (ex_init_g gx_lib a0 97); [vm_compute; split; discriminate | exact Ha | vm_compute; reflexivity | cbn [length]; lia|].
  intros h Hh. replace h with 0%nat by (cbn [length] in Hh; lia). split; [reflexivity | split; [vm_compute; reflexivity | reflexivity]].
Qed.
Lemma gx_ok : prog_ok_b 2 1 1 gx_funs 1 = true.
Proof. vm_compute. reflexivity. Qed.
(* a0 = 2: g0 = 7, h0 = true: "Y", byte 7, "7\n", g0 = 7 / -2 = -4 (the machine rounds down): "4\n";  a0 = 4: g0 = 9, then 9 / 0 *)
Definition gx_out2 : list Z := [89; 7; 55; 10; 52; 10].
Definition gx_out4 : list Z := [89; 9; 57; 10].
Notation gx_act := (Machine.act 2 (code_of gx_prog) (zmem 0)).
Example program_globals_ex : exists m',
  HidV.Sphinx.Halts.runs gx_act (mk 0 (gx_mem 2)) (map EOut gx_out2 ++ [EFlag 0]) (tnt gx_lib m') /\
  ~ HidV.Sphinx.Halts.Halts gx_act (mk 0 (gx_mem 2)).
Proof.
  exact (program_run_computed 2 ltac:(lia) gx_funs 40 [2] 0 gx_ga [5] gx_gb [0] (zmem 0) 100 gx_out2 (CRet None ([-4], [1])) (gx_mem 2)
           ltac:(vm_compute; reflexivity) (gx_init 2 ltac:(lia)) ltac:(vm_compute; reflexivity)).
Qed.
Example program_globals_fault_ex : exists m',
  HidV.Sphinx.Halts.runs gx_act (mk 0 (gx_mem 4)) (map EOut gx_out4 ++ [EFlag 3; EFlag 1]) (tnt gx_lib m') /\
  ~ HidV.Sphinx.Halts.Halts gx_act (mk 0 (gx_mem 4)).
Proof.
  exact (program_run_computed 2 ltac:(lia) gx_funs 40 [4] 0 gx_ga [5] gx_gb [0] (zmem 0) 100 gx_out4 (CFault FDivZero) (gx_mem 4)
           ltac:(vm_compute; reflexivity) (gx_init 4 ltac:(lia)) ltac:(vm_compute; reflexivity)).
Qed.
(* the same two runs on the verified VM, from the bytes of the image *)
Definition gx_bytes (a0 : Z) : list Z := map (fun a => getb (gx_mem a0) (Z.of_nat a)) (seq 0 97).
Example program_globals_vm_run_ex :
  match run_program 2 (gx_bytes 2) [] gx_prog [] mon_none 4000 with
  | OAbsorbed evs _ _ => firstn 7 evs = map EOut gx_out2 ++ [EFlag 0]
  | _ => False
  end /\
  match run_program 2 (gx_bytes 4) [] gx_prog [] mon_none 4000 with
  | OAbsorbed evs _ _ => firstn 6 evs = map EOut gx_out4 ++ [EFlag 3; EFlag 1]
  | _ => False
  end.
Proof. vm_compute. repeat split; reflexivity. Qed.

(* byte reads: the low byte of an int (truncation), a byte-sized local read as an int (zero-extension),
   in a declaration (push context), in arithmetic, under write(.. is byte):
     empty @is_you(int a0) { int y = (a0 is byte) is int; bool q = y > 40; writeln(y + ((q is byte) is int));
                             int z = (q is byte) is int; write(((a0 is byte) is int) is byte);
                             writeln(z - ((y is byte) is int)); return; } *)
Definition bx_funs : list fundef :=
  [ mkfun 1 (SCons (SDeclI (OByte (YLow 0)))
            (SCons (SDeclB (BCmp SGt (OVar 1) (OLit false 40)))
            (SCons (SWriteI true (OArith SAdd (OVar 1) (OByte (YSlot 0))))
            (SCons (SDeclI (OByte (YSlot 0)))
            (SCons (SWrite (WrByte (OByte (YLow 0))))
            (SCons (SWriteI true (OArith SSub (OVar 2) (OByte (YLow 1))))
            (SCons (SReturn None) SNil))))))) ].
Definition bx_code : list aline := lower_program 2 bx_funs.
Definition bx_lib : Z := size bx_code.
Definition bx_prog : list instr := resolve (hidc_regs 2 0 bx_lib) (fun _ => 0) 0 bx_code ++ stdlib_code 2 bx_lib.
Definition bx_mem (a0 : Z) : mem :=
  Machine.sw 2 (Machine.sw 2 (Machine.sw 2 (Machine.sw 2 (mkmem 94 (FMapPositive.PositiveMap.empty Z)) 0 10) 2 94) 92 bx_lib) 90 a0.
Lemma bx_init a0 : - 1000 <= a0 <= 1000 -> init_ok 2 40 [a0] (bx_lib + off_all_is_win) (fun _ => 0) [] (fun _ => 0) [] (bx_mem a0).
Proof. intros Ha. apply (ex_init 40 bx_lib a0 94); [lia | lia | vm_compute; split; discriminate | exact Ha]. Qed.
Lemma bx_ok : prog_ok_b 2 0 0 bx_funs 1 = true.
Proof. vm_compute. reflexivity. Qed.
(* a0 = 300: y = 44, q: "45\n", the byte 44, z - 44 = -43: "-43\n";  a0 = -1: y = 255: "256\n", the byte 255, "-254\n" *)
Definition bx_out300 : list Z := [52; 53; 10; 44; 45; 52; 51; 10].
Definition bx_outm1 : list Z := [50; 53; 54; 10; 255; 45; 50; 53; 52; 10].
Notation bx_act := (Machine.act 2 (code_of bx_prog) (zmem 0)).
Example program_byte_reads_ex :
  (exists m', HidV.Sphinx.Halts.runs bx_act (mk 0 (bx_mem 300)) (map EOut bx_out300 ++ [EFlag 0]) (tnt bx_lib m')) /\
  (exists m', HidV.Sphinx.Halts.runs bx_act (mk 0 (bx_mem (-1))) (map EOut bx_outm1 ++ [EFlag 0]) (tnt bx_lib m')).
Proof.
  split.
  - destruct (program_run_computed 2 ltac:(lia) bx_funs 40 [300] 0 (fun _ => 0) [] (fun _ => 0) [] (zmem 0) 100 bx_out300 (CRet None ([], [])) (bx_mem 300)
                ltac:(vm_compute; reflexivity) (bx_init 300 ltac:(lia)) ltac:(vm_compute; reflexivity)) as [m' [Rn _]]. exists m'. exact Rn.
  - destruct (program_run_computed 2 ltac:(lia) bx_funs 40 [-1] 0 (fun _ => 0) [] (fun _ => 0) [] (zmem 0) 100 bx_outm1 (CRet None ([], [])) (bx_mem (-1))
                ltac:(vm_compute; reflexivity) (bx_init (-1) ltac:(lia)) ltac:(vm_compute; reflexivity)) as [m' [Rn _]]. exists m'. exact Rn.
Qed.
Definition bx_bytes (a0 : Z) : list Z := map (fun a => getb (bx_mem a0) (Z.of_nat a)) (seq 0 94).
Example program_byte_reads_vm_run_ex :
  match run_program 2 (bx_bytes 300) [] bx_prog [] mon_none 4000 with
  | OAbsorbed evs _ _ => firstn 9 evs = map EOut bx_out300 ++ [EFlag 0]
  | _ => False
  end /\
  match run_program 2 (bx_bytes (-1)) [] bx_prog [] mon_none 4000 with
  | OAbsorbed evs _ _ => firstn 11 evs = map EOut bx_outm1 ++ [EFlag 0]
  | _ => False
  end.
Proof. vm_compute. repeat split; reflexivity. Qed.

(* byte casts of a global and of computed values, char literals as ints:
     int g0 = 5;
     empty @is_you(int a0) { writeln(((g0 is byte) is int) + 'a'); g0 = ((a0 + g0) is byte) is int; writeln(g0 - 'A');
                             int y = 'z' - (((a0 * 2) is byte) is int); write((y + 'a') is byte); return; } *)
Definition tx_funs : list fundef :=
  [ mkfun 1 (SCons (SWriteI true (OArith SAdd (OTrunc (OGlob 0)) (OLit true 97)))
            (SCons (SAssignG 0 (OTrunc (OArith SAdd (OVar 0) (OGlob 0))))
            (SCons (SWriteI true (OArith SSub (OGlob 0) (OLit true 65)))
            (SCons (SDeclI (OArith SSub (OLit true 122) (OTrunc (OArith SMul (OVar 0) (OLit false 2)))))
            (SCons (SWrite (WrByte (OArith SAdd (OVar 1) (OLit true 97))))
            (SCons (SReturn None) SNil)))))) ].
Definition tx_code : list aline := lower_program 2 tx_funs.
Definition tx_lib : Z := size tx_code.
Definition tx_ga (g : nat) : Z := glob_addr 2 40 1 tx_funs (GI g).
Definition tx_prog : list instr := resolve (hidc_regs_gb 2 0 tx_lib tx_ga (fun _ => 0)) (fun _ => 0) 0 tx_code ++ stdlib_code 2 tx_lib.
Definition tx_mem (a0 : Z) : mem :=
  Machine.sw 2 (Machine.sw 2 (Machine.sw 2 (Machine.sw 2 (Machine.sw 2 (mkmem 96 (FMapPositive.PositiveMap.empty Z)) 0 10) 2 94) 92 tx_lib) 90 a0) 94 5.
Lemma tx_init a0 : - 1000 <= a0 <= 1000 -> init_ok 2 40 [a0] (tx_lib + off_all_is_win) tx_ga [5] (fun _ => 0) [] (tx_mem a0).
Proof.
  intros Ha. apply (ex_init_g tx_lib a0 96); [vm_compute; split; discriminate | exact Ha | vm_compute; reflexivity | cbn [length]; lia|].
  intros h Hh. cbn [length] in Hh. lia.
Qed.
Lemma tx_ok : prog_ok_b 2 1 0 tx_funs 1 = true.
Proof. vm_compute. reflexivity. Qed.
(* a0 = 300: 5 + 97: "102\n"; g0 = 305 mod 256 = 49, 49 - 65: "-16\n"; y = 122 - (600 mod 256 = 88) = 34, the byte 34 + 97 = 131 *)
Definition tx_out300 : list Z := [49; 48; 50; 10; 45; 49; 54; 10; 131].
Notation tx_act := (Machine.act 2 (code_of tx_prog) (zmem 0)).
Example program_byte_casts_ex : exists m',
  HidV.Sphinx.Halts.runs tx_act (mk 0 (tx_mem 300)) (map EOut tx_out300 ++ [EFlag 0]) (tnt tx_lib m').
Proof.
  destruct (program_run_computed 2 ltac:(lia) tx_funs 40 [300] 0 tx_ga [5] (fun _ => 0) [] (zmem 0) 100 tx_out300 (CRet None ([49], [])) (tx_mem 300)
              ltac:(vm_compute; reflexivity) (tx_init 300 ltac:(lia)) ltac:(vm_compute; reflexivity)) as [m' [Rn _]]. exists m'. exact Rn.
Qed.
Definition tx_bytes (a0 : Z) : list Z := map (fun a => getb (tx_mem a0) (Z.of_nat a)) (seq 0 96).
Example program_byte_casts_vm_run_ex :
  match run_program 2 (tx_bytes 300) [] tx_prog [] mon_none 4000 with
  | OAbsorbed evs _ _ => firstn 10 evs = map EOut tx_out300 ++ [EFlag 0]
  | _ => False
  end.
Proof. vm_compute. reflexivity. Qed.
End ExamplesProg.

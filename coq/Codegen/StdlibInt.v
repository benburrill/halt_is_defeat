(* write(int) of the regenerated runtime library prints `decimal (sgn v)` (DecimalSpec.v) for every
   representable v, the most negative one included, and returns.  For every word size w >= 2.
   Its footprint is NOT confined to r0..r2: the digits are stored at F-1w-1 downwards, over the
   argument word and - for numbers with more than w digits - below the callee frame (finding F3:
   `write_int_digit_below_frame`). *)
From Coq Require Import ZArith List Lia.
From HidV Require Import Machine WordLemmas MemLemmas GenStdlib StepTactics StdlibBase StdlibBytes DecimalSpec.
Import ListNotations.
Open Scope Z_scope.

(* equal outside r0..r2 and outside [lo, hi) *)
Definition agree_except (w lo hi : Z) (m m0 : mem) : Prop :=
  msize m = msize m0 /\
  forall x, 0 <= x -> (x < 2 * w \/ 5 * w <= x) -> (x < lo \/ hi <= x) -> getb m x = getb m0 x.

(* the digit buffer of write_int for the signed value sv: [lo, F - 1w) *)
Definition write_int_lo (w F sv : Z) : Z := F - w - ndigits (Z.abs sv).
Definition write_int_footprint (w F sv x : Z) : Prop := write_int_lo w F sv <= x < F - w.
(* the buffer must not reach down into the registers *)
Definition write_int_room (w F sv : Z) : Prop := stack_start w <= write_int_lo w F sv.

Section IntArith.
Variable w : Z.
Hypothesis Hw : 2 <= w.
Notation W := (Machine.W w).
Notation wrap := (Machine.wrap w).
Notation sgn := (Machine.sgn w).

Lemma wrap_add_neg x z : 0 <= z <= x -> x < W -> wrap (x + wrap (- z)) = x - z.
Proof.
  intros Hz Hx. unfold Machine.wrap. rewrite Zplus_mod_idemp_r.
  replace (x + - z) with (x - z) by lia. apply Z.mod_small. lia.
Qed.
Lemma wrap_neg v : 0 < v < W -> wrap (0 - v) = W - v.
Proof. intros H. unfold Machine.wrap. symmetry. apply Z.mod_unique_pos with (q := -1); lia. Qed.

(* `mod [r1],[r2],10` and `div [r2],[r2],10` on a non-negative word, given by its quotient and last
   digit: what follows needs only n = 10 q + d *)
Lemma divmod10 n : exists q d, n = 10 * q + d /\ 0 <= d < 10.
Proof. exists (n / 10), (n mod 10). lia. Qed.
Lemma arith_divmod10 q d : 0 <= d < 10 -> 0 <= 10 * q + d < W / 2 ->
  Machine.arith w Amod (10 * q + d) 10 = Some d /\ Machine.arith w Adiv (10 * q + d) 10 = Some q.
Proof.
  intros Hd H. pose proof (half_pos w ltac:(lia)). unfold Machine.arith.
  rewrite (sgn_small w 10), (sgn_small w (10 * q + d)) by lia. split; apply f_equal; lia.
Qed.
End IntArith.

Section Int.
Variables (w : Z) (code : Z -> option instr) (cmem : mem) (B : Z).
Hypothesis Hw : 2 <= w.
Hypothesis CA : lib_at w code B.
Hypothesis B_range : lib_range w B.

Notation act := (Machine.act w code cmem).
Notation runs := (Halts.runs act).
Notation lw := (Machine.lw w).
Notation sw := (Machine.sw w).
Notation sb := Machine.sb.
Notation W := (Machine.W w).
Notation agree := (agree w).
Notation agree_except := (agree_except w).

Lemma ae_refl lo hi m : agree_except lo hi m m.
Proof. split; [reflexivity | intros; reflexivity]. Qed.
Lemma ae_sb {lo hi m m0} a v : agree_except lo hi m m0 -> 0 <= a -> lo <= a < hi ->
  agree_except lo hi (sb m a v) m0.
Proof.
  intros [S A] Ha Hl; split; [exact S|]. intros x Hx Hr Hl'. unfold Machine.sb.
  rewrite getb_setb_other by lia. apply A; assumption.
Qed.
Lemma ae_widen {lo hi} lo' hi' {m m0} : agree_except lo hi m m0 -> lo' <= lo -> hi <= hi' -> agree_except lo' hi' m m0.
Proof. intros [S A] H1 H2; split; [exact S|]. intros x Hx Hr Hl. apply A; [assumption | assumption | lia]. Qed.
Lemma ae_lw {lo hi m m0} a : agree_except lo hi m m0 -> 0 <= a -> (a + w <= 2 * w \/ 5 * w <= a) ->
  (a + w <= lo \/ hi <= a) -> lw m a = lw m0 a.
Proof.
  intros [S A] Ha0 Ha Hl. apply lw_ext; [lia|]. intros x Hx. apply A; lia.
Qed.
Lemma ae_agree {lo hi m m1 m0} : StepTactics.agree w m m1 -> agree_except lo hi m1 m0 -> agree_except lo hi m m0.
Proof.
  intros [S1 A1] [S2 A2]; split; [congruence|]. intros x Hx Hr Hl. rewrite (A1 x Hx Hr). apply A2; assumption.
Qed.

Section Digits.
Variables (mI : mem) (F : Z).

(* The digits are stored into the machine memory m and, in thought, into the entry memory as well:
   `regs w mg F m ..` keeps m and that second memory mg equal outside the registers, and mg is
   the entry memory mI except for the buffer [p, F-1w), which holds the digits `acc` produced so far. *)
Definition dinv (mg : mem) (p : Z) (acc : list Z) : Prop :=
  agree_except p (F - w) mg mI /\ bytes_from mg p (length acc) = acc /\
  p + Z.of_nat (length acc) = F - w /\ 5 * w <= p.

Lemma dinv_init : 5 * w <= F - w -> dinv mI (F - w) [].
Proof. intros H. split; [apply ae_refl|]. cbn [length bytes_from]. auto with zarith. Qed.
Lemma dinv_push {mg p acc} v : dinv mg p acc -> 5 * w <= p - 1 -> 0 <= v < 256 ->
  dinv (sb mg (p - 1) v) (p - 1) (v :: acc).
Proof.
  intros (A & Hb & Hl & Hp) Hr Hv. split; [|split; [|split]].
  - apply ae_sb; [|lia|lia]. apply (ae_widen _ _ A); lia.
  - cbn [length bytes_from]. unfold Machine.sb at 1. rewrite getb_setb_same, Z.mod_small by lia. f_equal.
    replace (p - 1 + 1) with p by lia. rewrite <- Hb at 2. apply bytes_from_ext. intros x Hx.
    apply getb_setb_other; lia.
  - cbn [length]. lia.
  - exact Hr.
Qed.

(* what every entry into the digit routine promises: the events evs, then the return to the caller
   of write(int), with the digits ds left in the buffer [lo, F-1w) *)
Definition printed (s : state) (evs : list event) (lo : Z) (ds : list Z) : Prop :=
  lands act s evs (lw mI (F - w))
    (fun m' => agree_except lo (F - w) m' mI /\ wf_mem m' /\ bytes_from m' lo (length ds) = ds).

(* the six instructions after the push and the byte loop of write_state_byte_array: print the
   buffer and return *)
Lemma tail_spec {mg m p ds v1 v2} : dinv mg p ds -> regs w mg F m p v1 v2 ->
  printed (mk (B + (off_write_int_push + 5)) m) (map EOut ds) p ds.
Proof.
  intros (A & Hb & Hl & Hp) G. pose proof (lib_sub off_write_int_push 11 CA eq_refl) as C.
  destruct (regs_frame G) as (HF1 & HF2 & HF3). pose proof (W_even w ltac:(lia)) as HWe.
  set (n := Z.of_nat (length ds)) in *.
  pose proof (regs_put Hw G SR1 (F - p) ltac:(lia)) as G1.
  pose proof (regs_put Hw G1 SR1 (F - p - 1 * w) ltac:(lia)) as G2.
  assert (Esg : Machine.sgn w (F - p - 1 * w) = n) by (rewrite sgn_small; lia).
  destruct (entry_runs w code cmem Hw
              (lib_loop w code cmem B CA B_range off_write_state_byte_array_loop SState (or_intror (conj eq_refl eq_refl)) ltac:(discriminate))
              (block_sub 7 4 C) G2) as (m' & R' & A' & Wf').
  { rewrite Esg. cbn [srcm src_clear]. lia. }
  rewrite Esg in R'. cbn [srcm] in R'. unfold n in R'. rewrite Nat2Z.id, Hb in R'.
  rewrite (ae_lw (F - w) A) in R' by lia.
  exists m'. split; [|split; [|split]].
  - refine (silent_then (step_arith Hw G SR1 (C 5%nat _ eq_refl) (oval_fp Hw G) (oval_reg Hw G SR0) eq_refl)
           (silent_then (step_arith Hw G1 SR1 (C 6%nat _ eq_refl) (oval_reg Hw G1 SR1) (oval_word (1 * w) _) eq_refl) R')).
    lia.
  - exact (ae_agree A' A).
  - exact Wf'.
  - rewrite <- Hb at 2. apply bytes_from_ext. intros x Hx. apply A'; lia.
Qed.

(* at push: add '0'; dec [r0]; store; then leave (quotient 0) or go round again *)
Lemma push_runs {mg m p acc d n'} : dinv mg p acc -> regs w mg F m p d n' -> 0 <= d < 10 -> 5 * w <= p - 1 ->
  exists mg' m', dinv mg' (p - 1) ((48 + d) :: acc) /\ regs w mg' F m' (p - 1) (d + 48) n' /\
    runs (mk (B + off_write_int_push) m) []
         (mk (B + (if n' =? 0 then off_write_int_push + 5 else off_write_int_get_digits_body)) m').
Proof.
  intros I G Hd Hr. pose proof (lib_sub off_write_int_push 11 CA eq_refl) as C. pose proof (W_ge w ltac:(lia)) as HW.
  pose proof I as (_ & _ & Hl & _). destruct (regs_frame G) as (_ & HF2 & _).
  pose proof (regs_range Hw G SR0) as Hpr. cbn beta iota in Hpr.
  pose proof (regs_put Hw G SR1 (d + 48) ltac:(lia)) as G1.
  pose proof (regs_put Hw G1 SR0 (p - 1) ltac:(lia)) as G2.
  pose proof (regs_sb Hw G2 (p - 1) (d + 48) Hr) as G3.
  pose proof (step_branch (C 3%nat _ eq_refl) (C 4%nat _ eq_refl) (lib_sub off_write_int_get_digits 1 CA eq_refl 0%nat _ eq_refl)
                (lib_label off_write_int_get_digits B_range eq_refl)
                (oval_reg (cmem := cmem) Hw G3 SR2) (oval_byte Hw 0 eq_refl)) as BR.
  cbn [Machine.cond_holds] in BR.
  eexists _, _.
  split; [|split; [exact G3|]].
  - rewrite (Z.add_comm 48 d). exact (dinv_push (d + 48) I Hr ltac:(lia)).
  - refine (silent_then (step_arith Hw G SR1 (C 0%nat _ eq_refl) (oval_reg Hw G SR1) (oval_byte Hw 48 eq_refl) eq_refl)
           (silent_then (step_arith Hw G1 SR0 (C 1%nat _ eq_refl) (oval_reg Hw G1 SR0) (oval_byte Hw 1 eq_refl) eq_refl)
           (silent_then (step_sb (C 2%nat _ eq_refl) (oval_reg Hw G2 SR0) (oval_reg Hw G2 SR1) _ _) _)));
      [destruct (regs_msize G2); lia .. | destruct (n' =? 0); exact BR].
Qed.

(* the loop body with n in r2: all digits of n in front of those already there *)
Definition digits_ok (n : Z) : Prop := forall mg m p acc v1,
  dinv mg p acc -> regs w mg F m p v1 n -> 5 * w <= p - ndigits n ->
  printed (mk (B + off_write_int_get_digits_body) m) (map EOut (udec n ++ acc)) (p - ndigits n) (udec n ++ acc).

(* The loop entered at its push, with the last digit d and the quotient q of n = 10 q + d
   already taken: this is where the path of the most negative value joins it. *)
Lemma push_spec q d {mg m p acc} : (q <> 0 -> digits_ok q) -> 0 <= q -> 0 <= d < 10 ->
  dinv mg p acc -> regs w mg F m p d q -> 5 * w <= p - ndigits (10 * q + d) ->
  printed (mk (B + off_write_int_push) m) (map EOut (udec (10 * q + d) ++ acc)) (p - ndigits (10 * q + d)) (udec (10 * q + d) ++ acc).
Proof.
  intros IH Hq Hd I G. rewrite (ndigits_snoc q d Hq Hd), (udec_snoc q d Hq Hd), <- app_assoc. cbn [app].
  intros Hroom. pose proof (ndigits_pos q Hq) as Hnd.
  destruct (push_runs I G Hd ltac:(destruct (q =? 0); lia)) as (mg' & m' & I' & G' & R').
  destruct (Z.eqb_spec q 0) as [Ez|Nz].
  - replace (p - (0 + 1)) with (p - 1) by lia.
    exact (lands_after R' (tail_spec I' G')).
  - replace (p - (ndigits q + 1)) with (p - 1 - ndigits q) in * by lia.
    exact (lands_after R' (IH Nz _ _ _ _ _ I' G' Hroom)).
Qed.

Lemma digits_spec n : 0 <= n < W / 2 -> digits_ok n.
Proof.
  intros [Hn HnW]. revert HnW. pattern n. apply Zlt_0_ind; [|exact Hn]. clear n Hn.
  intros n IH Hn HnW mg m p acc v1 I G Hroom. pose proof (lib_sub off_write_int_get_digits_body 2 CA eq_refl) as C.
  destruct (divmod10 n) as (q & d & -> & Hd).
  destruct (arith_divmod10 w Hw q d Hd ltac:(lia)) as [Emod Ediv].
  pose proof (regs_put Hw G SR1 d ltac:(lia)) as G1.
  pose proof (regs_put Hw G1 SR2 q ltac:(lia)) as G2.
  apply (lands_after
    (silent_then (step_arith Hw G SR1 (C 0%nat _ eq_refl) (oval_reg Hw G SR2) (oval_byte Hw 10 eq_refl) Emod)
                 (step_arith Hw G1 SR2 (C 1%nat _ eq_refl) (oval_reg Hw G1 SR2) (oval_byte Hw 10 eq_refl) Ediv))).
  refine (push_spec q d (fun Nz => IH q _ _) _ Hd I G2 Hroom); lia.
Qed.

(* `j get_digits_body; halt` behind the label pos, with a non-negative [r2] = n: all of udec n *)
Lemma pos_spec {m v1 n} : regs w mI F m (F - w) v1 n -> 0 <= n < W / 2 -> 5 * w <= F - w - ndigits n ->
  printed (mk (B + (off_write_int_pos + 1)) m) (map EOut (udec n)) (F - w - ndigits n) (udec n).
Proof.
  intros G Hn Hroom. pose proof (lib_sub off_write_int_pos 3 CA eq_refl) as C. destruct (regs_frame G) as (HF1 & _).
  rewrite <- (app_nil_r (udec n)).
  exact (lands_after
           (step_goto (C 1%nat _ eq_refl) (C 2%nat _ eq_refl) (oval_word _ (lib_label off_write_int_get_digits_body B_range eq_refl)))
           (digits_spec n Hn _ _ _ [] _ (dinv_init HF1) G Hroom)).
Qed.

(* the last six instructions before pos: the most negative value; [r2] = W/2 (its own negation).  `sub 10` wraps it to the
   positive W/2 - 10 = MAX - 9, whose last digit d is that of W/2 and whose quotient by ten is one
   less than that of W/2; `add 1` mends the quotient, and the loop is entered at its push.  All
   operands of div/mod are non-negative here, so floor and truncating division coincide on this
   path. *)
Lemma min_spec {m v1} : regs w mI F m (F - w) v1 (W / 2) -> 5 * w <= F - w - ndigits (W / 2) ->
  printed (mk (B + (off_write_int + 8)) m) (map EOut (udec (W / 2))) (F - w - ndigits (W / 2)) (udec (W / 2)).
Proof.
  pose proof (W_ge_65536 w Hw) as HW. pose proof (W_even w ltac:(lia)) as HWe.
  destruct (divmod10 (W / 2 - 10)) as (q & d & E & Hd).
  replace (W / 2) with (10 * (q + 1) + d) in * by lia.
  intros G Hroom. pose proof (lib_sub off_write_int 14 CA eq_refl) as C. destruct (regs_frame G) as (HF1 & _).
  destruct (arith_divmod10 w Hw q d Hd ltac:(lia)) as [Emod Ediv].
  replace (10 * q + d) with (10 * (q + 1) + d - 10) in Emod, Ediv by lia.
  pose proof (regs_put Hw G SR2 (10 * (q + 1) + d - 10) ltac:(lia)) as G1.
  pose proof (regs_put Hw G1 SR1 d ltac:(lia)) as G2.
  pose proof (regs_put Hw G2 SR2 q ltac:(lia)) as G3.
  pose proof (regs_put Hw G3 SR2 (q + 1) ltac:(lia)) as G4.
  rewrite <- (app_nil_r (udec _)).
  refine (lands_after
    (silent_then (step_arith Hw G SR2 (C 8%nat _ eq_refl) (oval_reg Hw G SR2) (oval_byte Hw 10 eq_refl) eq_refl)
    (silent_then (step_arith Hw G1 SR1 (C 9%nat _ eq_refl) (oval_reg Hw G1 SR2) (oval_byte Hw 10 eq_refl) Emod)
    (silent_then (step_arith Hw G2 SR2 (C 10%nat _ eq_refl) (oval_reg Hw G2 SR2) (oval_byte Hw 10 eq_refl) Ediv)
    (silent_then (step_arith Hw G3 SR2 (C 11%nat _ eq_refl) (oval_reg Hw G3 SR2) (oval_byte Hw 1 eq_refl) eq_refl)
                 (step_goto (C 12%nat _ eq_refl) (C 13%nat _ eq_refl) (oval_word _ (lib_label off_write_int_push B_range eq_refl)))))))
    (push_spec (q + 1) d (acc := []) (fun _ => digits_spec (q + 1) _) _ Hd (dinv_init HF1) G4 Hroom)); lia.
Qed.

(* where the second sign test leads, for the magnitude u of a negative number *)
Lemma abs_spec {m v1 u} : regs w mI F m (F - w) v1 u -> 0 <= u <= W / 2 -> 5 * w <= F - w - ndigits u ->
  printed (mk (B + (if 0 <=? Machine.sgn w u then off_write_int_pos + 1 else off_write_int + 8)) m)
    (map EOut (udec u)) (F - w - ndigits u) (udec u).
Proof.
  intros G Hu Hroom. pose proof (W_even w ltac:(lia)) as HWe. pose proof (half_pos w ltac:(lia)) as HWh.
  destruct (Z_lt_le_dec u (W / 2)) as [Hlt|Hmin].
  - rewrite (sgn_small w u) by lia. destruct (Z.leb_spec 0 u); [|lia]. exact (pos_spec G (conj (proj1 Hu) Hlt) Hroom).
  - assert (Eu : u = W / 2) by lia. rewrite Eu in *. rewrite (sgn_big w (W / 2)) by lia.
    destruct (Z.leb_spec 0 (W / 2 - W)); [lia|]. exact (min_spec G Hroom).
Qed.

(* the sign test `j write_int_pos; hge [r2],0`, which occurs twice, with pos: `hlt [r2],0` *)
Lemma sign_branch {k m v0 v1 x} : block_at code B k [IJ (Imm (B + off_write_int_pos)); IHc Cge (St (4 * w)) (Imm 0)] ->
  regs w mI F m v0 v1 x ->
  runs (mk (B + k) m) [] (mk (B + (if 0 <=? Machine.sgn w x then off_write_int_pos + 1 else k + 1 + 1)) m).
Proof.
  intros Ck G.
  pose proof (step_branch (Ck 0%nat _ eq_refl) (Ck 1%nat _ eq_refl) (lib_sub off_write_int_pos 1 CA eq_refl 0%nat _ eq_refl)
                (lib_label off_write_int_pos B_range eq_refl)
                (oval_reg (cmem := cmem) Hw G SR2) (oval_byte Hw 0 eq_refl)) as BR.
  cbn [Machine.cond_holds] in BR. rewrite (sgn_lit w) in BR by lia. exact BR.
Qed.

End Digits.

Theorem write_int_spec m F :
  frame_ok w m F w ->
  let sv := Machine.sgn w (lw m (F - 2 * w)) in
  let ra := lw m (F - w) in
  write_int_room w F sv ->
  exists m', runs (mk (B + off_write_int) m) (map EOut (decimal sv)) (mk ra m')
    /\ agree_except (write_int_lo w F sv) (F - w) m' m /\ wf_mem m'
    /\ bytes_from m' (write_int_lo w F sv) (length (udec (Z.abs sv))) = udec (Z.abs sv).
Proof.
  intros Fr sv ra Hroom. pose proof (lib_sub off_write_int 14 CA eq_refl) as C.
  change (printed m F (mk (B + off_write_int) m) (map EOut (decimal sv)) (write_int_lo w F sv) (udec (Z.abs sv))).
  pose proof (frame_regs Hw Fr ltac:(lia)) as G.
  destruct Fr as (Hwf & _ & HF1 & _ & HF3). unfold write_int_room, write_int_lo, stack_start in *.
  pose proof (W_ge_65536 w Hw) as HW. pose proof (W_even w ltac:(lia)) as HWe.
  set (v := lw m (F - 2 * w)) in *.
  pose proof (lw_range w ltac:(lia) m (F - 2 * w) Hwf) as Hvr. fold v in Hvr.
  pose proof (regs_set Hw G SR0 (F + Machine.wrap w (- (1 * w)))) as G1.
  rewrite (wrap_add_neg w F (1 * w)) in G1 by lia. replace (F - 1 * w) with (F - w) in G1 by lia.
  pose proof (regs_put Hw G1 SR2 v Hvr) as G2.
  pose proof (silent_then (step_arith Hw G SR0 (C 0%nat _ eq_refl) (oval_fp (cmem := cmem) Hw G) eq_refl eq_refl)
                          (step_arg Hw G1 SR2 (C 1%nat _ eq_refl) ltac:(lia) ltac:(cbn beta iota; lia))) as S77.
  pose proof (sign_branch m F (block_sub 2 2 C) G2) as BR79. fold sv in BR79.
  destruct (sgn_cases w v Hvr) as [[Hv Esv]|[Hv Esv]]; fold sv in Esv; rewrite Esv in *.
  - (* non-negative *)
    destruct (Z.leb_spec 0 v); [|lia]. rewrite Z.abs_eq, decimal_nonneg in * by lia.
    exact (lands_after (silent_then S77 BR79) (pos_spec m F G2 ltac:(lia) Hroom)).
  - (* negative: '-', then the magnitude u; it is its own negation when u = W/2 *)
    destruct (Z.leb_spec 0 (v - W)); [lia|]. set (u := W - v).
    replace (Z.abs (v - W)) with u in * by (unfold u; lia).
    rewrite decimal_neg by lia. replace (- (v - W)) with u by (unfold u; lia).
    pose proof (regs_set Hw G2 SR2 (0 - v)) as G3. cbn beta iota in G3. rewrite (wrap_neg w v) in G3 by lia. fold u in G3.
    exact (lands_after (l := [EOut 45])
            (silent_then S77 (silent_then BR79
            (out_then (step_yield_byte Hw (C 4%nat _ eq_refl) eq_refl)
            (silent_then (step_arith Hw G2 SR2 (C 5%nat _ eq_refl) (oval_byte Hw 0 eq_refl) (oval_reg Hw G2 SR2) eq_refl)
                         (sign_branch m F (block_sub 6 2 C) G3)))))
            (abs_spec m F G3 ltac:(unfold u; lia) Hroom)).
Qed.

(* the frame clause of write_int_spec, spelled out with the footprint predicate *)
Corollary write_int_frame m' m sv F : agree_except (write_int_lo w F sv) (F - w) m' m ->
  msize m' = msize m /\
  forall x, 0 <= x -> (x < reg_r0 w \/ stack_start w <= x) -> ~ write_int_footprint w F sv x -> getb m' x = getb m x.
Proof.
  intros [S A]. split; [exact S|]. intros x Hx Hr Hf. unfold reg_r0, stack_start, write_int_footprint in *.
  apply A; [exact Hx | lia | lia].
Qed.

(* a uniform sufficient condition for `write_int_room`: room for the digits of W/2 *)
Lemma write_int_room_max F sv : - (W / 2) <= sv < W / 2 ->
  stack_start w <= F - w - ndigits (W / 2) -> write_int_room w F sv.
Proof.
  intros Hsv H. unfold write_int_room, write_int_lo.
  pose proof (ndigits_mono (Z.abs sv) ltac:(lia) (W / 2) ltac:(lia)). lia.
Qed.

Lemma pow10_representable : 10 ^ w < W / 2.
Proof.
  rewrite (W_half w ltac:(lia)).
  apply Z.le_lt_trans with (m := 2 ^ (4 * w)).
  - replace (2 ^ (4 * w)) with (16 ^ w) by (change 16 with (2 ^ 4); rewrite <- Z.pow_mul_r by lia; reflexivity).
    apply Z.pow_le_mono_l. lia.
  - apply Z.pow_lt_mono_r; lia.
Qed.

(* Finding F3.  The caller of write(int) reserved the return-address word [F-1w, F) and the argument
   word [F-2w, F-1w).  For every value with more than w digits the routine stores a digit at the
   address F-2w-1, which lies below the callee frame, whatever was there. *)
Lemma write_int_digit_below_frame sv m F : 10 ^ w <= sv < W / 2 ->
  frame_ok w m F w -> Machine.sgn w (lw m (F - 2 * w)) = sv -> write_int_room w F sv ->
  exists m', runs (mk (B + off_write_int) m) (map EOut (decimal sv)) (mk (lw m (F - w)) m') /\
    write_int_footprint w F sv (F - 2 * w - 1) /\ 48 <= getb m' (F - 2 * w - 1) <= 57.
Proof.
  intros Hsv Hfr Esv Hroom. assert (Hp : 0 < 10 ^ w) by (apply Z.pow_pos_nonneg; lia).
  pose proof (write_int_spec m F Hfr) as S. cbv zeta in S. rewrite Esv in S.
  destruct (S Hroom) as (m' & R & A & Hwf' & Hb).
  pose proof (ndigits_ge w sv ltac:(lia) (proj1 Hsv)) as Hnd.
  unfold write_int_room, write_int_footprint, write_int_lo, stack_start in *. rewrite (Z.abs_eq sv) in * by lia.
  set (lo := F - w - ndigits sv) in *.
  exists m'. split; [exact R|]. split; [lia|].
  (* the byte at F-2w-1 is the digit number i = F-2w-1-lo of the buffer *)
  set (i := Z.to_nat (F - 2 * w - 1 - lo)).
  assert (Hi : (i < length (udec sv))%nat) by (unfold i, lo, ndigits in *; lia).
  pose proof (bytes_from_nth (length (udec sv)) m' lo i Hi) as Hn. rewrite Hb in Hn.
  replace (lo + Z.of_nat i) with (F - 2 * w - 1) in Hn by (unfold i; lia).
  rewrite <- Hn.
  pose proof (udec_digits sv ltac:(lia)) as Hd.
  rewrite Forall_forall in Hd. apply Hd. apply nth_In. exact Hi.
Qed.

(* ... and such values are representable for every w >= 2: 10^w is one *)
Theorem write_int_writes_below_frame :
  exists sv, - (W / 2) <= sv < W / 2 /\
  forall m F, frame_ok w m F w -> Machine.sgn w (lw m (F - 2 * w)) = sv -> write_int_room w F sv ->
  exists m' x, runs (mk (B + off_write_int) m) (map EOut (decimal sv)) (mk (lw m (F - w)) m') /\
    0 <= x < F - 2 * w /\ write_int_footprint w F sv x /\ 48 <= getb m' x <= 57.
Proof.
  exists (10 ^ w). pose proof pow10_representable as Hrep.
  assert (Hp : 0 < 10 ^ w) by (apply Z.pow_pos_nonneg; lia).
  split; [lia|]. intros m F Hfr Hsv Hroom.
  destruct (write_int_digit_below_frame (10 ^ w) m F ltac:(lia) Hfr Hsv Hroom) as (m' & R & Hf & Hd).
  destruct Hfr as (_ & _ & HF1 & _). unfold stack_start in HF1.
  exists m', (F - 2 * w - 1). split; [exact R|]. split; [lia|]. split; assumption.
Qed.

End Int.

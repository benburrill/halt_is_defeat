(* C09: the regenerated operator tables against the machine semantics, for every operand value
   and every word size w >= 1. *)
From Coq Require Import ZArith List Bool Lia.
From HidV Require Import Machine WordLemmas GenTables.
Import ListNotations.
Open Scope Z_scope.

(* source-level meaning of the operators (the specification) *)
Definition cmp_sem (s : src_cmp) (a b : Z) : bool :=   (* on signed values *)
  match s with
  | SEq => a =? b | SNe => negb (a =? b)
  | SLt => a <? b | SGt => b <? a | SLe => a <=? b | SGe => b <=? a
  end.
Definition arith_sem (s : src_arith) (a b : Z) : Z :=  (* on signed values; / and % floor *)
  match s with SAdd => a + b | SSub => a - b | SMul => a * b | SDiv => a / b | SMod => a mod b end.

(* shape of the tables: every source operator has an entry *)
Theorem compare_map_total : map fst compare_map = [SEq; SNe; SLt; SGt; SLe; SGe].
Proof. reflexivity. Qed.
Theorem arith_map_total : map fst arith_map = [SAdd; SSub; SMul; SDiv; SMod].
Proof. reflexivity. Qed.
Definition all_conds := [Ceq; Cne; Clt; Cltu; Cgt; Cgtu; Cle; Cleu; Cge; Cgeu].
Definition cond_eqb (a b : cond) : bool :=
  match a, b with
  | Ceq, Ceq | Cne, Cne | Clt, Clt | Cltu, Cltu | Cgt, Cgt | Cgtu, Cgtu | Cle, Cle | Cleu, Cleu | Cge, Cge | Cgeu, Cgeu => true
  | _, _ => false end.
Definition invert (c : cond) : option cond :=
  match find (fun e => cond_eqb (fst e) c) halt_inversion with Some e => Some (snd e) | None => None end.
(* the table covers all ten conditions and is an involution *)
Theorem halt_inversion_total_involutive :
  forallb (fun c => match invert c with Some c' => match invert c' with Some c'' => cond_eqb c'' c | None => false end | None => false end) all_conds = true.
Proof. vm_compute. reflexivity. Qed.
Theorem halt_inversion_no_duplicate_keys :
  length halt_inversion = length all_conds.
Proof. reflexivity. Qed.

Section Tables.
Variable w : Z.
Hypothesis Hw : 1 <= w.
Notation inrange := (WordLemmas.inrange w).
Notation sgn := (Machine.sgn w).
Notation wrap := (Machine.wrap w).

(* a conditional halt fires exactly when the source comparison holds of the signed readings *)
Definition cmp_entry_ok (e : src_cmp * cond) : Prop :=
  forall x y, inrange x -> inrange y -> cond_holds w (snd e) x y = cmp_sem (fst e) (sgn x) (sgn y).

Lemma eqb_sgn x y : inrange x -> inrange y -> (x =? y) = (sgn x =? sgn y).
Proof.
  intros Hx Hy. destruct (Z.eqb_spec x y) as [E|N].
  - subst. now rewrite Z.eqb_refl.
  - destruct (Z.eqb_spec (sgn x) (sgn y)) as [E|_]; [|reflexivity].
    exfalso. apply N. eapply sgn_inj; eauto.
Qed.

(* cond_holds is defined on the signed readings, so the four orderings hold by computation;
   only = and <> compare the words themselves *)
Theorem compare_map_correct : Forall cmp_entry_ok compare_map.
Proof.
  unfold compare_map. repeat apply Forall_cons; try apply Forall_nil; unfold cmp_entry_ok; cbn [fst snd cond_holds cmp_sem];
    intros x y Hx Hy; try reflexivity; rewrite (eqb_sgn x y Hx Hy); reflexivity.
Qed.

(* every entry of halt_inversion maps a condition to its exact negation, on all operand values *)
Definition inv_entry_ok (e : cond * cond) : Prop :=
  forall x y, cond_holds w (snd e) x y = negb (cond_holds w (fst e) x y).
(* a strict comparison is the negation of the converse non-strict one, and the other way round *)
Theorem halt_inversion_is_negation : Forall inv_entry_ok halt_inversion.
Proof.
  unfold halt_inversion. repeat apply Forall_cons; try apply Forall_nil; intros x y; cbn [fst snd cond_holds];
    first [reflexivity | symmetry; apply negb_involutive | apply Z.leb_antisym | apply Z.ltb_antisym].
Qed.

(* arithmetic: the mapped instruction leaves (after the store's wrap) the wrapped result of the
   source operator applied to the signed readings; division by zero faults instead *)
Definition arith_entry_ok (e : src_arith * aop) : Prop :=
  forall x y, inrange x -> inrange y ->
    match arith w (snd e) x y with
    | Some r => wrap r = wrap (arith_sem (fst e) (sgn x) (sgn y))
    | None => (fst e = SDiv \/ fst e = SMod) /\ sgn y = 0
    end.
Theorem arith_map_correct : Forall arith_entry_ok arith_map.
Proof.
  unfold arith_map. repeat apply Forall_cons; try apply Forall_nil; unfold arith_entry_ok; cbn [fst snd arith arith_sem]; intros x y Hx Hy.
  - apply wrap_add_sgn; assumption.
  - apply wrap_sub_sgn; assumption.
  - reflexivity.
  - destruct (Z.eqb_spec (sgn y) 0); [split; [left; reflexivity | assumption] | reflexivity].
  - destruct (Z.eqb_spec (sgn y) 0); [split; [right; reflexivity | assumption] | reflexivity].
Qed.

(* unsigned comparisons used by the guards *)
Lemma cond_ltu x y : cond_holds w Cltu x y = (x <? y). Proof. reflexivity. Qed.
Lemma cond_geu x y : cond_holds w Cgeu x y = (y <=? x). Proof. reflexivity. Qed.

(* index check: `hltu i, len` halts (index accepted) iff 0 <= sgn i < len, for 0 <= len <= max_signed *)
Theorem index_check_exact i len : inrange i -> 0 <= len < Machine.W w / 2 ->
  cond_holds w Cltu i len = (0 <=? sgn i) && (sgn i <? len).
Proof.
  intros Hi Hl. cbn [cond_holds]. unfold WordLemmas.inrange in Hi.
  destruct (sgn_cases w i Hi) as [[Hs E]|[Hs E]]; rewrite E.
  - destruct (Z.leb_spec 0 i); [reflexivity | lia].
  - pose proof (W_even w Hw). destruct (Z.leb_spec 0 (i - Machine.W w)); [lia|].
    destruct (Z.ltb_spec i len); [lia | reflexivity].
Qed.
End Tables.

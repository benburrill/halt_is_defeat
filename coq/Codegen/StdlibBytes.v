(* write(string), write(const byte[]), write(byte[]) of the regenerated runtime library emit exactly
   `length` bytes from the source (nothing for a non-positive length) and return, leaving the
   state section untouched outside r0..r2.  For every word size w >= 2.
   The two copies of the byte loop (const source at `off_write_string_loop`, state source at
   `off_write_state_byte_array_loop`) are one block of code at a variable position, proved once;
   the state copy is also the tail of write_int (StdlibInt.v). *)
From Coq Require Import ZArith List Lia.
From HidV Require Import Machine WordLemmas MemLemmas GenStdlib StepTactics StdlibBase.
Import ListNotations.
Open Scope Z_scope.

Section Bytes.
Variables (w : Z) (code : Z -> option instr) (cmem : mem) (B : Z).
Hypothesis Hw : 2 <= w.
Hypothesis CA : lib_at w code B.
Hypothesis B_range : lib_range w B.

Notation act := (Machine.act w code cmem).
Notation runs := (Halts.runs act).
Notation lw := (Machine.lw w).
Notation sw := (Machine.sw w).
Notation W := (Machine.W w).
Notation agree := (agree w).
Notation returns := (returns w act).

Definition srcm (sc : sect) (m0 : mem) : mem := match sc with SState => m0 | SConst => cmem end.
(* which copy: loop label offset and source section *)
Definition loop_copy (L : Z) (sc : sect) : Prop :=
  (L = off_write_string_loop /\ sc = SConst) \/ (L = off_write_state_byte_array_loop /\ sc = SState).
(* a state source must not overlap r0..r2 (the loop's scratch registers) *)
Definition src_clear (sc : sect) (p n : Z) : Prop :=
  match sc with SState => p + n <= 2 * w \/ 5 * w <= p | SConst => True end.

(* one copy of the byte loop, placed at L, with the return sequence behind it *)
Definition loop_code (sc : sect) (L : Z) : list instr :=
  [IHc Cle (St (3 * w)) (Imm 0); ILoad WByte sc (St (4 * w)) (St (2 * w)); IYield (St (4 * w));
   IArith Aadd (St (2 * w)) (St (2 * w)) (Imm 1); IArith Asub (St (3 * w)) (St (3 * w)) (Imm 1);
   IJ (Imm L); IHc Cgt (St (3 * w)) (Imm 0)] ++ ret_code w.
(* the test by which every caller enters the loop at L, or skips it to the return sequence at D *)
Definition entry_code (L D : Z) : list instr :=
  [IJ (Imm L); IHc Cgt (St (3 * w)) (Imm 0); IJ (Imm D); IHalt].

(* a copy of the loop for the source section sc sits at b + k, its two labels (the loop and the
   return sequence behind it) are words, and a const source is well-formed *)
Definition loop_at (b k : Z) (sc : sect) : Prop :=
  block_at code b k (loop_code sc (b + k)) /\ (0 <= b + k /\ b + after k 7 < W) /\ (sc = SConst -> wf_mem cmem).

Lemma loop_label {b k sc} : loop_at b k sc -> 0 <= b + k < W /\ 0 <= b + after k 7 < W.
Proof. intros (_ & Hk & _). cbn [after] in *. lia. Qed.

(* the test of both `hgt [r1],0` and (negated) `hle [r1],0` on a length word *)
Lemma gt0_holds n : Machine.cond_holds w Cgt n 0 = (0 <? Machine.sgn w n).
Proof. cbn [Machine.cond_holds]. now rewrite (sgn_lit w) by lia. Qed.

(* one turn with [r0] = p and [r1] = c bytes to go: from the load round to the load again, or,
   after the last byte, out to the return sequence *)
Lemma loop_turn {b k sc m0 F m p c v2} : loop_at b k sc ->
  regs w m0 F m p c v2 -> 1 <= c < W / 2 -> 0 <= p -> p + 1 <= msize (srcm sc m0) ->
  src_clear sc p 1 ->
  let x := getb (srcm sc m0) p in
  exists m', runs (mk (b + after k 1) m) [EOut x] (mk (b + (if 0 <? c - 1 then after k 1 else after k 7)) m') /\
    regs w m0 F m' (Machine.wrap w (p + 1)) (c - 1) x.
Proof.
  intros HL G Hc Hp Hps Hcl x. pose proof HL as (CL & _ & Hwfc). pose proof (W_ge w ltac:(lia)) as HW.
  assert (Hx : 0 <= x < 256) by (subst x; destruct sc; cbn [srcm]; [apply G | apply Hwfc; reflexivity]).
  pose proof (regs_put Hw G SR2 x ltac:(lia)) as G1.
  pose proof (regs_set Hw G1 SR0 (p + 1)) as G2.
  pose proof (regs_put Hw G2 SR1 (c - 1) ltac:(lia)) as G3.
  pose proof (step_yield (cmem := cmem) (CL 2%nat _ eq_refl) (oval_reg Hw G1 SR2)) as Y. cbn beta iota in Y.
  rewrite Z.mod_small in Y by lia.
  pose proof (step_branch (kt := k) (CL 5%nat _ eq_refl) (CL 6%nat _ eq_refl) (CL 0%nat _ eq_refl)
                (proj1 (loop_label HL))
                (oval_reg (cmem := cmem) Hw G3 SR1) (oval_byte Hw 0 eq_refl)) as BR.
  rewrite gt0_holds, (sgn_small w) in BR by lia.
  eexists. split; [|exact G3].
  refine (silent_then (step_load Hw G SR2 (CL 1%nat _ eq_refl) (oval_reg Hw G SR0) Hp Hps _)
         (out_then Y
         (silent_then (step_arith Hw G1 SR0 (CL 3%nat _ eq_refl) (oval_reg Hw G1 SR0) (oval_byte Hw 1 eq_refl) eq_refl)
         (silent_then (step_arith Hw G2 SR1 (CL 4%nat _ eq_refl) (oval_reg Hw G2 SR1) (oval_byte Hw 1 eq_refl) eq_refl)
                      BR)))).
  intros ->. exact Hcl.
Qed.

Lemma loop_exit {b k sc m0 F m v0 v1 v2} : loop_at b k sc -> regs w m0 F m v0 v1 v2 ->
  returns m0 F (mk (b + after k 7) m) [].
Proof. intros (CL & _) G. exact (ret_runs cmem Hw G (block_sub 7 3 CL)). Qed.

Lemma src_clear_split {sc p n} : src_clear sc p n -> 1 <= n -> src_clear sc p 1 /\ src_clear sc (p + 1) (n - 1).
Proof. intros H Hn. revert H. destruct sc; cbn [src_clear]; [lia | auto]. Qed.

(* from the loop body (just after `hle [r1],0` passed) with S n bytes to go *)
Lemma loop_runs {b k sc m0 F} : loop_at b k sc ->
  forall n {m p v2}, regs w m0 F m p (Z.of_nat (S n)) v2 -> Z.of_nat (S n) < W / 2 ->
  0 <= p -> p + Z.of_nat (S n) <= msize (srcm sc m0) -> p + Z.of_nat (S n) <= W ->
  src_clear sc p (Z.of_nat (S n)) ->
  returns m0 F (mk (b + after k 1) m) (map EOut (bytes_from (srcm sc m0) p (S n))).
Proof.
  intros HL. induction n as [|n IH]; intros m p v2 G Hn Hp Hps HpW Hcl.
  all: destruct (src_clear_split Hcl ltac:(lia)) as [Hcl1 Hcl'].
  all: destruct (loop_turn HL G ltac:(lia) Hp ltac:(lia) Hcl1) as (m1 & R1 & G1); cbv zeta in R1, G1.
  - (* last byte: out to the return sequence *)
    exact (lands_after R1 (loop_exit HL G1)).
  - replace (Z.of_nat (S (S n)) - 1) with (Z.of_nat (S n)) in * by lia.
    rewrite (wrap_small w (p + 1)) in G1 by (unfold inrange; lia).
    destruct (Z.ltb_spec 0 (Z.of_nat (S n))); [|lia].
    exact (lands_after R1 (IH _ _ _ G1 ltac:(lia) ltac:(lia) ltac:(lia) ltac:(lia) Hcl')).
Qed.

(* entering at e with [r0] = p and the length word [r1] = n *)
Lemma entry_runs {b k sc m0 F e m p n v2} : loop_at b k sc ->
  block_at code b e (entry_code (b + k) (b + after k 7)) -> regs w m0 F m p n v2 ->
  let len := Machine.sgn w n in
  (0 < len -> 0 <= p /\ p + len <= msize (srcm sc m0) /\ p + len <= W /\ src_clear sc p len) ->
  returns m0 F (mk (b + e) m) (map EOut (bytes_from (srcm sc m0) p (Z.to_nat len))).
Proof.
  intros HL CE G len Hsrc. pose proof HL as (CL & _). pose proof (loop_label HL) as [Hk Hk7].
  pose proof (regs_range Hw G SR1) as Hnr. cbn beta iota in Hnr.
  pose proof (sgn_range w ltac:(lia) n Hnr) as Hlr. fold len in Hlr.
  pose proof (step_branch (kt := k) (CE 0%nat _ eq_refl) (CE 1%nat _ eq_refl) (CL 0%nat _ eq_refl) Hk
                (oval_reg (cmem := cmem) Hw G SR1) (oval_byte Hw 0 eq_refl)) as BR.
  rewrite gt0_holds in BR. fold len in BR.
  destruct (Z.ltb_spec 0 len) as [Hpos|Hnpos].
  - (* positive length: into the loop *)
    destruct (Hsrc Hpos) as (Hp & Hps & HpW & Hcl).
    assert (En : n = len) by (unfold len, Machine.sgn in *; destruct (Z.ltb_spec n (W / 2)); lia).
    destruct (Z.to_nat len) as [|j] eqn:Ej; [lia|].
    assert (Ej' : Z.of_nat (S j) = len) by lia. rewrite <- Ej' in Hps, HpW, Hcl, Hlr. rewrite En, <- Ej' in G.
    exact (lands_after BR (loop_runs HL j G ltac:(lia) Hp Hps HpW Hcl)).
  - (* non-positive length: j done; halt *)
    replace (Z.to_nat len) with O by lia.
    exact (lands_after (silent_then BR (step_goto (CE 2%nat _ eq_refl) (CE 3%nat _ eq_refl) (oval_word _ Hk7)))
             (loop_exit HL G)).
Qed.
Lemma lib_loop L sc : loop_copy L sc -> (sc = SConst -> wf_mem cmem) -> loop_at B L sc.
Proof.
  destruct B_range as [H0 H1]. unfold stdlib_len in H1.
  intros [[-> ->]|[-> ->]] Hwfc;
    (split; [|split; [unfold off_write_string_loop, off_write_state_byte_array_loop; cbn [after]; lia | exact Hwfc]]).
  - exact (lib_sub off_write_string_loop 10 CA eq_refl).
  - exact (lib_sub off_write_state_byte_array_loop 10 CA eq_refl).
Qed.

Section Loop.
Variables (m0 : mem) (F : Z) (L : Z) (sc : sect).
Hypothesis HL : loop_copy L sc.
Hypothesis Hwf0 : wf_mem m0.
Hypothesis Hwfc : sc = SConst -> wf_mem cmem.
Hypothesis HFP : lw m0 (1 * w) = F.
Hypothesis HF1 : 5 * w <= F - w.
Hypothesis HF2 : F <= msize m0.
Hypothesis HF3 : F < W / 2.

(* loop_runs for the two copies of the library, with `regs` and `returns` unfolded *)
Theorem loop_spec : forall n m p, agree m m0 -> wf_mem m -> lw m (2 * w) = p -> lw m (3 * w) = Z.of_nat (S n) ->
  Z.of_nat (S n) < W / 2 -> 0 <= p -> p + Z.of_nat (S n) <= msize (srcm sc m0) -> p + Z.of_nat (S n) <= W ->
  src_clear sc p (Z.of_nat (S n)) ->
  exists m', agree m' m0 /\ wf_mem m' /\
    runs (mk (B + (L + 1)) m) (map EOut (bytes_from (srcm sc m0) p (S n))) (mk (lw m0 (F - w)) m').
Proof.
  intros n m p Hag Hwf Hr0 Hr1 Hn Hp Hps HpW Hcl.
  assert (G : regs w m0 F m p (Z.of_nat (S n)) (lw m (4 * w))) by (unfold regs; auto 10).
  destruct (loop_runs (lib_loop L sc HL Hwfc) n G Hn Hp Hps HpW Hcl) as (m' & R & A & Wf').
  exists m'. auto.
Qed.

End Loop.

(* write(byte[]), both copies: length word at F-2w, origin word at F-3w, then the loop entry *)
Definition array_code (L D : Z) : list instr :=
  [ILoadO WWord SState (St (2 * w)) (St (1 * w)) (Imm (- (3 * w)));
   ILoadO WWord SState (St (3 * w)) (St (1 * w)) (Imm (- (2 * w)))] ++ entry_code L D.

Theorem write_byte_array_spec e L sc m F : loop_copy L sc ->
  block_at code B e (array_code (B + L) (B + after L 7)) ->
  frame_ok w m F (2 * w) -> (sc = SConst -> wf_mem cmem) ->
  let p := lw m (F - 3 * w) in
  let len := Machine.sgn w (lw m (F - 2 * w)) in
  (0 < len -> p + len <= msize (srcm sc m) /\ p + len <= W /\ src_clear sc p len) ->
  returns m F (mk (B + e) m) (map EOut (bytes_from (srcm sc m) p (Z.to_nat len))).
Proof.
  intros HL CE Fr Hwfc p len Hsrc.
  pose proof (frame_regs Hw Fr ltac:(lia)) as G.
  destruct Fr as (Hwf & _ & HF1 & _). unfold stack_start in HF1.
  pose proof (lw_range w ltac:(lia) m (F - 3 * w) Hwf) as Hpr. fold p in Hpr.
  pose proof (lw_range w ltac:(lia) m (F - 2 * w) Hwf) as Hnr.
  pose proof (regs_put Hw G SR0 p Hpr) as G1.
  pose proof (regs_put Hw G1 SR1 _ Hnr) as G2.
  refine (lands_after (silent_then (step_arg Hw G SR0 (CE 0%nat _ eq_refl) _ _) (step_arg Hw G1 SR1 (CE 1%nat _ eq_refl) _ _))
           (entry_runs (lib_loop L sc HL Hwfc) (block_sub 2 4 CE) G2 _)); try lia.
  intros Hpos. destruct (Hsrc Hpos) as (Ha & Hb & Hc). repeat split; assumption || lia.
Qed.

Corollary write_state_byte_array_spec m F :
  frame_ok w m F (2 * w) ->
  let p := lw m (F - 3 * w) in
  let len := Machine.sgn w (lw m (F - 2 * w)) in
  let ra := lw m (F - w) in
  (0 < len -> p + len <= msize m /\ p + len <= W /\ (p + len <= 2 * w \/ 5 * w <= p)) ->
  exists m', runs (mk (B + off_write_state_byte_array) m)
                  (map EOut (bytes_from m p (Z.to_nat len))) (mk ra m')
             /\ agree m' m /\ wf_mem m'.
Proof.
  intros Fr. refine (write_byte_array_spec off_write_state_byte_array off_write_state_byte_array_loop SState m F
                       (or_intror (conj eq_refl eq_refl)) _ Fr _).
  - exact (lib_sub off_write_state_byte_array 6 CA eq_refl).
  - discriminate.
Qed.

Corollary write_const_byte_array_spec m F :
  frame_ok w m F (2 * w) -> wf_mem cmem ->
  let p := lw m (F - 3 * w) in
  let len := Machine.sgn w (lw m (F - 2 * w)) in
  let ra := lw m (F - w) in
  (0 < len -> p + len <= msize cmem /\ p + len <= W) ->
  exists m', runs (mk (B + off_write_const_byte_array) m)
                  (map EOut (bytes_from cmem p (Z.to_nat len))) (mk ra m')
             /\ agree m' m /\ wf_mem m'.
Proof.
  intros Fr Hwfc p len ra Hsrc.
  refine (write_byte_array_spec off_write_const_byte_array off_write_string_loop SConst m F
            (or_introl (conj eq_refl eq_refl)) _ Fr (fun _ => Hwfc) _).
  - exact (lib_sub off_write_const_byte_array 6 CA eq_refl).
  - intros Hpos. destruct (Hsrc Hpos). cbn [srcm src_clear]. auto.
Qed.

(* write(string): the argument at F-2w is the const-section address sp of a length word followed
   by the bytes *)
Theorem write_string_spec m F :
  frame_ok w m F w -> wf_mem cmem ->
  let sp := lw m (F - 2 * w) in
  let len := Machine.sgn w (lw cmem sp) in
  let ra := lw m (F - w) in
  sp + w <= msize cmem ->
  (0 < len -> sp + w + len <= msize cmem /\ sp + w + len <= W) ->
  exists m', runs (mk (B + off_write_string) m)
                  (map EOut (bytes_from cmem (sp + w) (Z.to_nat len))) (mk ra m')
             /\ agree m' m /\ wf_mem m'.
Proof.
  intros Fr Hwfc sp len ra Hhdr Hsrc. pose proof (lib_sub off_write_string 7 CA eq_refl) as C.
  pose proof (frame_regs Hw Fr ltac:(lia)) as G.
  destruct Fr as (Hwf & _ & HF1 & _ & HF3). unfold stack_start in HF1.
  pose proof (W_ge_65536 w Hw) as HW.
  pose proof (lw_range w ltac:(lia) m (F - 2 * w) Hwf) as Hspr. fold sp in Hspr.
  pose proof (lw_range w ltac:(lia) cmem sp Hwfc) as Hnr.
  pose proof (regs_put Hw G SR0 sp Hspr) as G1.
  pose proof (regs_put Hw G1 SR1 _ Hnr) as G2.
  pose proof (regs_set Hw G2 SR0 (sp + 1 * w)) as G3.
  assert (E : bytes_from cmem (sp + w) (Z.to_nat len) = bytes_from cmem (Machine.wrap w (sp + 1 * w)) (Z.to_nat len)).
  { destruct (Z_lt_le_dec 0 len) as [Hpos|Hnpos].
    - destruct (Hsrc Hpos) as (Ha & Hb). rewrite wrap_small by (unfold inrange; lia). f_equal. lia.
    - now replace (Z.to_nat len) with O by lia. }
  rewrite E.
  refine (lands_after
           (silent_then (step_arg Hw G SR0 (C 0%nat _ eq_refl) _ _)
           (silent_then (step_load Hw G1 SR1 (C 1%nat _ eq_refl) (oval_reg Hw G1 SR0) _ _ _)
                        (step_arith Hw G2 SR0 (C 2%nat _ eq_refl) (oval_reg Hw G2 SR0) (oval_word (1 * w) _) eq_refl)))
           (entry_runs (lib_loop off_write_string_loop SConst (or_introl (conj eq_refl eq_refl)) (fun _ => Hwfc)) (block_sub 3 4 C) G3 _)); try (lia || discriminate).
  fold len. intros Hpos. destruct (Hsrc Hpos) as (Ha & Hb). rewrite wrap_small by (unfold inrange; lia). cbn [srcm src_clear]. lia.
Qed.

End Bytes.

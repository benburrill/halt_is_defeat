(* The absorbing end states of the regenerated runtime library: all_is_win, all_is_broken and the
   four error stubs.  For every word size w >= 2 and EVERY memory (no well-formedness needed):
   the machine never halts, and its committed events are the flags of the stub followed by
   `sleep 0x7f7f` forever.  Feeds C03 / C05. *)
From Coq Require Import ZArith List Bool Lia.
From HidV Require Import Machine Halts GenStdlib Idioms StepTactics StdlibBase.
Import ListNotations.
Open Scope Z_scope.

Section Stubs.
Variables (w : Z) (code : Z -> option instr) (cmem : mem) (B : Z).
Hypothesis Hw : 2 <= w.
Hypothesis CA : lib_at w code B.
Hypothesis B_range : lib_range w B.

Notation act := (Machine.act w code cmem).
Notation Halts := (Halts.Halts act).
Notation runs := (Halts.runs act).
Notation csteps := (Halts.csteps act).
Notation cstep := (Halts.cstep act).
Notation cplus := (Halts.cplus act).

(* at the label `tnt` of stdlib.py, `sleep 0x7f7f; j tnt; halt`, in which every stub ends;
   0x7f7f = 32639 *)
Definition tnt (m : mem) : state := mk (B + off_tnt) m.
Definition sleep_ev : event := ESleep 32639.

Lemma tnt_sleep m : cstep (tnt m) (Some sleep_ev) (mk (B + (off_tnt + 1)) m).
Proof.
  apply C_next. unfold tnt. rewrite Z.add_assoc.
  refine (act_sleep w code cmem _ m _ _ (lib_sub off_tnt 3 CA eq_refl 0%nat _ eq_refl) (oval_word _ _)).
  pose proof (W_ge_65536 w Hw). lia.
Qed.
Lemma tnt_back m : cstep (mk (B + (off_tnt + 1)) m) None (tnt m).
Proof.
  pose proof (lib_sub off_tnt 3 CA eq_refl) as C. eapply C_take.
  - exact (act_j w code cmem _ m _ _ (C 1%nat _ eq_refl) (oval_word _ (lib_label off_tnt B_range eq_refl))).
  - apply H_halt. rewrite <- Z.add_assoc. exact (act_halt w code cmem _ m (C 2%nat _ eq_refl)).
Qed.
Lemma tnt_cycle m : cplus (tnt m) (tnt m).
Proof. eapply P_more; [apply tnt_sleep|]. eapply P_one. apply tnt_back. Qed.
Lemma tnt_not_halts m : ~ Halts (tnt m).
Proof. apply cycle_not_halts, tnt_cycle. Qed.
Lemma tnt_turn m : csteps (tnt m) [sleep_ev] (tnt m).
Proof. eapply CS_ev; [apply tnt_sleep|]. eapply CS_tau; [apply tnt_back|]. constructor. Qed.
Lemma tnt_forever m n : csteps (tnt m) (repeat sleep_ev n) (tnt m).
Proof.
  induction n as [|n IH]; cbn [repeat]; [constructor|].
  change (sleep_ev :: repeat sleep_ev n) with ([sleep_ev] ++ repeat sleep_ev n).
  eapply csteps_app; [apply tnt_turn | exact IH].
Qed.

(* a prefix `runs` into tnt gives the whole infinite behaviour *)
Definition absorbed (s : state) (flags : list event) : Prop :=
  ~ Halts s /\ runs s flags (tnt (mm s)) /\ cplus (tnt (mm s)) (tnt (mm s)) /\
  forall n, csteps s (flags ++ repeat sleep_ev n) (tnt (mm s)).
Lemma absorbed_of_runs s flags : runs s flags (tnt (mm s)) -> absorbed s flags.
Proof.
  intros R. destruct (runs_not_halts _ _ _ _ R (tnt_not_halts _)) as [N C].
  split; [exact N|]. split; [exact R|]. split; [apply tnt_cycle|].
  intros n. eapply csteps_app; [exact C | apply tnt_forever].
Qed.

(* flag f; j t; halt *)
Lemma flag_goto_runs k f t m : block_at code B k [IFlag f; IJ (Imm (B + t)); IHalt] ->
  (0 <=? t) && (t <? stdlib_len) = true ->
  runs (mk (B + k) m) [EFlag f] (mk (B + t) m).
Proof.
  intros Ck Ht. exact (out_then (step_flag (Ck 0%nat _ eq_refl))
    (step_goto (Ck 1%nat _ eq_refl) (Ck 2%nat _ eq_refl) (oval_word _ (lib_label t B_range Ht)))).
Qed.

Lemma win_runs m : runs (mk (B + off_all_is_win) m) [EFlag 0] (tnt m).
Proof. exact (step_flag (lib_sub off_all_is_win 1 CA eq_refl 0%nat _ eq_refl)). Qed.
Lemma broken_runs m : runs (mk (B + off_all_is_broken) m) [EFlag 1] (tnt m).
Proof.
  exact (flag_goto_runs off_all_is_broken 1 off_tnt m (lib_sub off_all_is_broken 3 CA eq_refl) eq_refl).
Qed.
(* flag f; j all_is_broken; halt *)
Lemma stub_runs k f m : block_at code B k [IFlag f; IJ (Imm (B + off_all_is_broken)); IHalt] ->
  runs (mk (B + k) m) [EFlag f; EFlag 1] (tnt m).
Proof. intros Ck. exact (out_then (flag_goto_runs k f off_all_is_broken m Ck eq_refl) (broken_runs m)). Qed.

Theorem all_is_win_absorbing m : absorbed (mk (B + off_all_is_win) m) [EFlag 0].
Proof. apply absorbed_of_runs, win_runs. Qed.
Theorem all_is_broken_absorbing m : absorbed (mk (B + off_all_is_broken) m) [EFlag 1].
Proof. apply absorbed_of_runs, broken_runs. Qed.
Theorem stack_overflow_absorbing m : absorbed (mk (B + off_stack_overflow) m) [EFlag 2; EFlag 1].
Proof. apply absorbed_of_runs, (stub_runs off_stack_overflow 2), (lib_sub off_stack_overflow 3 CA eq_refl). Qed.
Theorem division_by_zero_absorbing m : absorbed (mk (B + off_division_by_zero) m) [EFlag 3; EFlag 1].
Proof. apply absorbed_of_runs, (stub_runs off_division_by_zero 3), (lib_sub off_division_by_zero 3 CA eq_refl). Qed.
Theorem out_of_bounds_absorbing m : absorbed (mk (B + off_out_of_bounds) m) [EFlag 4; EFlag 1].
Proof. apply absorbed_of_runs, (stub_runs off_out_of_bounds 4), (lib_sub off_out_of_bounds 3 CA eq_refl). Qed.
Theorem nonlocal_preempt_absorbing m : absorbed (mk (B + off_nonlocal_preempt) m) [EFlag 5; EFlag 1].
Proof. apply absorbed_of_runs, (stub_runs off_nonlocal_preempt 5), (lib_sub off_nonlocal_preempt 3 CA eq_refl). Qed.

End Stubs.

(* C13: the regenerated _escape_bytes is inverted by the strict literal grammar. *)
From Coq Require Import ZArith List Bool Lia.
From HidV Require Import AsmText GenEscape.
Import ListNotations.
Open Scope Z_scope.

Definition is_byte (b : Z) : Prop := 0 <= b < 256.

Lemma hex_split b : 0 <= b < 256 -> 0 <= b / 16 < 16 /\ 0 <= b mod 16 < 16 /\ 16 * (b / 16) + b mod 16 = b.
Proof. intros H. pose proof (Z.div_mod b 16). pose proof (Z.mod_pos_bound b 16). 
  assert (0 <= b / 16) by (apply Z.div_pos; lia).
  assert (b / 16 < 16) by (apply Z.div_lt_upper_bound; lia). lia. Qed.

Lemma unescape_escape_byte q b tl : (q = 34 \/ q = 39) -> is_byte b ->
  unescape q (escape_byte [q] b ++ tl) = cons_res b (unescape q tl).
Proof.
  intros Hq Hb. unfold is_byte in Hb.
  unfold escape_byte, memz. cbn [existsb].
  destruct (Z.eqb_spec b 92) as [E92|N92]; cbn [orb].
  { subst b. destruct Hq; subst q; cbn [app unescape Z.eqb Pos.eqb orb andb]; reflexivity. }
  destruct (Z.eqb_spec b q) as [Eq|Nq]; cbn [orb app].
  { subst b. cbn [unescape]. destruct Hq; subst q; cbn [app unescape Z.eqb Pos.eqb orb andb]; reflexivity. }
  destruct (Z.eqb_spec b 10) as [E10|N10]; cbn [orb app].
  { subst b. destruct Hq; subst q; cbn [app unescape Z.eqb Pos.eqb orb andb]; reflexivity. }
  destruct (Z.eqb_spec b 13) as [E13|N13]; cbn [orb app].
  { subst b. destruct Hq; subst q; cbn [app unescape Z.eqb Pos.eqb orb andb]; reflexivity. }
  destruct ((32 <=? b) && (b <=? 126)) eqn:Ep; cbn [app].
  - cbn [unescape]. unfold printable. rewrite Ep.
    destruct (Z.eqb_spec b q); [contradiction|]. destruct (Z.eqb_spec b 92); [contradiction|]. reflexivity.
  - destruct (hex_split b Hb) as (H1 & H2 & H3).
    unfold hex2. cbn [unescape app].
    destruct (Z.eqb_spec 92 q); [destruct Hq; lia|]. cbn [Z.eqb Pos.eqb].
    rewrite !unhex_hexdigit by assumption. rewrite H3. reflexivity.
Qed.

Theorem escape_roundtrip q bs rest : (q = 34 \/ q = 39) -> Forall is_byte bs ->
  unescape q (escape_bytes [q] bs ++ q :: rest) = Some (bs, rest).
Proof.
  intros Hq Hbs. unfold escape_bytes. induction Hbs as [|b bs Hb Hbs IH]; cbn [flat_map app].
  - cbn [unescape]. now rewrite Z.eqb_refl.
  - rewrite <- app_assoc, unescape_escape_byte, IH by assumption. reflexivity.
Qed.

Lemma safe_char_range q c : (q = 34 \/ q = 39) -> 48 <= c <= 126 -> safe_char q c = true.
Proof.
  intros Hq Hc. unfold safe_char, printable.
  rewrite (proj2 (Z.leb_le 32 c)), (proj2 (Z.leb_le c 126)), (proj2 (Z.eqb_neq c q))
    by (destruct Hq; lia).
  reflexivity.
Qed.

(* the escaped text contains only printable characters and never the raw quote: data cannot
   break the line or token structure of the file *)
Lemma escape_byte_safe q b : (q = 34 \/ q = 39) -> is_byte b ->
  forallb (safe_char q) (escape_byte [q] b) = true \/
  (* the only non-"safe" characters are inside \q, \\ : a backslash followed by the quote *)
  escape_byte [q] b = [92; q].
Proof.
  intros Hq Hb. unfold is_byte in Hb. unfold escape_byte, memz. cbn [existsb].
  destruct (Z.eqb_spec b 92) as [E92|N92]; cbn [orb].
  { left. destruct Hq; subst q; reflexivity. }
  destruct (Z.eqb_spec b q) as [Eq|Nq]; cbn [orb app].
  { right. now subst. }
  left.
  destruct (Z.eqb_spec b 10) as [E10|N10]; cbn [orb app]; [destruct Hq; subst q; reflexivity|].
  destruct (Z.eqb_spec b 13) as [E13|N13]; cbn [orb app]; [destruct Hq; subst q; reflexivity|].
  destruct ((32 <=? b) && (b <=? 126)) eqn:Ep; cbn [app forallb].
  - unfold safe_char, printable. rewrite Ep. destruct (Z.eqb_spec b q); [contradiction|]. reflexivity.
  - destruct (hex_split b Hb) as (H1 & H2 & H3).
    pose proof (hexdigit_range _ H1). pose proof (hexdigit_range _ H2).
    unfold hex2. cbn [forallb]. rewrite !(safe_char_range q) by (exact Hq || lia). reflexivity.
Qed.

Lemma escape_all_printable q bs : (q = 34 \/ q = 39) -> Forall is_byte bs ->
  forallb printable (escape_bytes [q] bs) = true.
Proof.
  intros Hq Hbs. unfold escape_bytes. induction Hbs as [|b bs Hb Hbs IH]; cbn [flat_map]; [reflexivity|].
  rewrite forallb_app, IH, andb_true_r.
  destruct (escape_byte_safe q b Hq Hb) as [H|H].
  - rewrite forallb_forall in *. intros x Hx. specialize (H x Hx). unfold safe_char in H.
    apply andb_prop in H; tauto.
  - rewrite H. destruct Hq; subst q; reflexivity.
Qed.

(* Shared context of the runtime-library proofs (C17): the calling convention as predicates, how
   they give the block and register view of StepTactics.v, and a family of satisfiability
   witnesses (a concrete machine on which every hypothesis used below holds). *)
From Coq Require Import ZArith List Bool Lia FMapPositive.
From HidV Require Import Machine WordLemmas MemLemmas GenStdlib StepTactics.
Import ListNotations.
Open Scope Z_scope.

(* the library is loaded at code address B *)
Definition lib_at (w : Z) (code : Z -> option instr) (B : Z) : Prop :=
  forall k, 0 <= k < stdlib_len -> code (B + k) = nth_error (stdlib_code w B) (Z.to_nat k).
(* ... and all its addresses are words *)
Definition lib_range (w B : Z) : Prop := 0 <= B /\ B + stdlib_len <= Machine.W w.

(* On entry [fp] = F, the callee frame [F - args - 1w, F) lies above the registers and inside the
   state section, F is a non-negative signed word; `args` = bytes of arguments below the RA. *)
Definition frame_ok (w : Z) (m : mem) (F args : Z) : Prop :=
  wf_mem m /\ Machine.lw w m (reg_fp w) = F /\
  stack_start w <= F - w - args /\ F <= msize m /\ F < Machine.W w / 2.

(* The proofs address an instruction by its index in the listing `stdlib_code`, counted from the
   start (`lib_block`) or from a label `off_*` of GenStdlib.v (`lib_sub`); the `eq_refl` that
   goes with an index checks that the instruction expected stands there. *)
Lemma stdlib_length w B : Z.of_nat (length (stdlib_code w B)) = stdlib_len.
Proof. reflexivity. Qed.
Lemma lib_block {w code B} : lib_at w code B -> block_at code B 0 (stdlib_code w B).
Proof.
  intros CA j i H. rewrite after_nat, Z.add_0_l.
  assert (Hj : (j < length (stdlib_code w B))%nat) by (apply nth_error_Some; congruence).
  rewrite (CA (Z.of_nat j)), Nat2Z.id by (rewrite <- (stdlib_length w B); lia).
  exact H.
Qed.
Lemma lib_sub {w code B} o len : lib_at w code B -> (0 <=? o) = true ->
  block_at code B o (firstn len (skipn (Z.to_nat o) (stdlib_code w B))).
Proof.
  intros CA Ho. pose proof (block_sub (Z.to_nat o) len (lib_block CA)) as C.
  rewrite after_nat, Z2Nat.id, Z.add_0_l in C by lia. exact C.
Qed.
Lemma lib_label {w B} k : lib_range w B -> (0 <=? k) && (k <? stdlib_len) = true -> 0 <= B + k < Machine.W w.
Proof. intros [H0 H1] Hk. lia. Qed.

Lemma frame_regs {w m F args} : 2 <= w -> frame_ok w m F args -> 0 <= args ->
  regs w m F m (Machine.lw w m (2 * w)) (Machine.lw w m (3 * w)) (Machine.lw w m (4 * w)).
Proof.
  intros Hw (Wf & E & H1 & H2 & H3) Ha. unfold reg_fp, stack_start in *. apply regs_init; assumption || lia.
Qed.

(* The inlined members of the write family.
   write(byte) is lowered to a single `yield v`, writeln(...) to the write followed by a single
   `yield '\n'` (generator.py eval_func_call): at the machine level a yield emits exactly the low
   byte of its operand and changes no memory. *)
Section Inline.
Variables (w : Z) (code : Z -> option instr) (cmem : mem).
Notation act := (Machine.act w code cmem).
Notation runs := (Halts.runs act).
Lemma yield_spec p m a x : code p = Some (IYield a) -> Machine.val w cmem (mk p m) a = Some x ->
  runs (mk p m) [EOut (x mod 256)] (mk (p + 1) m).
Proof.
  (* `0 + p` is `p`, and the `val` of a state is the `oval` of its memory, both by conversion *)
  exact (step_yield (b := 0) (k := p)).
Qed.
Lemma newline_spec p m : 1 <= w -> code p = Some (IYield (Imm 10)) -> runs (mk p m) [EOut 10] (mk (p + 1) m).
Proof.
  intros Hw Hc. apply (yield_spec p m (Imm 10) 10 Hc). cbn [Machine.val]. f_equal.
  apply (wrap_lit w Hw). lia.
Qed.
End Inline.

(* all-zero memory of a given size; code = the library at address 0 and nothing else *)
Definition zmem (n : Z) : mem := mkmem n (PositiveMap.empty Z).
Lemma wf_zmem n : wf_mem (zmem n).
Proof. intros a. unfold getb, zmem; cbn [mdata]. rewrite PositiveMap.gempty. lia. Qed.
Definition lib_code (w : Z) (z : Z) : option instr :=
  if 0 <=? z then nth_error (stdlib_code w 0) (Z.to_nat z) else None.
Lemma lib_code_at w : lib_at w (lib_code w) 0.
Proof. intros k Hk. unfold lib_code. cbn [Z.add]. destruct (Z.leb_spec 0 (0 + k)); [reflexivity | lia]. Qed.
Lemma lib_range_2 : lib_range 2 0.
Proof. unfold lib_range, stdlib_len, Machine.W. cbn. lia. Qed.

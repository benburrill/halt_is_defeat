(* Facts about the REGENERATED layout arithmetic (Gen/GenLayout.v, from generator.py):
   pack_bools puts element i of a bool list into bit (i mod 8) of byte (i / 8) and produces
   (n + 7) / 8 bytes, all in [0, 256); array sizes of admissible lengths do not wrap; every
   admissible stack lies in the positive signed range.  (C13 constant data, C04.) *)
From Coq Require Import ZArith List Bool Lia ZifyNat ZifyBool.
From HidV Require Import Machine WordLemmas GenLayout.
Import ListNotations.
Open Scope Z_scope.
(* (i / 8), (i mod 8) and (n + 7) / 8 are what the layout is written in: lia is to know them by
   their equations, here and in every importer *)
Ltac Zify.zify_post_hook ::= Z.to_euclidean_division_equations.

Definition is_bool (b : Z) : Prop := b = 0 \/ b = 1.

Lemma nth_is_bool l j : Forall is_bool l -> is_bool (nth j l 0).
Proof.
  intros Hl. destruct (nth_in_or_default j l 0) as [H| ->]; [|left; reflexivity].
  exact (proj1 (Forall_forall _ _) Hl _ H).
Qed.

Lemma shl_bool_bit b r s : is_bool b -> 0 <= r ->
  Z.testbit (Z.shiftl b r) s = (b =? 1) && (s =? r).
Proof.
  intros [-> | ->] Hr.
  - rewrite Z.shiftl_0_l. apply Z.testbit_0_l.
  - rewrite Z.shiftl_1_l, Z.pow2_bits_eqb by exact Hr. apply Z.eqb_sym.
Qed.

(* bit t of byte k; a byte beyond the end reads as 0 *)
Definition bit (bytes : list Z) (k t : nat) : bool := Z.testbit (nth k bytes 0) (Z.of_nat t).

Lemma nth_snoc (l : list Z) x j :
  nth j (l ++ [x]) 0 = if (j <? length l)%nat then nth j l 0 else if (j =? length l)%nat then x else 0.
Proof.
  destruct (Nat.ltb_spec j (length l)) as [H|H]; [apply app_nth1; exact H|].
  rewrite app_nth2 by exact H. destruct (Nat.eqb_spec j (length l)) as [->|E].
  - rewrite Nat.sub_diag. reflexivity.
  - apply nth_overflow. cbn [length]. lia.
Qed.

Lemma bit_lor_last bytes x y k t :
  bit (bytes ++ [Z.lor x y]) k t
  = bit (bytes ++ [x]) k t || (k =? length bytes)%nat && Z.testbit y (Z.of_nat t).
Proof.
  unfold bit. rewrite !nth_snoc.
  destruct (Nat.ltb_spec k (length bytes)) as [H|H].
  - rewrite (proj2 (Nat.eqb_neq _ _)) by lia. symmetry. apply orb_false_r.
  - destruct (k =? length bytes)%nat; [apply Z.lor_spec | symmetry; apply orb_false_r].
Qed.

(* beyond the end every byte reads as 0, so a trailing zero byte is invisible *)
Lemma bit_zero_last bytes k t : bit (bytes ++ [0]) k t = bit bytes k t.
Proof.
  unfold bit. rewrite nth_snoc. destruct (Nat.ltb_spec k (length bytes)) as [H|H]; [reflexivity|].
  rewrite (nth_overflow bytes) by exact H. destruct (k =? length bytes)%nat; reflexivity.
Qed.

Lemma position_eqb n k t :
  (k =? n / 8)%nat && (Z.of_nat t =? Z.of_nat n mod 8) = (t <? 8)%nat && (8 * k + t =? n)%nat.
Proof. lia. Qed.

(* One step of the loop.  With n elements packed, acc holds the (n + 7) / 8 bytes so far, last
   byte first.  The step opens a zero byte when n is a multiple of 8, and in either case ORs b,
   shifted to bit n mod 8, into the head, which is byte n / 8.  So it sets bit t of byte k
   exactly when 8k + t = n. *)
Lemma pack_step_bit acc n b k t : is_bool b -> length acc = ((n + 7) / 8)%nat ->
  bit (rev (pack_step acc (Z.of_nat n) b)) k t
  = bit (rev acc) k t || (t <? 8)%nat && ((8 * k + t =? n)%nat && (b =? 1)).
Proof.
  intros Hb Hlen. unfold pack_step. cbv zeta. set (r := Z.of_nat n mod 8).
  assert (H : exists last rest, (if r =? 0 then 0 :: acc else acc) = last :: rest
              /\ length rest = (n / 8)%nat
              /\ bit (rev rest ++ [last]) k t = bit (rev acc) k t).
  { destruct (Z.eqb_spec r 0) as [E|E].
    - exists 0, acc. repeat split; [lia | apply bit_zero_last].
    - destruct acc as [|last rest]; cbn [length] in Hlen; [lia|].
      exists last, rest. repeat split. lia. }
  destruct H as (last & rest & -> & Hq & <-). cbn [rev].
  rewrite bit_lor_last, shl_bool_bit, rev_length, Hq by (exact Hb || apply Z.mod_pos_bound; lia).
  f_equal. rewrite (andb_comm (b =? 1)), !andb_assoc. f_equal. apply position_eqb.
Qed.

Lemma pack_step_length acc n b : length acc = ((n + 7) / 8)%nat ->
  length (pack_step acc (Z.of_nat n) b) = ((S n + 7) / 8)%nat.
Proof.
  intros Hlen. unfold pack_step. cbv zeta. destruct (Z.eqb_spec (Z.of_nat n mod 8) 0) as [Hr|Hr].
  - cbn [length]. lia.
  - destruct acc as [|x rest]; cbn [length] in *; lia.
Qed.

(* Loop invariant of pack_go: bit t of byte k is set iff t < 8 and element 8k+t is 1
   (an element beyond the end reads as 0). *)
Definition packs (l bytes : list Z) : Prop :=
  forall k t, bit bytes k t = (t <? 8)%nat && (nth (8 * k + t) l 0 =? 1).

Lemma pack_step_packs done acc b : is_bool b -> length acc = ((length done + 7) / 8)%nat ->
  packs done (rev acc) -> packs (done ++ [b]) (rev (pack_step acc (Z.of_nat (length done)) b)).
Proof.
  intros Hb Hlen Hp k t. rewrite (pack_step_bit _ _ _ _ _ Hb Hlen), Hp, <- andb_orb_distrib_r.
  f_equal. rewrite nth_snoc.
  destruct (Nat.ltb_spec (8 * k + t) (length done)) as [H|H].
  - rewrite (proj2 (Nat.eqb_neq _ _)) by lia. apply orb_false_r.
  - rewrite nth_overflow by exact H. destruct (8 * k + t =? length done)%nat; reflexivity.
Qed.

Lemma pack_go_packs : forall l done acc, Forall is_bool l ->
  length acc = ((length done + 7) / 8)%nat -> packs done (rev acc) ->
  packs (done ++ l) (pack_go l (Z.of_nat (length done)) acc).
Proof.
  induction l as [|b r IH]; intros done acc Hl Hlen Hp; cbn [pack_go].
  - rewrite app_nil_r. exact Hp.
  - inversion_clear Hl as [|? ? Hb Hr].
    replace (done ++ b :: r) with ((done ++ [b]) ++ r) by (rewrite <- app_assoc; reflexivity).
    replace (Z.of_nat (length done) + 1) with (Z.of_nat (length (done ++ [b])))
      by (rewrite app_length; cbn [length]; lia).
    apply IH; [exact Hr | | apply pack_step_packs; assumption].
    rewrite app_length, Nat.add_1_r. apply pack_step_length. exact Hlen.
Qed.

Lemma pack_bools_bits l k t : Forall is_bool l ->
  Z.testbit (nth k (pack_bools l) 0) (Z.of_nat t) = (t <? 8)%nat && (nth (8 * k + t) l 0 =? 1).
Proof.
  intros Hl. revert k t. apply (pack_go_packs l [] [] Hl); [reflexivity|].
  intros k t. unfold bit. cbn [rev]. rewrite !nth_overflow by apply Nat.le_0_l.
  rewrite Z.testbit_0_l. symmetry. apply andb_false_r.
Qed.

(* the length does not depend on the elements being booleans *)
Lemma pack_go_length : forall l n acc, length acc = ((n + 7) / 8)%nat ->
  length (pack_go l (Z.of_nat n) acc) = ((n + length l + 7) / 8)%nat.
Proof.
  induction l as [|b r IH]; intros n acc Hlen; cbn [pack_go length].
  - rewrite rev_length, Hlen, Nat.add_0_r. reflexivity.
  - replace (Z.of_nat n + 1) with (Z.of_nat (S n)) by lia.
    rewrite (IH (S n) _ (pack_step_length acc n b Hlen)), Nat.add_succ_comm. reflexivity.
Qed.

Theorem pack_bools_length : forall l, length (pack_bools l) = ((length l + 7) / 8)%nat.
Proof. intros l. apply (pack_go_length l O []). reflexivity. Qed.

(* element i is bit (i mod 8) of byte (i / 8) *)
Theorem pack_bools_spec : forall l i, Forall (fun b => b = 0 \/ b = 1) l -> (i < length l)%nat ->
  Z.testbit (nth (i / 8) (pack_bools l) 0) (Z.of_nat (i mod 8)) = (nth i l 0 =? 1).
Proof.
  intros l i Hl _. rewrite (pack_bools_bits l (i / 8) (i mod 8) Hl), <- Nat.div_mod_eq.
  rewrite (proj2 (Nat.ltb_lt _ _)) by (apply Nat.mod_upper_bound; discriminate). reflexivity.
Qed.
(* ... and no other bit is set: bits of padding positions and bits 8.. are zero *)
Theorem pack_bools_other_bits : forall l k t, Forall (fun b => b = 0 \/ b = 1) l ->
  (8 <= t \/ length l <= 8 * k + t)%nat -> Z.testbit (nth k (pack_bools l) 0) (Z.of_nat t) = false.
Proof.
  intros l k t Hl Ht. rewrite (pack_bools_bits l k t Hl). destruct Ht as [Ht|Ht].
  - rewrite (proj2 (Nat.ltb_ge _ _)) by exact Ht. reflexivity.
  - rewrite nth_overflow by exact Ht. apply andb_false_r.
Qed.

(* a byte with no bit set from bit 8 up is its own residue mod 2^8 *)
Theorem pack_bools_bytes : forall l, Forall (fun b => b = 0 \/ b = 1) l ->
  Forall (fun x => 0 <= x < 256) (pack_bools l).
Proof.
  intros l Hl. apply Forall_forall. intros x Hx. destruct (In_nth _ _ 0 Hx) as (k & _ & <-).
  replace (nth k (pack_bools l) 0) with (nth k (pack_bools l) 0 mod 2 ^ 8);
    [apply Z.mod_pos_bound; reflexivity|].
  apply Z.bits_inj'. intros s Hs. rewrite Z.testbit_mod_pow2 by discriminate.
  destruct (Z.ltb_spec s 8) as [H|H]; [reflexivity|].
  rewrite <- (Z2Nat.id s Hs). symmetry. apply pack_bools_other_bits; [exact Hl | lia].
Qed.

(* a clean specification: byte k is the little-endian number of elements 8k..8k+7 *)
Definition byte_at (l : list Z) (k : nat) : Z :=
  fold_right (fun t a => nth (8 * k + t) l 0 * 2 ^ Z.of_nat t + a) 0 (seq 0 8).
Definition pack_spec (l : list Z) : list Z := map (byte_at l) (seq 0 ((length l + 7) / 8)).

(* The bits of sum_{s <= j < s+n} f j * 2^j for boolean f j are the f j.  Term s has its only bit
   at s and the rest of the sum has none below s+1, so adding them carries nothing. *)
Lemma sum_bits (f : nat -> Z) : (forall j, is_bool (f j)) -> forall n s t,
  Z.testbit (fold_right (fun j a => f j * 2 ^ Z.of_nat j + a) 0 (seq s n)) (Z.of_nat t)
  = (s <=? t)%nat && (t <? s + n)%nat && (f t =? 1).
Proof.
  intros Hf. induction n as [|n IH]; intros s t; cbn [seq fold_right].
  - rewrite Z.testbit_0_l. lia.
  - assert (B : forall m, Z.testbit (f s * 2 ^ Z.of_nat s) (Z.of_nat m) = (f s =? 1) && (m =? s)%nat).
    { intros m. rewrite <- Z.shiftl_mul_pow2, shl_bool_bit by (apply Hf || lia). lia. }
    rewrite Z.add_nocarry_lxor.
    + rewrite Z.lxor_spec, B, IH. destruct (Nat.eqb_spec t s) as [->|E]; lia.
    + apply Z.bits_inj'. intros m Hm. rewrite Z.land_spec, Z.bits_0, <- (Z2Nat.id m Hm), B, IH. lia.
Qed.

Lemma byte_at_bits l k t : Forall is_bool l ->
  Z.testbit (byte_at l k) (Z.of_nat t) = (t <? 8)%nat && (nth (8 * k + t) l 0 =? 1).
Proof.
  intros Hl. apply (sum_bits (fun t => nth (8 * k + t) l 0)). intros j. apply nth_is_bool. exact Hl.
Qed.

Theorem pack_bools_eq_spec : forall l, Forall (fun b => b = 0 \/ b = 1) l -> pack_bools l = pack_spec l.
Proof.
  intros l Hl. unfold pack_spec. rewrite <- pack_bools_length.
  apply (nth_ext _ _ 0 (byte_at l 0)); [rewrite map_length, seq_length; reflexivity|].
  intros k Hk. rewrite map_nth, seq_nth by exact Hk.
  apply Z.bits_inj'. intros s Hs.
  rewrite <- (Z2Nat.id s Hs), (pack_bools_bits l k _ Hl), (byte_at_bits l k _ Hl). reflexivity.
Qed.

Example pack_bools_examples :
  pack_bools [1;0;1;1;0;1;0;1;1] = [173; 1] /\ pack_bools [] = [] /\ pack_bools [1] = [1] /\
  pack_bools [0;0;0;0;0;0;0;1] = [128] /\ pack_spec [1;0;1;1;0;1;0;1;1] = [173; 1].
Proof. vm_compute. repeat split. Qed.

Lemma max_signed_eq w : 1 <= w -> max_signed w = Machine.W w / 2 - 1.
Proof. intros Hw. unfold max_signed. rewrite Z.shiftl_1_l, (W_half w Hw). reflexivity. Qed.
Lemma max_unsigned_eq w : 1 <= w -> max_unsigned w = Machine.W w - 1.
Proof. intros Hw. unfold max_unsigned, Machine.W. rewrite Z.shiftl_1_l. reflexivity. Qed.
Lemma max_signed_pos w : 1 <= w -> 127 <= max_signed w.
Proof. intros Hw. rewrite (max_signed_eq w Hw). pose proof (half_pos w Hw). lia. Qed.

Lemma array_size_bool w len : 0 <= len -> array_size w DBOOL len = (len + 7) / 8.
Proof. intros H. unfold array_size. cbn [dtype_eqb]. rewrite Z.shiftr_div_pow2 by lia. reflexivity. Qed.
Lemma frame_size_values w :
  frame_size w DINT = w /\ frame_size w DSTRING = w /\ frame_size w DBOOL = 1 /\ frame_size w DBYTE = 1 /\
  frame_size w DEMPTY = 0.
Proof. repeat split. Qed.
Lemma byte_sized_values :
  byte_sized DBOOL = true /\ byte_sized DBYTE = true /\ byte_sized DINT = false /\ byte_sized DSTRING = false /\
  byte_sized DEMPTY = false.
Proof. repeat split. Qed.

Theorem array_size_no_wrap : forall w d len, 2 <= w -> 0 <= len <= max_length w d ->
  0 <= array_size w d len <= max_signed w.
Proof.
  intros w d len Hw Hlen. pose proof (max_signed_pos w ltac:(lia)) as Hms.
  destruct d; unfold max_length, array_size, frame_size, byte_sized in *; cbn [dtype_eqb orb] in *.
  - (* int: len * w *) pose proof (Z.mul_div_le (max_signed w) w ltac:(lia)). nia.
  - (* bool *) rewrite Z.shiftr_div_pow2 by lia. change (2 ^ 3) with 8. lia.
  - (* byte *) lia.
  - (* string *) pose proof (Z.mul_div_le (max_signed w) w ltac:(lia)). nia.
  - (* empty *) lia.
Qed.

Theorem stack_admissible_in_signed_range : forall w stack, stack_size_rejected w stack = false -> 0 <= stack ->
  (stack + 5) * w <= max_signed w.
Proof.
  intros w stack H _. unfold stack_size_rejected in H. rewrite Z.gtb_ltb in H. apply Z.ltb_ge in H. exact H.
Qed.
Corollary stack_addresses_positive_signed w stack a : 2 <= w -> stack_size_rejected w stack = false -> 0 <= stack ->
  0 <= a < (stack + 5) * w -> Machine.sgn w a = a.
Proof.
  intros Hw H Hs Ha. pose proof (stack_admissible_in_signed_range w stack H Hs) as Hm.
  rewrite (max_signed_eq w ltac:(lia)) in Hm. apply sgn_small. lia.
Qed.

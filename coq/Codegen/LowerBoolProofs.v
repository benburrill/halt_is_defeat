(* Component `lowerbool`: semantic correctness of the model of bool_expr_branch / eval_expr on int
   operands / truth_is_defeat (LowerBoolModel) on the Turing-jump machine, for ALL expression trees
   of F_model (unbounded depth): comparisons of int operands (literals, int locals and globals,
   byte-sized locals and the low byte of int locals read as ints (OByte), + - *, unary - +, and
   `(x is byte) is int` of a computed value or a global (OTrunc)), bool literals, bool locals and
   globals, not, and, or; every word size w >= 2, arbitrary surrounding code, arbitrary
   straight-line continuations with or without a final goto.

   The lowered lines are first related to an abstract code memory (`placed`: every instruction sits
   where two-pass resolution puts it, every label resolves to its address; the labels a lowering
   defines are fresh and distinct, so `resolve` yields a placement).  The source semantics (sval,
   beval) and the memory effect of the emitted code (eval_mem, run_mem) are functions; the lowered
   code is shown to run silently into exactly that memory, changing only r0, r1 and the temporaries'
   area (`agree`, which leaves r2 to the runtime library as well): operands by induction on the
   operand (eval_opd_props, with the keep / push / pop discipline), boolean trees by induction on
   the tree (lower_runs, from the idiom theorems of Idioms.v and the table entries of GenTables.v;
   `and` and `or` are one construction, `joined`, taken with the continuations exchanged for `or`),
   then values and truth_is_defeat on top.  The theorems at the end restate this for `resolve`d
   code; the examples show the hypotheses satisfiable. *)
From Coq Require Import ZArith List Bool Lia.
From HidV Require Import Machine Halts WordLemmas MemLemmas GenTables OpTables Idioms TimeTravel LowerBoolModel.
Import ListNotations.
Open Scope Z_scope.
Ltac Zify.zify_post_hook ::= Z.to_euclidean_division_equations.

Lemma size_app a b : size (a ++ b) = size a + size b.
Proof. induction a as [|[x|i] r IH]; cbn [app size]; lia. Qed.
Lemma size_nonneg l : 0 <= size l.
Proof. induction l as [|[x|i] r IH]; cbn [size]; lia. Qed.
Lemma size_goto l : size (goto l) = 2.
Proof. reflexivity. Qed.
Lemma size_map_instr pre : size (map AInstr pre) = Z.of_nat (length pre).
Proof. induction pre as [|i r IH]; cbn [map size length]; lia. Qed.

(* a continuation in the shape the theorems cover: straight-line instructions, then either a
   goto or nothing (fall through) *)
Definition kl (pre : list ains) (g : option label) : list aline :=
  map AInstr pre ++ match g with Some L => goto L | None => [] end.
(* what such a continuation may consist of: lwso, lbso, swso, sbso, mov and arithmetic; none of
   them halts, jumps or emits an event (lbs, sbs and yield are left out as well) *)
Definition simple (i : ains) : bool :=
  match i with AJump _ | AHaltI | AHc _ _ _ | ALbs _ _ | AYield _ | ASbs _ _ => false | _ => true end.

Lemma last2_app2 {A} (x : list A) (a b : A) : last2 (x ++ [a; b]) = [a; b].
Proof.
  unfold last2. rewrite app_length. cbn [length].
  replace (length x + 2 - 2)%nat with (length x) by lia.
  rewrite skipn_app, skipn_all, Nat.sub_diag. reflexivity.
Qed.
Lemma ends_goto_in l : ends_goto l = true -> In (AInstr AHaltI) l.
Proof.
  unfold ends_goto, last2. intros H.
  rewrite <- (firstn_skipn (length l - 2) l). apply in_or_app. right.
  destruct (skipn (length l - 2) l) as [|x [|y [|z s]]]; cbn in H; try discriminate.
  - destruct x as [|[]]; discriminate.
  - destruct x as [|[]]; try discriminate. destruct y as [|[]]; try discriminate.
    right. left. reflexivity.
  - destruct x as [|[]]; try discriminate. destruct y as [|[]]; discriminate.
Qed.
Lemma ends_goto_kl pre g : forallb simple pre = true ->
  ends_goto (kl pre g) = match g with Some _ => true | None => false end.
Proof.
  intros S. destruct g as [L|].
  - unfold ends_goto, kl, goto. rewrite last2_app2. reflexivity.
  - destruct (ends_goto (kl pre None)) eqn:G; [|reflexivity]. exfalso.
    apply ends_goto_in in G. unfold kl in G. rewrite app_nil_r in G.
    apply in_map_iff in G. destruct G as [i [Ei Hi]]. inversion Ei; subst.
    rewrite forallb_forall in S. specialize (S _ Hi). discriminate.
Qed.
(* a continuation that must not fall into the code after it: its own goto, or else one to End *)
Definition or_end (g : option label) (End : label) : option label :=
  match g with Some _ => g | None => Some End end.
Lemma kl_or_end pre g End : forallb simple pre = true ->
  (if ends_goto (kl pre g) then kl pre g else kl pre g ++ goto End) = kl pre (or_end g End).
Proof.
  intros S. rewrite (ends_goto_kl pre g S). destruct g; [reflexivity|]. unfold kl. now rewrite app_nil_r.
Qed.

Section Place.
Variable R : regmap.
Variable lab : label -> Z.
Variable code : Z -> option instr.

(* the lines l sit at address p: every instruction is in the code memory, resolved under lab,
   and every label defined in l resolves to the address it stands at *)
Fixpoint placed (l : list aline) (p : Z) : Prop :=
  match l with
  | [] => True
  | ALabel x :: r => lab x = p /\ placed r p
  | AInstr i :: r => code p = Some (res_ins R lab i) /\ placed r (p + 1)
  end.
Lemma placed_app a : forall b p, placed (a ++ b) p <-> placed a p /\ placed b (p + size a).
Proof.
  induction a as [|[x|i] r IH]; intros b p; cbn [app placed size].
  - replace (p + 0) with p by lia. tauto.
  - rewrite IH. tauto.
  - rewrite IH. replace (p + 1 + size r) with (p + (1 + size r)) by lia. tauto.
Qed.
End Place.

Fixpoint deflabels (l : list aline) : list label :=
  match l with [] => [] | ALabel x :: r => x :: deflabels r | AInstr _ :: r => deflabels r end.
Lemma deflabels_app a b : deflabels (a ++ b) = deflabels a ++ deflabels b.
Proof. induction a as [|[x|i] r IH]; cbn [app deflabels]; [reflexivity | now rewrite IH | exact IH]. Qed.
Lemma deflabels_goto l : deflabels (goto l) = [].
Proof. reflexivity. Qed.
Lemma deflabels_labdefs l : forall p, map fst (labdefs l p) = deflabels l.
Proof. induction l as [|[x|i] r IH]; intros p; cbn [labdefs deflabels map fst]; [reflexivity | now rewrite IH | apply IH]. Qed.

Lemma lname_eqb_refl a : lname_eqb a a = true.
Proof. destruct a; try reflexivity. apply Nat.eqb_refl. Qed.
Lemma lname_eqb_eq a b : lname_eqb a b = true <-> a = b.
Proof.
  split; [|intros ->; apply lname_eqb_refl].
  destruct a, b; try discriminate; try reflexivity. cbn. intros H. apply Nat.eqb_eq in H. now subst.
Qed.
Lemma label_eqb_eq a b : label_eqb a b = true <-> a = b.
Proof.
  destruct a as [a n], b as [b k]. unfold label_eqb; cbn [fst snd]. rewrite andb_true_iff, lname_eqb_eq, Nat.eqb_eq.
  split; [intros [-> ->]; reflexivity | intros H; inversion H; auto].
Qed.

Lemma NoDup_app_intro {A} (a b : list A) :
  NoDup a -> NoDup b -> (forall x, In x a -> In x b -> False) -> NoDup (a ++ b).
Proof.
  induction a as [|x r IH]; intros Da Db S; cbn [app]; [exact Db|].
  inversion Da; subst. constructor.
  - intro I. apply in_app_or in I. destruct I as [I|I]; [contradiction | eapply S; [left; reflexivity | exact I]].
  - apply IH; [assumption | assumption | intros y I1 I2; eapply S; [right; exact I1 | exact I2]].
Qed.

(* a label is below a state: it was allocated before (or belongs to another name space) *)
Definition below (st : lstate) (x : label) : Prop := (snd x < st (fst x))%nat.
Definition st_le (a b : lstate) : Prop := forall n, (a n <= b n)%nat.
Definition between (a b : lstate) (x : label) : Prop := (a (fst x) <= snd x < b (fst x))%nat.

Lemma add_label_le nm st : st_le st (snd (add_label nm st)).
Proof. intros n; cbn. destruct (lname_eqb n nm) eqn:E; [apply lname_eqb_eq in E; subst|]; lia. Qed.
Lemma add_label_between nm st : between st (snd (add_label nm st)) (fst (add_label nm st)).
Proof. unfold between; cbn. rewrite lname_eqb_refl. lia. Qed.
Lemma st_le_refl st : st_le st st.
Proof. intros n; lia. Qed.
Lemma st_le_trans a b c : st_le a b -> st_le b c -> st_le a c.
Proof. intros H1 H2 n. specialize (H1 n). specialize (H2 n). lia. Qed.
Lemma between_weaken a b a' b' x : st_le a' a -> st_le b b' -> between a b x -> between a' b' x.
Proof. unfold between. intros H1 H2 H. specialize (H1 (fst x)). specialize (H2 (fst x)). lia. Qed.

(* the bubble eval_opd returns, in closed form *)
Fixpoint bub_of (E : env) (top : Z) (rg : reg) (o : iopd) (keep : bool) : bubble :=
  match o with
  | OTrunc x => to_byte (bub_of E top rg x keep)
  | OLit ch z => BuImm ch z
  | OVar i => BuLocal false (int_off E i)
  | OByte v => BuLocal true (byte_off E v)
  | OGlob g => if keep then BuPushed (top + wsize E) else BuReg (RGlob g)
  | _ => if keep then BuPushed (top + wsize E) else BuReg rg
  end.
Lemma eval_opd_bub E o top rg keep : snd (eval_opd E top rg o keep) = bub_of E top rg o keep.
Proof.
  revert top rg keep. induction o as [ch z|i|op x _ y _|u x _|g|tx IHt|yj]; intros top rg keep; try reflexivity; cbn [eval_opd bub_of].
  - destruct (eval_opd E top R0 x (negb (is_safe y))) as [c1 lb].
    destruct (eval_opd E (top_after top lb) R1 y false) as [c2 rb].
    destruct (pop_value R1 rb) as [c2' rhs]. destruct (pop_value R0 lb) as [c3 lhs].
    unfold finish_opd. destruct keep; reflexivity.
  - destruct (eval_opd E top rg x false) as [c b]. destruct (pop_value rg b) as [c' v].
    unfold finish_opd. destruct keep; reflexivity.
  - destruct keep; reflexivity.
  - rewrite <- IHt. destruct (eval_opd E top rg tx keep) as [c b]. reflexivity.
Qed.
Lemma top_after_to_byte top b : top_after top (to_byte b) = top_after top b.
Proof. destruct b; reflexivity. Qed.
Lemma top_after_bub E top rg o keep :
  top_after top (bub_of E top rg o keep) = top + Z.of_nat (pushed o keep) * wsize E.
Proof.
  unfold pushed. induction o as [ch z|i|op x _ y _|u x _|g|tx IHt|yj];
    try (destruct keep; cbn [bub_of top_after is_safe is_vac is_glob andb negb orb]; change (Z.of_nat 0) with 0; change (Z.of_nat 1) with 1; lia).
  cbn [bub_of is_vac]. rewrite top_after_to_byte. exact IHt.
Qed.

Definition sym_of (r : reg) (b : bubble) : sym := snd (pop_value r b).
(* the emitted code in closed form.  get_expr_value(r, o): evaluate without keeping, then pop *)
Definition value_code (E : env) (top : Z) (r : reg) (o : iopd) : list aline :=
  fst (eval_opd E top r o false) ++ fst (pop_value r (bub_of E top r o false)).
(* the operand pair of a comparison / binary operator: left with r0 (kept if the right operand is
   unsafe), get_expr_value of the right one with r1, pop left *)
Definition pair_code (E : env) (top : Z) (x y : iopd) : list aline :=
  let bx := bub_of E top R0 x (negb (is_safe y)) in
  fst (eval_opd E top R0 x (negb (is_safe y))) ++ value_code E (top_after top bx) R1 y ++ fst (pop_value R0 bx).
Definition un_code (u : unop) (r : reg) (v : sym) : list aline :=
  match u with
  | UNeg => [AInstr (AArith Asub r (SLit 0) v)]
  | UPos => if is_state_of r v then [] else [AInstr (AMov r v)]
  end.
Lemma eval_opd_arith E top r op x y keep :
  let bx := bub_of E top R0 x (negb (is_safe y)) in
  eval_opd E top r (OArith op x y) keep =
  finish_opd E top r keep (pair_code E top x y ++
    [AInstr (AArith (arith_instr op) r (sym_of R0 bx) (sym_of R1 (bub_of E (top_after top bx) R1 y false)))]).
Proof.
  cbn [eval_opd]. unfold pair_code, value_code, sym_of. rewrite <- !eval_opd_bub.
  destruct (eval_opd E top R0 x (negb (is_safe y))) as [c1 lb]. cbn [fst snd].
  destruct (eval_opd E (top_after top lb) R1 y false) as [c2 rb]. cbn [fst snd].
  destruct (pop_value R1 rb), (pop_value R0 lb). cbn [fst snd]. now rewrite <- !app_assoc.
Qed.
Lemma eval_opd_un E top r u x keep :
  eval_opd E top r (OUn u x) keep =
  finish_opd E top r keep (value_code E top r x ++ un_code u r (sym_of r (bub_of E top r x false))).
Proof.
  cbn [eval_opd]. unfold value_code, un_code, sym_of. rewrite <- !eval_opd_bub.
  destruct (eval_opd E top r x false) as [c b]. cbn [fst snd]. destruct (pop_value r b). cbn [fst snd].
  now rewrite <- app_assoc.
Qed.
Lemma compare_operands_eq E a b :
  let bx := bub_of E (stack_top E) R0 a (negb (is_safe b)) in
  compare_operands E a b =
  (pair_code E (stack_top E) a b, sym_of R0 bx, sym_of R1 (bub_of E (top_after (stack_top E) bx) R1 b false)).
Proof.
  unfold compare_operands, pair_code, value_code, sym_of. rewrite <- !eval_opd_bub.
  destruct (eval_opd E (stack_top E) R0 a (negb (is_safe b))) as [c1 lb]. cbn [fst snd].
  destruct (eval_opd E (top_after (stack_top E) lb) R1 b false) as [c2 rb]. cbn [fst snd].
  destruct (pop_value R1 rb), (pop_value R0 lb). cbn [fst snd]. now rewrite <- !app_assoc.
Qed.

Ltac defl := repeat progress (rewrite ?deflabels_app; cbn [deflabels app]).
Lemma pop_value_nolabels r b : deflabels (fst (pop_value r b)) = [].
Proof. destruct b as [|[]| | | |]; reflexivity. Qed.
Lemma finish_opd_nolabels E top r keep code :
  deflabels code = [] -> deflabels (fst (finish_opd E top r keep code)) = [].
Proof. intros H. unfold finish_opd. destruct keep; cbn [fst]; defl; rewrite H; reflexivity. Qed.
Lemma eval_opd_nolabels E o : forall top r keep, deflabels (fst (eval_opd E top r o keep)) = [].
Proof.
  induction o as [ch z|i|op x IHx y IHy|u x IHx|g|tx IHt|yj]; intros top r keep; try reflexivity.
  - rewrite eval_opd_arith. apply finish_opd_nolabels. unfold pair_code, value_code. defl.
    now rewrite IHx, IHy, !pop_value_nolabels.
  - rewrite eval_opd_un. apply finish_opd_nolabels. unfold value_code. defl. rewrite IHx, pop_value_nolabels.
    destruct u; [reflexivity | cbn [un_code]; destruct (is_state_of _ _); reflexivity].
  - cbn [eval_opd]. destruct keep; reflexivity.
  - cbn [eval_opd]. specialize (IHt top r keep). destruct (eval_opd E top r tx keep) as [c b]. exact IHt.
Qed.
Lemma compare_operands_nolabels E a b : deflabels (fst (fst (compare_operands E a b))) = [].
Proof.
  rewrite compare_operands_eq. cbn [fst]. unfold pair_code, value_code. defl.
  now rewrite !eval_opd_nolabels, !pop_value_nolabels.
Qed.

Lemma defs_app_sep st st1 st2 c1 c2 :
  st_le st st1 -> st_le st1 st2 ->
  Forall (between st st1) (deflabels c1) -> NoDup (deflabels c1) ->
  Forall (between st1 st2) (deflabels c2) -> NoDup (deflabels c2) ->
  Forall (between st st2) (deflabels (c1 ++ c2)) /\ NoDup (deflabels (c1 ++ c2)).
Proof.
  intros M1 M2 F1 D1 F2 D2. rewrite deflabels_app. split.
  - apply Forall_app. split.
    + eapply Forall_impl; [|exact F1]. intros x. apply between_weaken; [apply st_le_refl | exact M2].
    + eapply Forall_impl; [|exact F2]. intros x. apply between_weaken; [exact M1 | apply st_le_refl].
  - apply NoDup_app_intro; [exact D1 | exact D2|]. intros x I1 I2.
    rewrite Forall_forall in F1, F2. specialize (F1 _ I1). specialize (F2 _ I2). unfold between in *. lia.
Qed.
(* a label allocated before all those of l1 ++ l2 may be defined anywhere among them *)
Lemma fresh_insert a a' b x l1 l2 :
  between a a' x -> st_le a a' -> st_le a' b ->
  Forall (between a' b) (l1 ++ l2) -> NoDup (l1 ++ l2) ->
  Forall (between a b) (l1 ++ x :: l2) /\ NoDup (l1 ++ x :: l2).
Proof.
  intros Bx M M' F D. split.
  - apply Forall_app in F. destruct F as [F1 F2].
    assert (Wk : forall y, between a' b y -> between a b y) by (intros y; apply between_weaken; [exact M | apply st_le_refl]).
    apply Forall_app. split; [exact (Forall_impl _ Wk F1)|].
    constructor; [exact (between_weaken _ _ _ _ _ (st_le_refl a) M' Bx) | exact (Forall_impl _ Wk F2)].
  - apply (NoDup_Add (Add_app x l1 l2)). split; [exact D|]. intro I.
    rewrite Forall_forall in F. specialize (F _ I). unfold between in *. lia.
Qed.
(* the shape of every case of lower_branch: two labels are allocated first; the first is defined
   amid the code lowered afterwards, the second at the very end or not at all *)
Lemma two_labels_defs n1 n2 st x st1 y st2 st' l1 l2 tl :
  add_label n1 st = (x, st1) -> add_label n2 st1 = (y, st2) -> tl = [] \/ tl = [y] ->
  st_le st2 st' -> Forall (between st2 st') (l1 ++ l2) -> NoDup (l1 ++ l2) ->
  st_le st st' /\ Forall (between st st') (l1 ++ x :: l2 ++ tl) /\ NoDup (l1 ++ x :: l2 ++ tl).
Proof.
  intros A1 A2 Tl M F D.
  pose proof (add_label_le n1 st) as M1. pose proof (add_label_between n1 st) as B1. rewrite A1 in M1, B1.
  pose proof (add_label_le n2 st1) as M2. pose proof (add_label_between n2 st1) as B2. rewrite A2 in M2, B2.
  cbn [fst snd] in *. pose proof (st_le_trans _ _ _ M2 M) as M'.
  split; [exact (st_le_trans _ _ _ M1 M')|].
  apply (fresh_insert st st1 st' x l1 (l2 ++ tl) B1 M1 M'); destruct Tl as [-> | ->].
  - rewrite app_nil_r. eapply Forall_impl; [|exact F]. intros z. apply between_weaken; [exact M2 | apply st_le_refl].
  - rewrite app_assoc. apply (fresh_insert st1 st2 st' y (l1 ++ l2) []); rewrite ?app_nil_r; assumption.
  - rewrite app_nil_r. exact D.
  - rewrite app_assoc. apply (fresh_insert st1 st2 st' y (l1 ++ l2) []); rewrite ?app_nil_r; assumption.
Qed.

Lemma load_bool_instr E r v : exists i, load_bool E r v = AInstr i.
Proof. destruct v; eexists; reflexivity. Qed.
Lemma deflabels_or_goto k l : deflabels k = [] -> deflabels (if ends_goto k then k else k ++ goto l) = [].
Proof. intros N. destruct (ends_goto k); [exact N | rewrite deflabels_app, N; reflexivity]. Qed.

(* The and / or cases of bool_expr_branch are one construction: two labels are allocated; the left
   operand is lowered with a goto to the first label (defined between the operands) as if_true and
   if_false, made to leave through the second label if it would fall through, as if_false; the
   right operand gets the continuations as given.  This is `and`; `or` is the same with if_true and
   if_false exchanged throughout. *)
Definition lowering := list aline -> list aline -> lstate -> list aline * lstate.
Definition swapped (L : lowering) : lowering := fun kt kf => L kf kt.
Definition joined (n1 n2 : lname) (L1 L2 : lowering) : lowering := fun kt kf st =>
  let (x, st1) := add_label n1 st in
  let (y, st2) := add_label n2 st1 in
  let (c1, st3) := L1 (goto x) (if ends_goto kf then kf else kf ++ goto y) st2 in
  let (c2, st4) := L2 kt kf st3 in
  (c1 ++ [ALabel x] ++ c2 ++ (if ends_goto kf then [] else [ALabel y]), st4).
Lemma lower_and E e1 e2 :
  lower_branch E (BAnd e1 e2) = joined LLeftIsTrue LAndEnd (lower_branch E e1) (lower_branch E e2).
Proof. reflexivity. Qed.
Lemma lower_or E e1 e2 :
  lower_branch E (BOr e1 e2) =
  swapped (joined LLeftIsFalse LOrEnd (swapped (lower_branch E e1)) (swapped (lower_branch E e2))).
Proof. reflexivity. Qed.

Definition defs_spec (L : lowering) : Prop := forall kt kf st C st',
  L kt kf st = (C, st') -> deflabels kt = [] -> deflabels kf = [] ->
  st_le st st' /\ Forall (between st st') (deflabels C) /\ NoDup (deflabels C).
Lemma swapped_defs L : defs_spec L -> defs_spec (swapped L).
Proof. intros H kt kf st C st' L0 Nt Nf. exact (H kf kt st C st' L0 Nf Nt). Qed.
Lemma joined_defs n1 n2 L1 L2 : defs_spec L1 -> defs_spec L2 -> defs_spec (joined n1 n2 L1 L2).
Proof.
  intros S1 S2 kt kf st C st' L Nt Nf. unfold joined in L.
  destruct (add_label n1 st) as [x st1] eqn:A1. destruct (add_label n2 st1) as [y st2] eqn:A2.
  destruct (L1 (goto x) (if ends_goto kf then kf else kf ++ goto y) st2) as [c1 st3] eqn:E1.
  destruct (L2 kt kf st3) as [c2 st4] eqn:E2.
  inversion L; subst C st'; clear L.
  destruct (S1 _ _ _ _ _ E1 eq_refl (deflabels_or_goto kf y Nf)) as [M3 [F1 D1]].
  destruct (S2 _ _ _ _ _ E2 Nt Nf) as [M4 [F2 D2]].
  destruct (defs_app_sep st2 st3 st4 c1 c2 M3 M4 F1 D1 F2 D2) as [F D]. rewrite deflabels_app in F, D.
  destruct (ends_goto kf); defl;
    apply (two_labels_defs _ _ _ _ _ _ _ _ _ _ _ A1 A2); auto; eapply st_le_trans; eauto.
Qed.
Lemma lower_branch_defs E e : forall kt kf st C st',
  lower_branch E e kt kf st = (C, st') ->
  deflabels kt = [] -> deflabels kf = [] ->
  st_le st st' /\ Forall (between st st') (deflabels C) /\ NoDup (deflabels C).
Proof.
  change (defs_spec (lower_branch E e)).
  induction e as [b|j|op a b|e IH|e1 IH1 e2 IH2|e1 IH1 e2 IH2].
  - intros kt kf st C st' L Nt Nf. inversion L; subst. split; [apply st_le_refl|]. destruct b; rewrite ?Nt, ?Nf; split; constructor.
  - intros kt kf st C st' L Nt Nf. cbn [lower_branch] in L.
    destruct (add_label LIsTrue st) as [it st1] eqn:A1. destruct (add_label LBoolEnd st1) as [be st2] eqn:A2.
    inversion L; subst C st'; clear L. destruct (load_bool_instr E R1 j) as [ld ->].
    destruct (ends_goto kf); defl; rewrite Nt, Nf;
      apply (two_labels_defs _ _ _ _ _ _ _ _ [] [] _ A1 A2); auto using st_le_refl; constructor.
  - intros kt kf st C st' L Nt Nf. cbn [lower_branch] in L.
    destruct (add_label LCompareIsTrue st) as [it st1] eqn:A1. destruct (add_label LCompareEnd st1) as [be st2] eqn:A2.
    pose proof (compare_operands_nolabels E a b) as Dc.
    destruct (compare_operands E a b) as [[co lhs] rhs]. cbn [fst] in Dc.
    inversion L; subst C st'; clear L.
    destruct (ends_goto kf); defl; rewrite Nt, Nf, Dc;
      apply (two_labels_defs _ _ _ _ _ _ _ _ [] [] _ A1 A2); auto using st_le_refl; constructor.
  - exact (swapped_defs _ IH).
  - rewrite lower_and. exact (joined_defs _ _ _ _ IH1 IH2).
  - rewrite lower_or. exact (swapped_defs _ (joined_defs _ _ _ _ (swapped_defs _ IH1) (swapped_defs _ IH2))).
Qed.

Definition code_at (code : Z -> option instr) (B : Z) (l : list instr) : Prop :=
  forall k i, nth_error l k = Some i -> code (B + Z.of_nat k) = Some i.

Lemma lookup_nodup d ext : NoDup (map fst d) -> forall x q, In (x, q) d -> lookup d ext x = q.
Proof.
  unfold lookup. induction d as [|[y r] d IH]; intros D x q I; [contradiction|].
  cbn [map fst] in D. inversion D as [|? ? Ny Dd]; subst. cbn [find fst].
  destruct (label_eqb y x) eqn:Eq.
  - apply label_eqb_eq in Eq. subst y. destruct I as [I|I]; [inversion I; reflexivity|].
    exfalso. apply Ny. apply in_map_iff. exists (x, q). auto.
  - destruct I as [I|I]; [inversion I; subst; rewrite (proj2 (label_eqb_eq x x) eq_refl) in Eq; discriminate|].
    apply IH; assumption.
Qed.
Lemma lookup_notin d ext x : ~ In x (map fst d) -> lookup d ext x = ext x.
Proof.
  unfold lookup. induction d as [|[y r] d IH]; intros N; [reflexivity|].
  cbn [find fst]. destruct (label_eqb y x) eqn:Eq.
  - apply label_eqb_eq in Eq. subst. exfalso. apply N. left. reflexivity.
  - apply IH. intro I. apply N. right. exact I.
Qed.
Lemma labdefs_range l : forall p x q, In (x, q) (labdefs l p) -> p <= q <= p + size l.
Proof.
  induction l as [|[y|i] r IH]; intros p x q I; cbn [labdefs size] in *; [contradiction| |].
  - destruct I as [I|I]; [inversion I; subst; pose proof (size_nonneg r); lia | eauto].
  - apply IH in I. lia.
Qed.

Lemma instrs_placed R lab code l : forall B,
  code_at code B (instrs R lab l) ->
  (forall x q, In (x, q) (labdefs l B) -> lab x = q) ->
  placed R lab code l B.
Proof.
  induction l as [|[y|i] r IH]; intros B C D; cbn [placed instrs labdefs] in *; [exact I | |].
  - split; [apply D; left; reflexivity|]. apply IH; [exact C|]. intros x q H. apply D. right. exact H.
  - split.
    + specialize (C O _ eq_refl). replace (B + Z.of_nat 0) with B in C by lia. exact C.
    + apply IH; [|exact D]. intros k j H. specialize (C (S k) j H).
      replace (B + 1 + Z.of_nat k) with (B + Z.of_nat (S k)) by lia. exact C.
Qed.

Definition labenv (ext : label -> Z) (B : Z) (l : list aline) : label -> Z := lookup (labdefs l B) ext.
Lemma resolve_placed R ext code B l :
  NoDup (deflabels l) -> code_at code B (resolve R ext B l) -> placed R (labenv ext B l) code l B.
Proof.
  intros D C. apply instrs_placed; [exact C|]. intros x q I.
  apply lookup_nodup; [rewrite deflabels_labdefs; exact D | exact I].
Qed.
Lemma labenv_range ext B l Wd :
  (forall x, 0 <= ext x < Wd) -> 0 <= B -> B + size l < Wd -> forall x, 0 <= labenv ext B l x < Wd.
Proof.
  intros He HB Hs x. unfold labenv, lookup.
  destruct (find (fun e => label_eqb (fst e) x) (labdefs l B)) as [[y q]|] eqn:F; [|apply He].
  apply find_some in F. destruct F as [I _]. apply labdefs_range in I. cbn [snd]. lia.
Qed.
Lemma labenv_ext ext B l x : ~ In x (deflabels l) -> labenv ext B l x = ext x.
Proof. intros N. apply lookup_notin. rewrite deflabels_labdefs. exact N. Qed.

Lemma pushed_le_temps o keep : (pushed o keep <= temps o keep)%nat.
Proof.
  unfold pushed. induction o as [ch z|i|op x _ y _|u x _|g|tx IHt|yj]; try (destruct keep; cbn [is_safe is_vac is_glob negb andb orb temps]; lia).
  cbn [is_vac temps]. exact IHt.
Qed.
Lemma room_le (a b : nat) (wd X : Z) : 0 <= wd -> (a <= b)%nat -> Z.of_nat b * wd <= X -> Z.of_nat a * wd <= X.
Proof. intros Hw L H. pose proof (Z.mul_le_mono_nonneg_r (Z.of_nat a) (Z.of_nat b) wd Hw). lia. Qed.

Ltac szn := repeat progress (rewrite ?size_app; cbn [size goto]).
Lemma runs_eq_pc {act a a' b b' m m' l} :
  HidV.Sphinx.Halts.runs act (mk a' m) l (mk b' m') -> a = a' -> b = b' -> HidV.Sphinx.Halts.runs act (mk a m) l (mk b m').
Proof. intros G -> ->. exact G. Qed.

(* truth_is_defeat on a test that is not a comparison (lower_defeat on BVar and BAnd with hne, on
   BNot x with heq on x): the value by get_expr_value into r1, then `[j [defeat];] hcc value, 0` *)
Definition defeat_by_value (E : env) (virt : bool) (e : bexpr) (cc : cond) (st : lstate) : list aline * lstate :=
  let '(c, v, st') := eval_bool_value E R1 e st in (c ++ defeat_jump virt ++ [AInstr (AHc cc v (SLit 0))], st').

Section Sem.
Variable w : Z.
Variable R : regmap.
Variable E : env.
Variable lo : Z.                         (* lowest address the pushed temporaries may occupy *)
Notation W := (Machine.W w).
Notation wrap := (Machine.wrap w).
Notation sgn := (Machine.sgn w).
Notation lw := (Machine.lw w).
Notation sw := (Machine.sw w).
Notation r0 := (a_r0 R).
Notation r1 := (a_r1 R).
Notation r2 := (a_r2 R).
Notation fp := (a_fp R).
Notation ra := (regaddr R).

Definition FP (m : mem) : Z := lw m fp.
(* SOURCE SEMANTICS.  An int local is the word at [fp] - offset read as a signed number, a
   literal is itself, + - * and unary - wrap to the word size (two's complement); a bool local
   is true iff its byte is non-zero; comparisons are signed; and/or/not are the boolean
   connectives (short-circuiting is invisible in the VALUE because operands have no side
   effects; it is visible in `run_mem` below). *)
Fixpoint sval (m : mem) (o : iopd) : Z :=
  match o with
  | OLit _ z => z
  | OVar i => sgn (lw m (FP m - int_off E i))
  | OArith op x y => sgn (wrap (arith_sem op (sval m x) (sval m y)))
  | OUn UNeg x => sgn (wrap (- sval m x))
  | OUn UPos x => sval m x
  | OGlob g => sgn (lw m (a_glob R g))
  | OByte v => lb m (FP m - byte_off E v)
  | OTrunc x => sval m x mod 256
  end.
Definition bval (m : mem) (v : bloc) : Z :=
  match v with BLocal j => lb m (FP m - bool_off E j) | BGlobal h => lb m (a_bglob R h) end.
Fixpoint beval (m : mem) (e : bexpr) : bool :=
  match e with
  | BLit b => b
  | BVar j => negb (bval m j =? 0)
  | BCmp op a b => cmp_sem op (sval m a) (sval m b)
  | BNot e1 => negb (beval m e1)
  | BAnd e1 e2 => beval m e1 && beval m e2
  | BOr e1 e2 => beval m e1 || beval m e2
  end.
(* the value as a machine word: ⟦o⟧ mod 2^(8w) *)
Fixpoint wval (m : mem) (o : iopd) : Z :=
  match o with
  | OLit _ z => wrap z
  | OVar i => lw m (FP m - int_off E i)
  | OArith op x y => wrap (arith_sem op (sval m x) (sval m y))
  | OUn UNeg x => wrap (- sval m x)
  | OUn UPos x => wrap (sval m x)
  | OGlob g => lw m (a_glob R g)
  | OByte v => lb m (FP m - byte_off E v)
  | OTrunc x => wval m x mod 256
  end.

(* MEMORY EFFECT of the lowered operand code, as a function (mirrors eval_opd) *)
Definition pop_mem (r : reg) (b : bubble) (m : mem) : mem :=
  match b with
  | BuLocal false off | BuPushed off => sw m (ra r) (lw m (FP m - off))
  | BuLocal true off | BuPushedB off => sw m (ra r) (lb m (FP m - off))
  | BuRegB r' => sw m (ra r) (lb m (ra r'))
  | _ => m
  end.
Definition push_mem (keep : bool) (top : Z) (rg : reg) (m : mem) : mem :=
  if keep then sw m (FP m - (top + w)) (lw m (ra rg)) else m.
Fixpoint eval_mem (top : Z) (rg : reg) (o : iopd) (keep : bool) (m : mem) : mem :=
  match o with
  | OLit _ _ | OVar _ | OByte _ => m
  | OTrunc x => eval_mem top rg x keep m
  | OGlob g => if keep then sw m (FP m - (top + w)) (lw m (a_glob R g)) else m
  | OArith op x y =>
      let kx := negb (is_safe y) in
      let bx := bub_of E top R0 x kx in
      let m1 := eval_mem top R0 x kx m in
      let top1 := top_after top bx in
      let m2 := eval_mem top1 R1 y false m1 in
      let m3 := pop_mem R1 (bub_of E top1 R1 y false) m2 in
      let m4 := pop_mem R0 bx m3 in
      push_mem keep top rg (sw m4 (ra rg) (wval m (OArith op x y)))
  | OUn u x =>
      let m1 := eval_mem top rg x false m in
      let m2 := pop_mem rg (bub_of E top rg x false) m1 in
      push_mem keep top rg
        match u, x with
        | UPos, OLit _ z => sw m2 (ra rg) (wrap z)            (* mov [rg], z *)
        | UPos, OGlob g => sw m2 (ra rg) (lw m2 (a_glob R g))   (* mov [rg], [var_g] *)
        | UPos, _ => m2                                     (* already in [rg]: no instruction *)
        | UNeg, _ => sw m2 (ra rg) (wval m (OUn UNeg x))
        end
  end.
Definition pair_mem (top : Z) (x y : iopd) (m : mem) : mem :=
  let kx := negb (is_safe y) in
  let bx := bub_of E top R0 x kx in
  let m1 := eval_mem top R0 x kx m in
  let top1 := top_after top bx in
  let m2 := eval_mem top1 R1 y false m1 in
  let m3 := pop_mem R1 (bub_of E top1 R1 y false) m2 in
  pop_mem R0 bx m3.

(* MEMORY EFFECT of evaluating e by the lowered branch code: exactly the operand evaluations of
   the atoms that short-circuit evaluation reaches, left to right.  Atoms after the deciding one
   leave no trace. *)
Fixpoint run_mem (e : bexpr) (m : mem) : mem :=
  match e with
  | BLit _ => m
  | BVar j => sw m r1 (bval m j)
  | BCmp _ a b => pair_mem (stack_top E) a b m
  | BNot e1 => run_mem e1 m
  | BAnd e1 e2 => let m1 := run_mem e1 m in if beval m e1 then run_mem e2 m1 else m1
  | BOr e1 e2 => let m1 := run_mem e1 m in if beval m e1 then m1 else run_mem e2 m1
  end.
(* the same, as an explicit trace of evaluated atoms.  The theorems state m' = fold_left atom_mem
   (trace m e) m beside m' = run_mem e m: that is how they say in which order the atoms are
   evaluated (left to right, short-circuit) *)
Inductive atom := AtCmp (a b : iopd) | AtVar (j : bloc).
Fixpoint trace (m : mem) (e : bexpr) : list atom :=
  match e with
  | BLit _ => []
  | BVar j => [AtVar j]
  | BCmp _ a b => [AtCmp a b]
  | BNot e1 => trace m e1
  | BAnd e1 e2 => trace m e1 ++ (if beval m e1 then trace m e2 else [])
  | BOr e1 e2 => trace m e1 ++ (if beval m e1 then [] else trace m e2)
  end.
Definition atom_mem (m : mem) (x : atom) : mem :=
  match x with
  | AtCmp a b => pair_mem (stack_top E) a b m
  | AtVar j => sw m r1 (bval m j)
  end.
Lemma short_circuit_and m e1 e2 : beval m e1 = false ->
  trace m (BAnd e1 e2) = trace m e1 /\ run_mem (BAnd e1 e2) m = run_mem e1 m.
Proof. intros H. cbn [trace run_mem]. rewrite H. now rewrite app_nil_r. Qed.
Lemma short_circuit_or m e1 e2 : beval m e1 = true ->
  trace m (BOr e1 e2) = trace m e1 /\ run_mem (BOr e1 e2) m = run_mem e1 m.
Proof. intros H. cbn [trace run_mem]. rewrite H. now rewrite app_nil_r. Qed.

(* the registers: in bounds, pairwise disjoint, below the stack area; fp holds a positive signed
   address (lo_F), since locals are reached by `lwso [fp], -off`, whose base and offset are read
   as signed words.  r2 is not used by the lowered code of the fragment itself; the runtime
   library uses it *)
Record regs_ok (m : mem) : Prop := {
  lo_wf : wf_mem m;
  lo_r0 : 0 <= r0; lo_r1 : 0 <= r1; lo_fp : 0 <= fp; lo_r2 : 0 <= r2;
  lo_i0 : inb m r0 w = true; lo_i1 : inb m r1 w = true; lo_if : inb m fp w = true;
  lo_d01 : r0 + w <= r1 \/ r1 + w <= r0;
  lo_d0f : r0 + w <= fp \/ fp + w <= r0;
  lo_d1f : r1 + w <= fp \/ fp + w <= r1;
  lo_b0 : r0 + w <= lo; lo_b1 : r1 + w <= lo; lo_bf : fp + w <= lo; lo_b2 : r2 + w <= lo;
  lo_d2f : r2 + w <= fp \/ fp + w <= r2;
  lo_F : 0 <= FP m < W / 2 }.
(* STACK ROOM at frame offset top: the area [lo, fp - top) below the stack top is inside the
   state section and addressable by a signed offset from fp *)
Record room_ok (top : Z) (m : mem) : Prop := {
  ro_le : lo <= FP m - top;
  ro_top : 0 <= top;
  ro_half : FP m - lo <= W / 2;
  ro_sz : FP m - top <= msize m }.
(* [a, a+n) is disjoint from the words r0, r1, r2 and from the temporaries' area [lo, hi) *)
Definition dj (hi a n : Z) : Prop :=
  (a + n <= r0 \/ r0 + w <= a) /\ (a + n <= r1 \/ r1 + w <= a) /\
  ((a + n <= lo \/ hi <= a) /\ (a + n <= r2 \/ r2 + w <= a)).
(* a local of n bytes at frame offset off *)
Definition slot_ok (hi : Z) (m : mem) (off n : Z) : Prop :=
  0 < off <= W / 2 /\ 0 <= FP m - off /\ inb m (FP m - off) n = true /\ dj hi (FP m - off) n.
Definition op_ok (op : src_arith) : Prop := match op with SAdd | SSub | SMul => True | _ => False end.
(* the word of an int global: in the state section, away from the registers and the stack area *)
Definition gword_ok (hi : Z) (m : mem) (g : nat) : Prop :=
  0 <= a_glob R g /\ inb m (a_glob R g) w = true /\ dj hi (a_glob R g) w.
(* F_proved for operands: everything in F_model (`/` and `%` are outside F_model).  Byte access to
   a local is OByte, so OTrunc is left with a computed value or a global; either is read by `lbs`
   from the word it is in, whose address is an immediate: hence a_glob R g < W (the registers lie
   below lo) *)
Fixpoint oexp_ok (hi : Z) (m : mem) (o : iopd) : Prop :=
  match o with
  | OLit _ z => - (W / 2) <= z < W / 2
  | OVar i => slot_ok hi m (int_off E i) w
  | OArith op x y => op_ok op /\ oexp_ok hi m x /\ oexp_ok hi m y
  | OUn _ x => oexp_ok hi m x
  | OGlob g => gword_ok hi m g
  | OByte v => slot_ok hi m (byte_off E v) 1
  | OTrunc x => oexp_ok hi m x /\ match x with OGlob g => a_glob R g < W | OArith _ _ _ | OUn _ _ => True | _ => False end
  end.
(* the stack top of the expression being lowered *)
Definition HI (m : mem) : Z := FP m - stack_top E.
Definition layout_ok (m : mem) : Prop := regs_ok m /\ room_ok (stack_top E) m.
(* the byte of a bool variable: a frame slot, or a byte global away from the registers and the stack area *)
Definition bslot_ok (hi : Z) (m : mem) (v : bloc) : Prop :=
  match v with
  | BLocal j => slot_ok hi m (bool_off E j) 1
  | BGlobal h => 0 <= a_bglob R h /\ inb m (a_bglob R h) 1 = true /\ dj hi (a_bglob R h) 1 /\ a_bglob R h < W
  end.
(* every local in bounds and above the stack top; every literal a word; room for the temporaries
   of every comparison *)
Fixpoint vars_ok (m : mem) (e : bexpr) : Prop :=
  match e with
  | BLit _ => True
  | BVar j => bslot_ok (HI m) m j
  | BCmp _ a b => oexp_ok (HI m) m a /\ oexp_ok (HI m) m b /\ Z.of_nat (temps_cmp a b) * w <= HI m - lo
  | BNot e1 => vars_ok m e1
  | BAnd e1 e2 | BOr e1 e2 => vars_ok m e1 /\ vars_ok m e2
  end.
(* FRAME CONDITION: m' differs from m at most in the words r0, r1, r2 and in [lo, hi).  No lowered
   instruction writes r2 (agree_sw: only r0, r1 and the area); it is left free for the runtime
   library, whose routines the statement level calls under the same frame condition *)
Definition agree (hi : Z) (m m' : mem) : Prop :=
  msize m' = msize m /\ (wf_mem m -> wf_mem m') /\
  forall x, 0 <= x -> ~ (r0 <= x < r0 + w) -> ~ (r1 <= x < r1 + w) -> ~ (lo <= x < hi) -> ~ (r2 <= x < r2 + w) ->
    getb m' x = getb m x.

Hypothesis Hw : 2 <= w.
Hypothesis HwE : wsize E = w.
Let Hw1 : 1 <= w. Proof. lia. Qed.
Lemma half_ge_256 : 256 <= W / 2.
Proof. rewrite (W_half w Hw1). change 256 with (2 ^ 8). apply Z.pow_le_mono_r; lia. Qed.
Lemma wrap_0 : wrap 0 = 0.
Proof. apply (wrap_lit w Hw1). lia. Qed.
Lemma room_max (a b : nat) X : Z.of_nat (Nat.max a b) * w <= X -> Z.of_nat a * w <= X /\ Z.of_nat b * w <= X.
Proof. intros T. split; (eapply room_le; [lia | | exact T]); [apply Nat.le_max_l | apply Nat.le_max_r]. Qed.
Lemma lb_range m a : wf_mem m -> 0 <= lb m a < 256.
Proof. intros Wf. unfold Machine.lb. apply Wf. Qed.
Lemma inb_byte m a : inb m a w = true -> inb m a 1 = true.
Proof.
  unfold inb. intros H. apply andb_true_iff in H. destruct H as [X1 X2]. apply Z.leb_le in X1, X2.
  apply andb_true_iff. split; apply Z.leb_le; lia.
Qed.

Lemma agree_refl hi m : agree hi m m.
Proof. split; [reflexivity|]. split; [tauto|]. reflexivity. Qed.
Lemma agree_trans hi a b c : agree hi a b -> agree hi b c -> agree hi a c.
Proof.
  intros [S1 [F1 G1]] [S2 [F2 G2]]. split; [congruence|]. split; [tauto|].
  intros x X N0 N1 N2 N3. rewrite G2, G1; auto.
Qed.
Lemma agree_mono hi hi' m m' : hi <= hi' -> agree hi m m' -> agree hi' m m'.
Proof. intros L [S [F G]]. split; [exact S|]. split; [exact F|]. intros x X N0 N1 N2 N3. apply G; auto. lia. Qed.
Lemma agree_sw hi m a v : 0 <= a -> a = r0 \/ a = r1 \/ (lo <= a /\ a + w <= hi) -> agree hi m (sw m a v).
Proof.
  intros Ha Hr. split; [apply msize_sw|]. split; [intros Wf; apply wf_sw; assumption|].
  intros x X N0 N1 N2 N3. unfold Machine.sw. apply storen_outside; [assumption | assumption|].
  rewrite (wn_w w Hw1). destruct Hr as [->|[->|[H1 H2]]]; lia.
Qed.
Lemma agree_lw hi m m' a : agree hi m m' -> 0 <= a -> dj hi a w -> lw m' a = lw m a.
Proof.
  intros [_ [_ G]] Ha [D0 [D1 D2]]. unfold Machine.lw. apply loadn_ext. intros x Hx.
  rewrite (wn_w w Hw1) in Hx. apply G; lia.
Qed.
Lemma agree_lb hi m m' a : agree hi m m' -> 0 <= a -> dj hi a 1 -> lb m' a = lb m a.
Proof. intros [_ [_ G]] Ha [D0 [D1 D2]]. unfold lb. apply G; lia. Qed.
Lemma agree_inb hi m m' a n : agree hi m m' -> inb m' a n = inb m a n.
Proof. intros [S _]. unfold inb. now rewrite S. Qed.
Lemma dj_fp hi m : regs_ok m -> dj hi fp w.
Proof. intros L. destruct L. unfold dj. lia. Qed.
Lemma dj_mono hi hi' a n : hi' <= hi -> dj hi a n -> dj hi' a n.
Proof. unfold dj. lia. Qed.
Lemma FP_agree hi m m' : regs_ok m -> agree hi m m' -> FP m' = FP m.
Proof. intros L A. unfold FP. apply (agree_lw hi); [exact A | apply (lo_fp m L) | apply (dj_fp hi m L)]. Qed.
Lemma regs_ok_agree hi m m' : regs_ok m -> agree hi m m' -> regs_ok m'.
Proof.
  intros L A. pose proof (FP_agree hi m m' L A) as EF. destruct L. constructor; try assumption.
  - apply A; assumption.
  - now rewrite (agree_inb hi m m').
  - now rewrite (agree_inb hi m m').
  - now rewrite (agree_inb hi m m').
  - rewrite EF; assumption.
Qed.
Lemma room_ok_agree hi top m m' : regs_ok m -> agree hi m m' -> room_ok top m -> room_ok top m'.
Proof.
  intros L A [H1 H2 H3 H4]. pose proof (FP_agree hi m m' L A) as EF. destruct A as [S _].
  constructor; rewrite ?EF, ?S; assumption.
Qed.
Lemma slot_ok_agree hi hi' m m' off n : regs_ok m -> agree hi' m m' -> slot_ok hi m off n -> slot_ok hi m' off n.
Proof.
  intros L A [H1 [H2 [H3 H4]]]. unfold slot_ok. rewrite (FP_agree hi' m m' L A), (agree_inb hi' m m' _ _ A). tauto.
Qed.
Lemma slot_ok_mono hi hi' m off n : hi' <= hi -> slot_ok hi m off n -> slot_ok hi' m off n.
Proof. intros L [H1 [H2 [H3 H4]]]. unfold slot_ok. pose proof (dj_mono hi hi' _ _ L H4). tauto. Qed.
Lemma slot_lw_agree hi m m' off : regs_ok m -> agree hi m m' -> slot_ok hi m off w ->
  lw m' (FP m' - off) = lw m (FP m - off).
Proof. intros L A [_ [H2 [_ H4]]]. rewrite (FP_agree hi m m' L A). apply (agree_lw hi); assumption. Qed.
Lemma slot_lb_agree hi m m' off : regs_ok m -> agree hi m m' -> slot_ok hi m off 1 ->
  lb m' (FP m' - off) = lb m (FP m - off).
Proof. intros L A [_ [H2 [_ H4]]]. rewrite (FP_agree hi m m' L A). apply (agree_lb hi); assumption. Qed.
Lemma gword_ok_agree hi hi' m m' g : agree hi' m m' -> gword_ok hi m g -> gword_ok hi m' g.
Proof. intros A. unfold gword_ok. now rewrite (agree_inb hi' m m' _ _ A). Qed.
Lemma gword_ok_mono hi hi' m g : hi' <= hi -> gword_ok hi m g -> gword_ok hi' m g.
Proof. intros L [H1 [H2 H3]]. exact (conj H1 (conj H2 (dj_mono hi hi' _ _ L H3))). Qed.
Lemma oexp_ok_agree hi hi' m m' o : regs_ok m -> agree hi' m m' -> oexp_ok hi m o -> oexp_ok hi m' o.
Proof.
  intros L A. induction o as [ch z|i|op x IHx y IHy|u x IHx|g|tx IHt|yj]; cbn [oexp_ok]; try tauto.
  - apply (slot_ok_agree hi hi'); assumption.
  - apply (gword_ok_agree hi hi'); assumption.
  - apply (slot_ok_agree hi hi'); assumption.
Qed.
Lemma oexp_ok_mono hi hi' m o : hi' <= hi -> oexp_ok hi m o -> oexp_ok hi' m o.
Proof.
  intros L. induction o as [ch z|i|op x IHx y IHy|u x IHx|g|tx IHt|yj]; cbn [oexp_ok]; try tauto.
  - apply slot_ok_mono; assumption.
  - apply gword_ok_mono; assumption.
  - apply slot_ok_mono; assumption.
Qed.
Lemma sval_agree hi m m' o : regs_ok m -> agree hi m m' -> oexp_ok hi m o -> sval m' o = sval m o.
Proof.
  intros L A. induction o as [ch z|i|op x IHx y IHy|u x IHx|g|tx IHt|yj]; cbn [sval oexp_ok]; intros O.
  - reflexivity.
  - f_equal. apply (slot_lw_agree hi); assumption.
  - destruct O as [_ [Hx Hy]]. now rewrite IHx, IHy.
  - destruct u; now rewrite IHx.
  - destruct O as [H1 [_ H3]]. f_equal. apply (agree_lw hi); assumption.
  - now rewrite (IHt (proj1 O)).
  - apply (slot_lb_agree hi); assumption.
Qed.
Lemma wval_range m o : wf_mem m -> inrange w (wval m o).
Proof.
  intros Wf. destruct o as [ch z|i|op x y|[|] x|g|tx|yj]; cbn [wval]; try (apply wrap_range; exact Hw1);
  try (apply (lw_range w Hw1); exact Wf).
  - unfold inrange. pose proof (Z.mod_pos_bound (wval m tx) 256 ltac:(lia)). pose proof (W_ge w Hw1). lia.
  - unfold inrange. pose proof (lb_range m (FP m - byte_off E yj) Wf). pose proof (W_ge w Hw1). lia.
Qed.
Lemma sgn_mod256 x : inrange w x -> sgn x mod 256 = x mod 256.
Proof.
  intros Hx. destruct (W_256 w Hw1) as [K [_ Hk]].
  destruct (sgn_cases w x Hx) as [[_ E']|[_ E']]; rewrite E'; [reflexivity|].
  rewrite Hk. replace (x - 256 * K) with (x + (- K) * 256) by lia. apply Z.mod_add. lia.
Qed.
Lemma wrap_mod256 z : wrap z mod 256 = z mod 256.
Proof.
  destruct (W_256 w Hw1) as [k [_ Hk]]. unfold Machine.wrap. pose proof (W_pos w Hw1).
  rewrite (Z.mod_eq z W) by lia. rewrite Hk.
  replace (z - 256 * k * (z / (256 * k))) with (z + (- (k * (z / (256 * k)))) * 256) by lia.
  apply Z.mod_add. lia.
Qed.
Lemma sval_range hi m o : wf_mem m -> oexp_ok hi m o -> - (W / 2) <= sval m o < W / 2.
Proof.
  intros Wf. induction o as [ch z|i|op x IHx y IHy|u x IHx|g|tx IHt|yj]; cbn [sval oexp_ok]; intros O.
  - exact O.
  - apply (sgn_range w Hw1). apply (lw_range w Hw1); exact Wf.
  - apply (sgn_range w Hw1). apply wrap_range; exact Hw1.
  - destruct u; [apply (sgn_range w Hw1); apply wrap_range; exact Hw1 | apply IHx; exact O].
  - apply (sgn_range w Hw1). apply (lw_range w Hw1); exact Wf.
  - pose proof (Z.mod_pos_bound (sval m tx) 256 ltac:(lia)). pose proof half_ge_256. lia.
  - pose proof (lb_range m (FP m - byte_off E yj) Wf). pose proof half_ge_256. lia.
Qed.
Lemma sgn_wval hi m o : wf_mem m -> oexp_ok hi m o -> sgn (wval m o) = sval m o.
Proof.
  intros Wf. induction o as [ch z|i|op x _ y _|[|] x _|g|tx IHt|yj]; intros O; cbn [wval sval oexp_ok] in *; try reflexivity.
  - apply (sgn_wrap_small w Hw1); exact O.
  - apply (sgn_wrap_small w Hw1). apply (sval_range hi); assumption.
  - rewrite <- (IHt (proj1 O)). rewrite (sgn_mod256 _ (wval_range m tx Wf)). apply (sgn_small w).
    pose proof (Z.mod_pos_bound (wval m tx) 256 ltac:(lia)). pose proof half_ge_256. lia.
  - apply (sgn_small w). pose proof (lb_range m (FP m - byte_off E yj) Wf). pose proof half_ge_256. lia.
Qed.
Lemma wval_wrap_sval hi m o : wf_mem m -> oexp_ok hi m o -> wval m o = wrap (sval m o).
Proof. intros Wf O. rewrite <- (sgn_wval hi m o Wf O). symmetry. apply (wrap_sgn w Hw1), wval_range, Wf. Qed.
Lemma wval_agree hi m m' o : regs_ok m -> agree hi m m' -> oexp_ok hi m o -> wval m' o = wval m o.
Proof.
  intros L A O. pose proof (regs_ok_agree hi m m' L A) as L'.
  rewrite (wval_wrap_sval hi m o (lo_wf m L) O), (wval_wrap_sval hi m' o (lo_wf m' L') (oexp_ok_agree hi hi m m' o L A O)).
  now rewrite (sval_agree hi m m' o L A O).
Qed.
Lemma bval_agree hi m m' j : regs_ok m -> agree hi m m' -> bslot_ok hi m j -> bval m' j = bval m j.
Proof.
  intros L A. destruct j as [j|h]; cbn [bslot_ok bval].
  - apply (slot_lb_agree hi); assumption.
  - intros [H1 [_ [H3 _]]]. apply (agree_lb hi); assumption.
Qed.
Lemma bslot_ok_agree hi hi' m m' j : regs_ok m -> agree hi' m m' -> bslot_ok hi m j -> bslot_ok hi m' j.
Proof.
  intros L A. destruct j as [j|h]; cbn [bslot_ok]; [apply (slot_ok_agree hi hi'); assumption|].
  rewrite (agree_inb hi' m m' _ _ A). tauto.
Qed.
Lemma HI_agree hi m m' : regs_ok m -> agree hi m m' -> HI m' = HI m.
Proof. intros L A. unfold HI. now rewrite (FP_agree hi m m' L A). Qed.
Lemma layout_ok_agree hi m m' : layout_ok m -> agree hi m m' -> layout_ok m'.
Proof. intros [L Ro] A. split; [eapply regs_ok_agree; eauto | eapply room_ok_agree; eauto]. Qed.
Lemma vars_ok_agree m m' e : regs_ok m -> agree (HI m) m m' -> vars_ok m e -> vars_ok m' e.
Proof.
  intros L A. pose proof (HI_agree _ m m' L A) as EH.
  induction e as [b|j|op a b|e IH|e1 IH1 e2 IH2|e1 IH1 e2 IH2]; cbn [vars_ok]; try tauto; rewrite EH.
  - apply (bslot_ok_agree (HI m) (HI m)); assumption.
  - intros [Ha [Hb Hc]]. repeat split; try assumption; apply (oexp_ok_agree (HI m) (HI m) m m'); assumption.
Qed.
Lemma beval_agree m m' e : regs_ok m -> agree (HI m) m m' -> vars_ok m e -> beval m' e = beval m e.
Proof.
  intros L A. induction e as [b|j|op a b|e IH|e1 IH1 e2 IH2|e1 IH1 e2 IH2]; cbn [vars_ok beval]; intros V.
  - reflexivity.
  - now rewrite (bval_agree (HI m) m m' j L A V).
  - destruct V as [Va [Vb _]]. now rewrite (sval_agree (HI m) m m' a L A Va), (sval_agree (HI m) m m' b L A Vb).
  - now rewrite IH.
  - destruct V as [V1 V2]. now rewrite IH1, IH2.
  - destruct V as [V1 V2]. now rewrite IH1, IH2.
Qed.
(* what the lowering of a right operand asks for, in the memory the left operand's code leaves *)
Lemma right_operand_hyps m m' e : layout_ok m -> agree (HI m) m m' -> vars_ok m e ->
  layout_ok m' /\ vars_ok m' e /\ HI m' = HI m /\ beval m' e = beval m e.
Proof.
  intros L A V. split; [exact (layout_ok_agree _ m m' L A)|]. split; [exact (vars_ok_agree m m' e (proj1 L) A V)|].
  split; [exact (HI_agree _ m m' (proj1 L) A) | exact (beval_agree m m' e (proj1 L) A V)].
Qed.
Lemma trace_agree m m' e : regs_ok m -> agree (HI m) m m' -> vars_ok m e -> trace m' e = trace m e.
Proof.
  intros L A. induction e as [b|j|op a b|e IH|e1 IH1 e2 IH2|e1 IH1 e2 IH2]; cbn [vars_ok trace]; intros V; try reflexivity.
  - auto.
  - destruct V as [V1 V2]. now rewrite IH1, IH2, (beval_agree m m' e1 L A V1).
  - destruct V as [V1 V2]. now rewrite IH1, IH2, (beval_agree m m' e1 L A V1).
Qed.

Lemma frame_addr m off : regs_ok m -> 0 < off <= W / 2 -> sgn (FP m) + sgn (wrap (- off)) = FP m - off.
Proof.
  intros L Ho. rewrite (sgn_small w (FP m)) by apply (lo_F m L).
  rewrite (sgn_neg_imm w Hw1 off Ho). lia.
Qed.
Lemma sw_wrap_eq m a u v : wrap u = wrap v -> sw m a u = sw m a v.
Proof. unfold Machine.sw. intros ->. reflexivity. Qed.
Lemma ra_cases rg : rg = R0 \/ rg = R1 -> ra rg = r0 \/ ra rg = r1.
Proof. intros [->| ->]; cbn [regaddr]; auto. Qed.
Lemma ra_ok rg m : rg = R0 \/ rg = R1 -> regs_ok m -> 0 <= ra rg /\ inb m (ra rg) w = true.
Proof. intros [-> | ->] L; cbn [regaddr]; destruct L; split; assumption. Qed.
Lemma agree_sw_reg hi m rg v : rg = R0 \/ rg = R1 -> regs_ok m -> agree hi m (sw m (ra rg) v).
Proof. intros Hr L. apply agree_sw; [apply (ra_ok rg m Hr L) | destruct (ra_cases rg Hr) as [-> | ->]; auto]. Qed.
Lemma byte_inrange x : 0 <= x < 256 -> inrange w x.
Proof. intros Hx. pose proof (W_ge w Hw1). unfold inrange. lia. Qed.

(* the value a bubble stands for in memory m, and what makes reading it sound *)
Definition bub_val (m : mem) (b : bubble) : Z :=
  match b with
  | BuImm _ z => wrap z
  | BuLocal false off | BuPushed off => lw m (FP m - off)
  | BuLocal true off | BuPushedB off => lb m (FP m - off)
  | BuRegB r => lb m (ra r)
  | BuReg r => lw m (ra r)
  end.
Definition bub_ok (hi : Z) (m : mem) (b : bubble) : Prop :=
  match b with
  | BuImm _ _ => True
  | BuLocal false off | BuPushed off => slot_ok hi m off w
  | BuLocal true off => slot_ok hi m off 1
  | BuPushedB off => slot_ok hi m off w
  | BuReg r => r = R0 \/ r = R1 \/ match r with RGlob g => gword_ok hi m g | _ => False end
  | BuRegB r => (r = R0 \/ r = R1 \/ match r with RGlob g => gword_ok hi m g | _ => False end) /\ ra r < W
  end.
(* a word that may hold a volatile value: r0, r1, or the word of an int global (what bub_ok asks
   of the register of BuReg and BuRegB) *)
Definition vreg_ok (hi : Z) (m : mem) (r : reg) : Prop :=
  r = R0 \/ r = R1 \/ match r with RGlob g => gword_ok hi m g | _ => False end.
Lemma vreg_ok_agree hi hi' m m' r : agree hi' m m' -> vreg_ok hi m r -> vreg_ok hi m' r.
Proof. intros A [H|[H|H]]; [left | right; left | right; right; destruct r; try contradiction; apply (gword_ok_agree hi hi' m)]; assumption. Qed.
Lemma vreg_ok_mono hi hi' m r : hi' <= hi -> vreg_ok hi m r -> vreg_ok hi' m r.
Proof. intros L [H|[H|H]]; [left | right; left | right; right; destruct r; try contradiction; apply (gword_ok_mono hi)]; assumption. Qed.
Lemma vreg_word hi m r : regs_ok m -> vreg_ok hi m r -> 0 <= ra r /\ inb m (ra r) w = true.
Proof. intros L [->|[->|H]]; [apply ra_ok; auto | apply ra_ok; auto|]. destruct r; try contradiction. split; apply H. Qed.
(* a bubble whose value is immediate or lies on the frame, out of reach of writes to the registers *)
Definition resident (b : bubble) : bool := match b with BuReg _ | BuRegB _ => false | _ => true end.
(* the value of an operand symbol; None for a code label and for a word out of bounds *)
Definition symval (m : mem) (s : sym) : option Z :=
  match s with
  | SLit z => Some (wrap z)
  | SReg r => if inb m (ra r) w then Some (lw m (ra r)) else None
  | SLab _ => None
  | SChar c => Some (wrap c)
  | SRegAddr r => Some (wrap (ra r))
  | SStd x => Some (wrap (a_lib R + std_off x))
  end.

Lemma pushed_slot_ok top m : regs_ok m -> room_ok top m -> w <= FP m - top - lo ->
  slot_ok (FP m - (top + w)) m (top + w) w.
Proof.
  intros L [H1 H2 H3 H4] Hr. destruct L. unfold slot_ok, dj.
  repeat split; try lia. apply inb_true; lia.
Qed.
Lemma slot_ok_byte hi m off : slot_ok hi m off w -> slot_ok hi m off 1.
Proof.
  intros [O1 [O2 [O3 O4]]]. unfold slot_ok. split; [exact O1|]. split; [exact O2|]. split; [exact (inb_byte m _ O3)|].
  unfold dj in *. lia.
Qed.
(* the bubble of a computed or volatile value: pushed if kept, else the word it is in *)
Definition fin_bub (top : Z) (rg : reg) (keep : bool) : bubble := if keep then BuPushed (top + w) else BuReg rg.
Lemma fin_bub_ok top r keep m : regs_ok m -> room_ok top m -> vreg_ok (FP m - top) m r ->
  (keep = true -> w <= FP m - top - lo) ->
  bub_ok (FP m - top_after top (fin_bub top r keep)) m (fin_bub top r keep).
Proof. intros L Ro Hr Hk. destruct keep; cbn [fin_bub top_after bub_ok]; [apply pushed_slot_ok; auto | exact Hr]. Qed.
Lemma bub_ok_to_byte hi m b : bub_ok hi m b -> match b with BuReg r => ra r < W | _ => True end ->
  bub_ok hi m (to_byte b).
Proof. destruct b as [ch z|[|] off|r|off|r|off]; cbn [to_byte bub_ok]; auto using slot_ok_byte. Qed.
Lemma bub_of_ok top rg o keep m : rg = R0 \/ rg = R1 -> regs_ok m -> room_ok top m ->
  oexp_ok (FP m - top) m o -> Z.of_nat (pushed o keep) * w <= FP m - top - lo ->
  bub_ok (FP m - top_after top (bub_of E top rg o keep)) m (bub_of E top rg o keep).
Proof.
  intros Hr L Ro. unfold pushed.
  assert (Hk : forall x, Z.of_nat (if keep && negb (is_vac x) then 1%nat else 0%nat) * w <= FP m - top - lo ->
            is_vac x = false -> keep = true -> w <= FP m - top - lo) by (intros x P Hv ->; rewrite Hv in P; cbn [andb negb] in P; lia).
  assert (Hrg : ra rg < W) by (destruct L, Ro, Hr; subst rg; cbn [regaddr]; pose proof (W_even w Hw1); lia).
  induction o as [ch z|i|op x _ y _|u x _|g|tx IHt|yj]; intros O P; cbn [bub_of oexp_ok] in *; rewrite ?HwE;
    try exact I; try exact O.
  - apply fin_bub_ok; [exact L | exact Ro | unfold vreg_ok; tauto | exact (Hk _ P eq_refl)].
  - apply fin_bub_ok; [exact L | exact Ro | unfold vreg_ok; tauto | exact (Hk _ P eq_refl)].
  - apply fin_bub_ok; [exact L | exact Ro | right; right; exact O | exact (Hk _ P eq_refl)].
  - (* byte access: the operand is a global (below W), or computed into rg *)
    destruct O as [Ox Sh]. rewrite top_after_to_byte. apply bub_ok_to_byte; [exact (IHt Ox P)|].
    destruct tx; try (exfalso; exact Sh); cbn [bub_of]; destruct keep; try exact I; assumption.
Qed.
Lemma bub_of_ok_nokeep top rg o m : rg = R0 \/ rg = R1 -> regs_ok m -> room_ok top m ->
  oexp_ok (FP m - top) m o -> bub_ok (FP m - top) m (bub_of E top rg o false).
Proof.
  intros Hr L Ro O. pose proof (bub_of_ok top rg o false m Hr L Ro O) as B.
  rewrite top_after_bub in B. cbn [pushed andb Z.of_nat Z.mul] in B. rewrite Z.add_0_r in B.
  apply B. destruct Ro. lia.
Qed.
Lemma bub_ok_agree hi hi' m m' b : regs_ok m -> agree hi' m m' -> bub_ok hi m b -> bub_ok hi m' b.
Proof.
  intros L A. destruct b as [ch z|[|] off|r|off|r|off]; cbn [bub_ok]; auto; try (apply (slot_ok_agree hi hi'); assumption).
  - apply (vreg_ok_agree hi hi'), A.
  - intros [H Hlt]. exact (conj (vreg_ok_agree hi hi' m m' r A H) Hlt).
Qed.
Lemma bub_ok_mono hi hi' m b : hi' <= hi -> bub_ok hi m b -> bub_ok hi' m b.
Proof.
  intros L. destruct b as [ch z|[|] off|r|off|r|off]; cbn [bub_ok]; auto; try (apply slot_ok_mono; assumption).
  - apply vreg_ok_mono, L.
  - intros [H Hlt]. exact (conj (vreg_ok_mono hi hi' m r L H) Hlt).
Qed.
Lemma lb_lw m a : wf_mem m -> lb m a = lw m a mod 256.
Proof.
  intros Wf. unfold Machine.lb, Machine.lw, Machine.wn. destruct (Z.to_nat w) as [|k] eqn:Ek; [lia|].
  cbn [loadn]. pose proof (Wf a). rewrite (Z.mul_comm 256), Z.mod_add by lia. symmetry. apply Z.mod_small. lia.
Qed.
Lemma bub_val_to_byte m b : wf_mem m -> bub_val m (to_byte b) = bub_val m b mod 256.
Proof.
  intros Wf. destruct b as [ch z|[|] off|r|off|r|off]; cbn [to_byte bub_val]; try (apply lb_lw; exact Wf);
    try (symmetry; apply Z.mod_small, lb_range, Wf).
  rewrite wrap_mod256. apply (wrap_small w), byte_inrange, Z.mod_pos_bound. lia.
Qed.
Lemma bub_val_agree hi m m' b : regs_ok m -> agree hi m m' -> resident b = true -> bub_ok hi m b ->
  bub_val m' b = bub_val m b.
Proof.
  intros L A Rs B. destruct b as [ch z|[|] off|r|off|r|off]; try discriminate Rs; cbn [bub_ok bub_val] in *.
  - reflexivity.
  - exact (slot_lb_agree hi m m' off L A B).
  - exact (slot_lw_agree hi m m' off L A B).
  - exact (slot_lw_agree hi m m' off L A B).
  - exact (slot_lb_agree hi m m' off L A (slot_ok_byte hi m off B)).
Qed.
Variable code : Z -> option instr.
Variable cmem : mem.
Variable lab : label -> Z.
Hypothesis lab_range : forall l, 0 <= lab l < W.
Notation act := (Machine.act w code cmem).
Notation Halts := (HidV.Sphinx.Halts.Halts act).
Notation runs := (HidV.Sphinx.Halts.runs act).
Notation oval := (Idioms.oval w cmem).
Notation plc := (placed R lab code).
Notation rs := (res_sym R lab).

Lemma oval_lab m l : oval m (Imm (lab l)) = Some (lab l).
Proof. rewrite oval_imm. f_equal. apply (wrap_small w). exact (lab_range l). Qed.
Lemma oval_neg_off m off : oval m (Imm (- off)) = Some (wrap (- off)).
Proof. apply oval_imm. Qed.

Lemma bval_range m v : wf_mem m -> 0 <= bval m v < 256.
Proof. intros Wf. destruct v; cbn [bval]; apply Wf. Qed.
Lemma frame_lwso_act q m d off : regs_ok m -> code q = Some (ILoadO WWord SState (St d) (St fp) (Imm (- off))) ->
  0 < off <= W / 2 -> inb m (FP m - off) w = true -> inb m d w = true ->
  act (mk q m) = ANext (mk (q + 1) (sw m d (lw m (FP m - off)))) None.
Proof.
  intros L C Ho. rewrite <- (frame_addr m off L Ho).
  exact (act_lwso w code cmem q m d _ _ _ _ C (oval_st w cmem m fp (lo_if m L)) (oval_imm w cmem m _)).
Qed.
Lemma frame_lbso_act q m d off : regs_ok m -> code q = Some (ILoadO WByte SState (St d) (St fp) (Imm (- off))) ->
  0 < off <= W / 2 -> inb m (FP m - off) 1 = true -> inb m d w = true ->
  act (mk q m) = ANext (mk (q + 1) (sw m d (lb m (FP m - off)))) None.
Proof.
  intros L C Ho. rewrite <- (frame_addr m off L Ho).
  exact (act_lbso w code cmem q m d _ _ _ _ C (oval_st w cmem m fp (lo_if m L)) (oval_imm w cmem m _)).
Qed.
Lemma frame_swso_act q m off v z : regs_ok m -> code q = Some (IStoreO WWord (St fp) (Imm (- off)) v) ->
  0 < off <= W / 2 -> oval m v = Some z -> inb m (FP m - off) w = true ->
  act (mk q m) = ANext (mk (q + 1) (sw m (FP m - off) z)) None.
Proof.
  intros L C Ho. rewrite <- (frame_addr m off L Ho).
  exact (act_swso w code cmem q m _ _ v _ _ z C (oval_st w cmem m fp (lo_if m L)) (oval_imm w cmem m _)).
Qed.
Lemma abs_lbs_act q m d a : code q = Some (ILoad WByte SState (St d) (Imm a)) -> 0 <= a < W ->
  inb m a 1 = true -> inb m d w = true -> act (mk q m) = ANext (mk (q + 1) (sw m d (lb m a))) None.
Proof. intros C Ha. apply (act_lbs w code cmem q m d _ a C). rewrite oval_imm. f_equal. exact (wrap_small w a Ha). Qed.
Lemma load_bool_act p m hi r v i : r = R0 \/ r = R1 -> regs_ok m -> bslot_ok hi m v -> load_bool E r v = AInstr i ->
  code p = Some (res_ins R lab i) -> act (mk p m) = ANext (mk (p + 1) (sw m (ra r) (bval m v))) None.
Proof.
  intros Hr L V Ei C. destruct (ra_ok r m Hr L) as [_ Ir].
  destruct v as [j|h]; cbn [load_bool bslot_ok bval] in *; inversion Ei; subst i; cbn [res_ins res_sym regaddr] in C.
  - destruct V as [V1 [_ [V3 _]]]. exact (frame_lbso_act p m _ _ L C V1 V3 Ir).
  - destruct V as [V1 [V2 [_ V4]]]. exact (abs_lbs_act p m _ _ C (conj V1 V4) V2 Ir).
Qed.

(* a straight-line continuation as a partial function on memories: each instruction is executed
   by itself (at pc 0); None if it faults or emits an event *)
Definition step_simple (i : ains) (m : mem) : option mem :=
  match exec w cmem (res_ins R lab i) (mk 0 m) with ANext s None => Some (mm s) | _ => None end.
Fixpoint run_simple (pre : list ains) (m : mem) : option mem :=
  match pre with
  | [] => Some m
  | i :: r => match step_simple i m with Some m' => run_simple r m' | None => None end
  end.
(* a simple instruction does the same to the memory wherever it stands *)
Definition at_pc (q : Z) (a : action) : action :=
  match a with ANext s e => ANext (mk (q + 1) (mm s)) e | _ => a end.
Lemma setdest_pc q m d v : setdest w (mk q m) d v = at_pc q (setdest w (mk 0 m) d v).
Proof. destruct d as [z|a|a]; try reflexivity. cbn [setdest mm]. destruct (inb m a w); reflexivity. Qed.
Lemma exec_pc i q m : simple i = true ->
  exec w cmem (res_ins R lab i) (mk q m) = at_pc q (exec w cmem (res_ins R lab i) (mk 0 m)).
Proof.
  destruct i; try discriminate; intros _; cbn [res_ins exec]; rewrite !val_oval; cbn [mm].
  - destruct (oval m (rs b)), (oval m (rs o)); try reflexivity.
    unfold load; cbn [mm]. destruct (inb m _ w); [apply setdest_pc | reflexivity].
  - destruct (oval m (rs b)), (oval m (rs o)); try reflexivity.
    unfold load; cbn [mm]. destruct (inb m _ 1); [apply setdest_pc | reflexivity].
  - destruct (oval m (rs a)), (oval m (rs b)); try reflexivity.
    destruct (arith w op _ _); [apply setdest_pc | reflexivity].
  - destruct (oval m (rs v)); [apply setdest_pc | reflexivity].
  - destruct (oval m (rs b)), (oval m (rs o)), (oval m (rs v)); try reflexivity.
    unfold store; cbn [mm]. destruct (inb m _ w); reflexivity.
  - destruct (oval m (rs b)), (oval m (rs o)), (oval m (rs v)); try reflexivity.
    unfold store; cbn [mm]. destruct (inb m _ 1); reflexivity.
Qed.
Lemma step_simple_act i q m m' : simple i = true -> code q = Some (res_ins R lab i) ->
  step_simple i m = Some m' -> act (mk q m) = ANext (mk (q + 1) m') None.
Proof.
  intros S C. unfold step_simple, Machine.act. cbn [pc]. rewrite C, (exec_pc i q m S).
  destruct (exec w cmem (res_ins R lab i) (mk 0 m)) as [|s [e|]| |]; try discriminate.
  intros H; inversion H; reflexivity.
Qed.

Lemma runs_seq s s' s'' : runs s [] s' -> runs s' [] s'' -> runs s [] s''.
Proof. exact (runs_trans act s [] s' [] s''). Qed.
(* the lines c, wherever they are placed, run silently from memory m into m' and leave at their end *)
Definition code_runs (c : list aline) (m m' : mem) : Prop :=
  forall p, plc c p -> runs (mk p m) [] (mk (p + size c) m').
Lemma code_runs_nil m : code_runs [] m m.
Proof. intros p _. cbn [size]. rewrite Z.add_0_r. apply runs_refl. Qed.
Lemma code_runs_one i m m' :
  (forall p, code p = Some (res_ins R lab i) -> act (mk p m) = ANext (mk (p + 1) m') None) ->
  code_runs [AInstr i] m m'.
Proof. intros A p [C _]. cbn [size]. rewrite Z.add_0_r. exact (runs_next act _ _ None (A p C)). Qed.
Lemma code_runs_app c1 c2 m m1 m2 : code_runs c1 m m1 -> code_runs c2 m1 m2 -> code_runs (c1 ++ c2) m m2.
Proof.
  intros R1 R2 p P. apply placed_app in P. destruct P as [P1 P2]. rewrite size_app, Z.add_assoc.
  exact (runs_seq _ _ _ (R1 p P1) (R2 _ P2)).
Qed.
Lemma goto_runs L q m : plc (goto L) q -> runs (mk q m) [] (mk (lab L) m).
Proof. intros [Cj [Ch _]]. exact (goto_idiom w code cmem q m _ _ Cj Ch (oval_lab m L)). Qed.

(* where a continuation leaves: at its goto's target, or at the end of the emitted block *)
Definition kexit (g : option label) (endp : Z) : Z := match g with Some L => lab L | None => endp end.

Lemma kont_runs pre g : forall q m m'', forallb simple pre = true -> plc (kl pre g) q ->
  run_simple pre m = Some m'' ->
  runs (mk q m) [] (mk (kexit g (q + size (kl pre g))) m'').
Proof.
  unfold kl. induction pre as [|i r IH]; intros q m m'' S P Rn; cbn [map app run_simple forallb size plc] in *.
  - inversion Rn; subst m''. destruct g as [L|]; cbn [kexit size]; [apply goto_runs, P | rewrite Z.add_0_r; apply runs_refl].
  - apply andb_true_iff in S. destruct S as [Si Sr]. destruct (step_simple i m) as [m1|] eqn:St; [|discriminate].
    destruct P as [Ci P]. eapply runs_tau; [apply (step_simple_act i q m m1 Si Ci St)|].
    rewrite Z.add_assoc. exact (IH (q + 1) m1 m'' Sr P Rn).
Qed.

Lemma compare_instr_in op : In (op, compare_instr op) compare_map.
Proof. destruct op; vm_compute; repeat (first [left; reflexivity | right]). Qed.
Lemma compare_instr_inv op : In (compare_instr op, invert_instr (compare_instr op)) halt_inversion.
Proof. destruct op; vm_compute; repeat (first [left; reflexivity | right]). Qed.
Lemma arith_instr_in op : In (op, arith_instr op) arith_map.
Proof. destruct op; vm_compute; repeat (first [left; reflexivity | right]). Qed.
(* the mapped arithmetic instruction computes the wrapped source result (GenTables.arith_map) *)
Lemma arith_ok op xv yv : op_ok op -> inrange w xv -> inrange w yv ->
  exists r, arith w (arith_instr op) xv yv = Some r /\ wrap r = wrap (arith_sem op (sgn xv) (sgn yv)).
Proof.
  intros Ho Hx Hy. pose proof (arith_map_correct w Hw1) as F. rewrite Forall_forall in F.
  specialize (F _ (arith_instr_in op) xv yv Hx Hy). cbn [fst snd] in F.
  destruct (arith w (arith_instr op) xv yv) as [r|]; [exists r; split; [reflexivity | exact F]|].
  destruct F as [[X|X] _]; subst op; destruct Ho.
Qed.
Lemma compare_instr_sem op x y : inrange w x -> inrange w y ->
  cond_holds w (compare_instr op) x y = cmp_sem op (sgn x) (sgn y).
Proof.
  intros Hx Hy. pose proof (compare_map_correct w Hw1) as F. rewrite Forall_forall in F.
  exact (F _ (compare_instr_in op) x y Hx Hy).
Qed.

Lemma symval_oval m s v : symval m s = Some v -> oval m (rs s) = Some v.
Proof.
  destruct s as [z|r|l|c|r|x]; cbn [symval res_sym];
    [intros H; rewrite oval_imm; exact H | | discriminate | intros H; rewrite oval_imm; exact H | intros H; rewrite oval_imm; exact H
    | intros H; rewrite oval_imm; exact H].
  unfold Idioms.oval, val; cbn [mm]. auto.
Qed.
Lemma lw_pop_other r b m a : 0 <= ra r -> 0 <= a -> (a + w <= ra r \/ ra r + w <= a) ->
  lw (pop_mem r b m) a = lw m a.
Proof. intros Hr Ha D. destruct b as [|[]| | | |]; cbn [pop_mem]; try reflexivity; apply (lw_sw_other w Hw1); assumption. Qed.
Lemma lb_pop_other r b m a : 0 <= ra r -> 0 <= a -> (a < ra r \/ ra r + w <= a) ->
  lb (pop_mem r b m) a = lb m a.
Proof. intros Hr Ha D. destruct b as [|[]| | | |]; cbn [pop_mem]; try reflexivity; apply (lb_sw_other w Hw1); assumption. Qed.
Lemma inb_pop r b m a n : inb (pop_mem r b m) a n = inb m a n.
Proof. destruct b as [|[]| | | |]; cbn [pop_mem]; try reflexivity; apply inb_sw. Qed.

Lemma load_props r i m v : r = R0 \/ r = R1 -> regs_ok m -> inrange w v ->
  (forall p, code p = Some (res_ins R lab i) -> act (mk p m) = ANext (mk (p + 1) (sw m (ra r) v)) None) ->
  agree lo m (sw m (ra r) v) /\ symval (sw m (ra r) v) (SReg r) = Some v /\
  code_runs [AInstr i] m (sw m (ra r) v).
Proof.
  intros Hr L Hv A. destruct (ra_ok r m Hr L) as [Ir0 Ir1].
  split; [apply agree_sw_reg; assumption|]. split.
  - cbn [symval]. rewrite inb_sw, Ir1, (lw_sw_same w Hw1) by exact Ir0. f_equal. apply (wrap_small w), Hv.
  - exact (code_runs_one i m _ A).
Qed.
Lemma pop_props r b hi m : r = R0 \/ r = R1 -> regs_ok m -> bub_ok hi m b ->
  let m' := pop_mem r b m in
  agree lo m m' /\
  symval m' (sym_of r b) = Some (bub_val m b) /\
  code_runs (fst (pop_value r b)) m m'.
Proof.
  intros Hr L B m'. destruct (ra_ok r m Hr L) as [Ir0 Ir1]. pose proof (lo_wf m L) as Wf.
  assert (Lw : forall off, slot_ok hi m off w -> forall p,
            code p = Some (res_ins R lab (ALwso r (SReg RFp) (SLit (- off)))) ->
            act (mk p m) = ANext (mk (p + 1) (sw m (ra r) (lw m (FP m - off)))) None).
  { intros off [O1 [_ [O3 _]]] p C. exact (frame_lwso_act p m _ off L C O1 O3 Ir1). }
  assert (Lb : forall off, slot_ok hi m off 1 -> forall p,
            code p = Some (res_ins R lab (ALbso r (SReg RFp) (SLit (- off)))) ->
            act (mk p m) = ANext (mk (p + 1) (sw m (ra r) (lb m (FP m - off)))) None).
  { intros off [O1 [_ [O3 _]]] p C. exact (frame_lbso_act p m _ off L C O1 O3 Ir1). }
  destruct b as [ch z|[|] off|r'|off|r'|off]; cbn [bub_ok] in B; unfold m'; cbn [pop_mem sym_of pop_value fst snd bub_val].
  - split; [apply agree_refl|]. split; [destruct ch; reflexivity | apply code_runs_nil].
  - exact (load_props r _ m _ Hr L (byte_inrange _ (lb_range m _ Wf)) (Lb off B)).
  - exact (load_props r _ m _ Hr L (lw_range w Hw1 m _ Wf) (Lw off B)).
  - split; [apply agree_refl|]. split; [|apply code_runs_nil].
    cbn [symval]. now rewrite (proj2 (vreg_word hi m r' L B)).
  - exact (load_props r _ m _ Hr L (lw_range w Hw1 m _ Wf) (Lw off B)).
  - (* StateByte: lbs [r], r' *)
    destruct B as [B Hlt]. apply (load_props r _ m _ Hr L (byte_inrange _ (lb_range m _ Wf))).
    destruct (vreg_word hi m r' L B) as [I0 I1].
    intros p C. exact (abs_lbs_act p m _ _ C (conj I0 Hlt) (inb_byte m _ I1) Ir1).
  - exact (load_props r _ m _ Hr L (byte_inrange _ (lb_range m _ Wf)) (Lb off (slot_ok_byte hi m off B))).
Qed.
Lemma symval_pop_other r b m s : regs_ok m -> r = R0 \/ r = R1 ->
  match s with SReg r' => 0 <= ra r' /\ (ra r' + w <= ra r \/ ra r + w <= ra r') | _ => True end ->
  symval (pop_mem r b m) s = symval m s.
Proof.
  intros L Hr Hs. destruct s as [z|r'|l|c|r'|x]; cbn [symval]; try reflexivity.
  rewrite inb_pop. destruct Hs as [Hr' Ne].
  rewrite lw_pop_other; [reflexivity | | |].
  - destruct L, Hr; subst r; cbn [regaddr]; assumption.
  - exact Hr'.
  - exact Ne.
Qed.
(* the word a volatile bubble names is the output register or the word of an int global; either
   is away from the other of r0, r1, so a pop into that one leaves the value alone *)
Lemma bub_of_volatile top rg o keep hi m : oexp_ok hi m o ->
  match bub_of E top rg o keep with
  | BuReg r' | BuRegB r' => r' = rg \/ exists g, r' = RGlob g /\ gword_ok hi m g
  | _ => True
  end.
Proof.
  induction o as [ch z|i|op x _ y _|u x _|g|tx IHt|yj]; intros O; try (destruct keep; cbn [bub_of]; auto; fail).
  - cbn [bub_of]. destruct keep; [exact I | right; exists g; auto].
  - cbn [bub_of]. specialize (IHt (proj1 O)). destruct (bub_of E top rg tx keep); exact IHt.
Qed.
Lemma sym_of_volatile top rg o keep hi m : oexp_ok hi m o ->
  match sym_of rg (bub_of E top rg o keep) with
  | SReg r' => r' = rg \/ exists g, r' = RGlob g /\ gword_ok hi m g
  | SLit _ | SChar _ => True | _ => False end.
Proof.
  intros O. pose proof (bub_of_volatile top rg o keep hi m O) as Q.
  destruct (bub_of E top rg o keep) as [[|] z|[|] off|r|off|r|off]; cbn; auto.
Qed.
Lemma volatile_away hi m rg ro r' : regs_ok m -> rg = R0 \/ rg = R1 -> ro = R0 \/ ro = R1 -> rg <> ro ->
  r' = rg \/ (exists g, r' = RGlob g /\ gword_ok hi m g) ->
  0 <= ra r' /\ (ra r' + w <= ra ro \/ ra ro + w <= ra r').
Proof.
  intros L [-> | ->] [-> | ->] Ne Q; try (contradiction Ne; reflexivity);
    destruct Q as [-> | [g [-> [G0 [_ [D0 [D1 _]]]]]]]; cbn [regaddr]; destruct L; lia.
Qed.
Lemma bub_val_pop_other hi m rg ro b b' : regs_ok m -> rg = R0 \/ rg = R1 -> ro = R0 \/ ro = R1 -> rg <> ro ->
  resident b' = false ->
  match b' with BuReg r' | BuRegB r' => r' = rg \/ exists g, r' = RGlob g /\ gword_ok hi m g | _ => True end ->
  bub_val (pop_mem ro b m) b' = bub_val m b'.
Proof.
  intros L Hr Ho Ne Rb Q. destruct (ra_ok ro m Ho L) as [Io _].
  destruct b' as [ch z|yb off|r'|off|r'|off]; try discriminate Rb; cbn [bub_val];
    destruct (volatile_away hi m rg ro r' L Hr Ho Ne Q) as [H0 Hd].
  - apply lw_pop_other; assumption.
  - apply lb_pop_other; [exact Io | exact H0 | lia].
Qed.

(* what holds of the lowering of one operand: frame condition, the value is where the bubble
   says, and the emitted code runs silently into exactly eval_mem *)
Definition eval_spec (o : iopd) : Prop := forall top rg keep m,
  rg = R0 \/ rg = R1 -> regs_ok m -> room_ok top m -> oexp_ok (FP m - top) m o ->
  Z.of_nat (temps o keep) * w <= FP m - top - lo ->
  let m' := eval_mem top rg o keep m in
  agree (FP m - top) m m' /\
  bub_val m' (bub_of E top rg o keep) = wval m o /\
  code_runs (fst (eval_opd E top rg o keep)) m m'.

Lemma resident_to_byte b : resident (to_byte b) = resident b.
Proof. destruct b; reflexivity. Qed.
Lemma bub_of_keep_resident top rg o : resident (bub_of E top rg o true) = true.
Proof. induction o as [ch z|i|op x _ y _|u x _|g|tx IHt|yj]; try reflexivity. cbn [bub_of]. rewrite resident_to_byte. exact IHt. Qed.
Lemma eval_mem_safe top rg o m : is_safe o = true -> eval_mem top rg o false m = m.
Proof. destruct o; try discriminate; reflexivity. Qed.
Lemma temps_pushed o keep : (pushed o keep <= temps o keep)%nat.
Proof using w code. exact (pushed_le_temps o keep). Qed.

Lemma get_value_props o : eval_spec o -> forall top rg m,
  rg = R0 \/ rg = R1 -> regs_ok m -> room_ok top m -> oexp_ok (FP m - top) m o ->
  Z.of_nat (temps o false) * w <= FP m - top - lo ->
  let b := bub_of E top rg o false in
  let m' := pop_mem rg b (eval_mem top rg o false m) in
  agree (FP m - top) m m' /\
  symval m' (sym_of rg b) = Some (wval m o) /\
  code_runs (value_code E top rg o) m m'.
Proof.
  intros So top rg m Hr L Ro O T b m'.
  destruct (So top rg false m Hr L Ro O T) as [A1 [V1 C1]]. fold b in V1.
  set (m1 := eval_mem top rg o false m) in *.
  pose proof (regs_ok_agree _ m m1 L A1) as L1.
  assert (Bok : bub_ok (FP m1 - top) m1 b).
  { apply bub_of_ok_nokeep; [exact Hr | exact L1 | exact (room_ok_agree _ top m m1 L A1 Ro)|].
    rewrite (FP_agree _ m m1 L A1). apply (oexp_ok_agree _ (FP m - top) m m1); assumption. }
  destruct (pop_props rg b _ m1 Hr L1 Bok) as [A2 [S2 C2]].
  split; [eapply agree_trans; [exact A1 | apply (agree_mono lo); [destruct Ro; lia | exact A2]]|].
  split; [rewrite <- V1; exact S2|].
  exact (code_runs_app _ _ _ _ _ C1 C2).
Qed.

(* The keep / push discipline: the left value is kept on the frame exactly when the right operand
   is unsafe.  So a left value that is still in r0 or in a global's word (not `resident`) means a
   safe right operand, whose evaluation emits nothing and whose pop writes r1 only. *)
Lemma pair_runs x y : eval_spec x -> eval_spec y -> forall top m,
  regs_ok m -> room_ok top m -> oexp_ok (FP m - top) m x -> oexp_ok (FP m - top) m y ->
  Z.of_nat (temps_cmp x y) * w <= FP m - top - lo ->
  let kx := negb (is_safe y) in
  let bx := bub_of E top R0 x kx in
  let by_ := bub_of E (top_after top bx) R1 y false in
  let m' := pair_mem top x y m in
  agree (FP m - top) m m' /\
  symval m' (sym_of R0 bx) = Some (wval m x) /\
  symval m' (sym_of R1 by_) = Some (wval m y) /\
  code_runs (pair_code E top x y) m m'.
Proof.
  intros Sx Sy top m L Ro Ox Oy T kx bx by_ m'.
  destruct (room_max _ _ _ T) as [Tx Td]. fold kx in Tx, Td.
  rewrite Nat2Z.inj_add, Z.mul_add_distr_r in Td.
  assert (Py : 0 <= Z.of_nat (temps y false) * w) by (apply Z.mul_nonneg_nonneg; lia).
  destruct (Sx top R0 kx m (or_introl eq_refl) L Ro Ox Tx) as [A1 [V1 C1]]. fold bx in V1.
  set (m1 := eval_mem top R0 x kx m) in *.
  pose proof (regs_ok_agree _ m m1 L A1) as L1. pose proof (FP_agree _ m m1 L A1) as F1.
  pose proof (room_ok_agree _ top m m1 L A1 Ro) as Ro1.
  set (top1 := top_after top bx) in *.
  assert (Et : top1 = top + Z.of_nat (pushed x kx) * w) by (unfold top1, bx; rewrite top_after_bub, HwE; reflexivity).
  assert (Ro1' : room_ok top1 m1) by (destruct Ro1; constructor; lia).
  assert (Ox1 : oexp_ok (FP m1 - top) m1 x) by (rewrite F1; apply (oexp_ok_agree _ (FP m - top) m m1); assumption).
  assert (Bx1 : bub_ok (FP m1 - top1) m1 bx) by (apply bub_of_ok; [left; reflexivity | exact L1 | exact Ro1 | exact Ox1 | rewrite F1; lia]).
  (* right operand, into r1 *)
  destruct (get_value_props y Sy top1 R1 m1 (or_intror eq_refl) L1 Ro1') as [A3 [S3 C3]].
  { apply (oexp_ok_mono (FP m - top)); [rewrite F1; lia|]. apply (oexp_ok_agree _ (FP m - top) m m1); assumption. }
  { rewrite F1; lia. }
  fold by_ in S3, C3. rewrite (wval_agree (FP m - top) m m1 y L A1 Oy) in S3.
  set (m3 := pop_mem R1 by_ (eval_mem top1 R1 y false m1)) in *.
  pose proof (regs_ok_agree _ m1 m3 L1 A3) as L3.
  assert (Vx3 : bub_val m3 bx = wval m x).
  { rewrite <- V1. destruct (resident bx) eqn:Rb; [apply (bub_val_agree (FP m1 - top1)); assumption|].
    assert (Sfy : is_safe y = true).
    { apply Bool.not_false_is_true. intros Sf. unfold bx, kx in Rb. rewrite Sf in Rb. cbn [negb] in Rb.
      rewrite bub_of_keep_resident in Rb. discriminate. }
    unfold m3. rewrite (eval_mem_safe _ _ y _ Sfy).
    exact (bub_val_pop_other _ m1 R0 R1 by_ bx L1 (or_introl eq_refl) (or_intror eq_refl) ltac:(discriminate) Rb
             (bub_of_volatile top R0 x kx _ m1 Ox1)). }
  assert (Hlo : lo <= FP m1 - top1) by (rewrite F1; lia).
  assert (Bx3 : bub_ok lo m3 bx).
  { apply (bub_ok_agree _ (FP m1 - top1) m1 m3 _ L1 A3). apply (bub_ok_mono (FP m1 - top1)); assumption. }
  destruct (pop_props R0 bx _ m3 (or_introl eq_refl) L3 Bx3) as [A4 [S4 C4]].
  assert (Em : m' = pop_mem R0 bx m3) by reflexivity.
  assert (S3' : symval m' (sym_of R1 by_) = Some (wval m y)).
  { rewrite <- S3, Em. apply symval_pop_other; [exact L3 | left; reflexivity|].
    pose proof (sym_of_volatile top1 R1 y false _ m Oy) as Q. fold by_ in Q.
    destruct (sym_of R1 by_) as [z|r'|l|c|r'|x0]; try exact I.
    exact (volatile_away _ m R1 R0 r' L (or_intror eq_refl) (or_introl eq_refl) ltac:(discriminate) Q). }
  split.
  { eapply agree_trans; [exact A1|]. eapply agree_trans; [apply (agree_mono (FP m1 - top1)); [rewrite F1; lia | exact A3]|].
    rewrite Em. apply (agree_mono lo); [lia | exact A4]. }
  split; [rewrite Em, S4, Vx3; reflexivity|]. split; [exact S3'|]. rewrite Em.
  exact (code_runs_app _ _ _ _ _ C1 (code_runs_app _ _ _ _ _ C3 C4)).
Qed.

(* push_value of a computed result *)
Definition push_code (top : Z) (rg : reg) (keep : bool) : list aline :=
  if keep then [AInstr (ASwso (SReg RFp) (SLit (- (top + w))) (SReg rg))] else [].
Lemma finish_opd_eq top rg keep cd : finish_opd E top rg keep cd = (cd ++ push_code top rg keep, fin_bub top rg keep).
Proof. unfold finish_opd, push_code, fin_bub. rewrite HwE. destruct keep; [reflexivity | now rewrite app_nil_r]. Qed.
Lemma value_code_un top r u x :
  value_code E top r (OUn u x) = value_code E top r x ++ un_code u r (sym_of r (bub_of E top r x false)).
Proof. unfold value_code at 1. rewrite eval_opd_un, finish_opd_eq. cbn [bub_of fst pop_value push_code]. now rewrite !app_nil_r. Qed.
(* the pushed word may come from any word of the state section (r0, r1, or a global pushed as is) *)
Lemma push_reg_props top rg keep m0 m5 : regs_ok m0 -> room_ok top m0 ->
  agree (FP m0 - top) m0 m5 -> (keep = true -> w <= FP m0 - top - lo) -> inb m5 (ra rg) w = true ->
  let m' := push_mem keep top rg m5 in
  agree (FP m0 - top) m0 m' /\
  bub_val m' (fin_bub top rg keep) = lw m5 (ra rg) /\
  code_runs (push_code top rg keep) m5 m'.
Proof.
  intros L0 Ro0 A5 Hk Ir m'.
  pose proof (regs_ok_agree _ m0 m5 L0 A5) as L5. pose proof (FP_agree _ m0 m5 L0 A5) as F5.
  pose proof (room_ok_agree _ top m0 m5 L0 A5 Ro0) as Ro5.
  destruct keep; unfold m', push_mem, push_code, fin_bub; cbn [bub_val].
  - specialize (Hk eq_refl).
    destruct (pushed_slot_ok top m5 L5 Ro5) as [O1 [O2 [O3 O4]]]; [rewrite F5; lia|].
    set (a := FP m5 - (top + w)) in *. set (z := lw m5 (ra rg)).
    assert (As : agree (FP m0 - top) m5 (sw m5 a z)).
    { apply agree_sw; [exact O2|]. right. right. unfold a. destruct Ro5. rewrite F5 in *. lia. }
    split; [eapply agree_trans; eauto|]. split.
    + rewrite (FP_agree _ m5 _ L5 As). fold a. rewrite (lw_sw_same w Hw1) by exact O2.
      apply (wrap_small w). apply (lw_range w Hw1). apply (lo_wf m5 L5).
    + apply code_runs_one. intros p C. cbn [res_ins res_sym regaddr] in C.
      exact (frame_swso_act p m5 _ _ z L5 C O1 (oval_st w cmem m5 _ Ir) O3).
  - split; [exact A5|]. split; [reflexivity | apply code_runs_nil].
Qed.
Lemma reg_eqb_refl r : reg_eqb r r = true.
Proof. destruct r; try reflexivity; apply Nat.eqb_refl. Qed.

Lemma reg_eqb_eq a b : reg_eqb a b = true -> a = b.
Proof. destruct a, b; try discriminate; try reflexivity; cbn [reg_eqb]; intros H; f_equal; apply Nat.eqb_eq, H. Qed.

(* un_op_reg_arg on the value v that the operand s holds, into any word d of the state section:
   `sub [d], 0, s`; `mov [d], s` unless s already is [d] *)
Lemma un_runs u d s v m : 0 <= ra d -> inb m (ra d) w = true -> oval m (rs s) = Some v -> inrange w v ->
  let m' := match u with UNeg => sw m (ra d) (wrap (- sgn v)) | UPos => if is_state_of d s then m else sw m (ra d) v end in
  lw m' (ra d) = match u with UNeg => wrap (- sgn v) | UPos => v end /\ code_runs (un_code u d s) m m'.
Proof.
  intros Id0 Id1 S Hv m'.
  assert (Sw : forall z, inrange w z -> lw (sw m (ra d) z) (ra d) = z)
    by (intros z Hz; rewrite (lw_sw_same w Hw1) by exact Id0; apply (wrap_small w), Hz).
  destruct u; unfold m'; cbn [un_code].
  - split; [apply Sw, (wrap_range w Hw1)|].
    apply code_runs_one. intros q Cq. cbn [res_ins res_sym] in Cq.
    rewrite <- (sw_wrap_eq m (ra d) (wrap 0 - v) (wrap (- sgn v))).
    + exact (act_arith w code cmem q m Asub (ra d) (Imm 0) _ (wrap 0) v _ Cq (oval_imm w cmem m 0) S eq_refl Id1).
    + rewrite (wrap_wrap w Hw1), wrap_0, (wrap_sub_sgn w Hw1 0 v); [|pose proof (W_pos w Hw1); unfold inrange; lia | exact Hv].
      rewrite (sgn_small w 0) by (pose proof (half_pos w Hw1); lia). f_equal; lia.
  - destruct (is_state_of d s) eqn:Is.
    + split; [|apply code_runs_nil]. destruct s as [z|r'|l|c|r'|x]; try discriminate Is.
      apply reg_eqb_eq in Is. subst r'. exact (eq_sym (proj2 (oval_st_inv w cmem m _ _ S))).
    + split; [exact (Sw v Hv)|]. apply code_runs_one. intros q Cq. cbn [res_ins] in Cq.
      exact (act_mov w code cmem q m (ra d) _ v Cq S Id1).
Qed.
Lemma wval_un hi m u x : wf_mem m -> oexp_ok hi m x ->
  wval m (OUn u x) = match u with UNeg => wrap (- sgn (wval m x)) | UPos => wval m x end.
Proof.
  intros Wf O. destruct u; cbn [wval]; rewrite <- (sgn_wval hi m x Wf O); [reflexivity | apply (wrap_sgn w Hw1), wval_range, Wf].
Qed.
Lemma arith_runs op x y d sl sr hi m m4 : op_ok op -> wf_mem m -> oexp_ok hi m x -> oexp_ok hi m y ->
  symval m4 sl = Some (wval m x) -> symval m4 sr = Some (wval m y) -> inb m4 (ra d) w = true ->
  code_runs [AInstr (AArith (arith_instr op) d sl sr)] m4 (sw m4 (ra d) (wval m (OArith op x y))).
Proof.
  intros Oop Wf Ox Oy Sl Sr Id. apply code_runs_one. intros p Ci. cbn [res_ins] in Ci.
  destruct (arith_ok op (wval m x) (wval m y) Oop (wval_range m x Wf) (wval_range m y Wf)) as [r [Ar Wr]].
  rewrite (sgn_wval _ m x Wf Ox), (sgn_wval _ m y Wf Oy) in Wr.
  rewrite <- (sw_wrap_eq m4 (ra d) r (wval m (OArith op x y))) by (cbn [wval]; rewrite (wrap_wrap w Hw1); exact Wr).
  exact (act_arith w code cmem p m4 (arith_instr op) (ra d) _ _ _ _ r Ci (symval_oval _ _ _ Sl) (symval_oval _ _ _ Sr) Ar Id).
Qed.

(* the tail of eval_expr: the result is in [rg] after the code cd; push_value if it is kept *)
Lemma finish_props top rg keep m m5 cd v : rg = R0 \/ rg = R1 -> regs_ok m -> room_ok top m ->
  (keep = true -> w <= FP m - top - lo) ->
  agree (FP m - top) m m5 -> lw m5 (ra rg) = v -> code_runs cd m m5 ->
  let m' := push_mem keep top rg m5 in
  agree (FP m - top) m m' /\
  bub_val m' (if keep then BuPushed (top + wsize E) else BuReg rg) = v /\
  code_runs (fst (finish_opd E top rg keep cd)) m m'.
Proof.
  intros Hr L Ro Hk A5 V5 Cd. cbv zeta.
  destruct (push_reg_props top rg keep m m5 L Ro A5 Hk (proj2 (ra_ok rg m5 Hr (regs_ok_agree _ m m5 L A5)))) as [A6 [V6 C6]].
  split; [exact A6|]. split; [rewrite HwE; fold (fin_bub top rg keep); now rewrite V6|].
  rewrite finish_opd_eq. exact (code_runs_app _ _ _ _ _ Cd C6).
Qed.
Lemma eval_arith_props op x y : eval_spec x -> eval_spec y -> eval_spec (OArith op x y).
Proof.
  intros IHx IHy top rg keep m Hr L Ro [Oop [Ox Oy]] T m'. cbn [temps] in T.
  destruct (room_max _ _ _ T) as [Tp Tk].
  destruct (pair_runs x y IHx IHy top m L Ro Ox Oy Tp) as [A4 [Sl [Sr C4]]].
  rewrite eval_opd_arith.
  set (bx := bub_of E top R0 x (negb (is_safe y))) in *.
  set (by_ := bub_of E (top_after top bx) R1 y false) in *. set (m4 := pair_mem top x y m) in *.
  pose proof (regs_ok_agree _ m m4 L A4) as L4. destruct (ra_ok rg m4 Hr L4) as [Ir0 Ir1].
  set (o := OArith op x y). set (m5 := sw m4 (ra rg) (wval m o)).
  refine (finish_props top rg keep m m5 _ (wval m o) Hr L Ro _ _ _ _).
  - intros ->; lia.
  - eapply agree_trans; [exact A4 | apply agree_sw_reg; assumption].
  - unfold m5. rewrite (lw_sw_same w Hw1) by exact Ir0. apply (wrap_wrap w Hw1).
  - exact (code_runs_app _ _ _ m4 _ C4 (arith_runs op x y rg _ _ _ m m4 Oop (lo_wf m L) Ox Oy Sl Sr Ir1)).
Qed.
(* eval_mem on a unary operator, read off un_code: only a literal or a global is not already in [rg] *)
Lemma eval_mem_un top rg u x keep hi m : rg = R0 \/ rg = R1 -> wf_mem m -> oexp_ok hi m x ->
  let b := bub_of E top rg x false in
  let m2 := pop_mem rg b (eval_mem top rg x false m) in
  eval_mem top rg (OUn u x) keep m = push_mem keep top rg
    match u with
    | UNeg => sw m2 (ra rg) (wrap (- sgn (wval m x)))
    | UPos => if is_state_of rg (sym_of rg b) then m2 else sw m2 (ra rg) (wval m x)
    end.
Proof.
  intros Hr Wf O b m2. unfold m2, b. cbn [eval_mem]. f_equal. destruct u.
  - rewrite (sgn_wval _ m x Wf O). destruct x; reflexivity.
  - destruct Hr; subst rg; destruct x as [[|] z|i|op' x1 x2|u' x1|g|tx'|yj']; try reflexivity;
      destruct O as [_ Sh]; destruct tx'; try (exfalso; exact Sh); reflexivity.
Qed.
Lemma eval_un_props u x : eval_spec x -> eval_spec (OUn u x).
Proof.
  intros IHx top rg keep m Hr L Ro O T m'. cbn [oexp_ok] in O. cbn [temps] in T.
  destruct (room_max _ _ _ T) as [Tx Tk].
  destruct (get_value_props x IHx top rg m Hr L Ro O Tx) as [A2 [S2 C2]].
  pose proof (lo_wf m L) as Wf. unfold m'. rewrite eval_opd_un, (eval_mem_un top rg u x keep _ m Hr Wf O).
  set (b := bub_of E top rg x false) in *. set (m2 := pop_mem rg b (eval_mem top rg x false m)) in *.
  pose proof (regs_ok_agree _ m m2 L A2) as L2. destruct (ra_ok rg m2 Hr L2) as [Ir0 Ir1].
  destruct (un_runs u rg (sym_of rg b) (wval m x) m2 Ir0 Ir1 (symval_oval _ _ _ S2) (wval_range m x Wf)) as [V3 C3].
  refine (finish_props top rg keep m _ _ (wval m (OUn u x)) Hr L Ro _ _ _ (code_runs_app _ _ _ _ _ C2 C3)).
  - intros ->; lia.
  - eapply agree_trans; [exact A2 | apply (agree_mono lo); [destruct Ro; lia|]].
    destruct u; [|destruct (is_state_of rg (sym_of rg b))]; try apply agree_refl; apply agree_sw_reg; assumption.
  - rewrite V3. symmetry. exact (wval_un _ m u x Wf O).
Qed.
Theorem eval_opd_props o : eval_spec o.
Proof.
  induction o as [ch z|i|op x IHx y IHy|u x IHx|g|tx IHt|yj];
    [| |exact (eval_arith_props op x y IHx IHy) | exact (eval_un_props u x IHx)| | |];
    intros top rg keep m Hr L Ro O T m';
    try (split; [apply agree_refl|]; split; [reflexivity | apply code_runs_nil]).
  - (* an int global: its own word, or a copy pushed on the frame *)
    cbn [oexp_ok temps] in O, T. destruct O as [G0 [G1 G2]].
    destruct (push_reg_props top (RGlob g) keep m m L Ro (agree_refl _ m)) as [A6 [V6 C6]]; [intros ->; lia | exact G1|].
    split; [destruct keep; exact A6|]. split; [cbn [bub_of]; rewrite HwE; destruct keep; exact V6|].
    cbn [eval_opd]. rewrite HwE. destruct keep; exact C6.
  - (* byte access of an operand: the same code, the value read through its low byte *)
    cbn [oexp_ok] in O. destruct O as [Ox Sh]. cbn [temps] in T.
    destruct (IHt top rg keep m Hr L Ro Ox T) as [A [V C]].
    split; [exact A|]. split.
    + cbn [bub_of wval]. rewrite <- V. apply bub_val_to_byte, (lo_wf _ (regs_ok_agree _ m _ L A)).
    + cbn [eval_opd]. destruct (eval_opd E top rg tx keep) as [c0 b0]. exact C.
Qed.

Lemma cmp_props a b m : regs_ok m -> room_ok (stack_top E) m ->
  oexp_ok (HI m) m a -> oexp_ok (HI m) m b -> Z.of_nat (temps_cmp a b) * w <= HI m - lo ->
  let m' := pair_mem (stack_top E) a b m in
  agree (HI m) m m' /\
  exists lhs rhs, compare_operands E a b = (pair_code E (stack_top E) a b, lhs, rhs) /\
    code_runs (pair_code E (stack_top E) a b) m m' /\
    oval m' (rs lhs) = Some (wval m a) /\ oval m' (rs rhs) = Some (wval m b) /\
    forall op, cond_holds w (compare_instr op) (wval m a) (wval m b) = cmp_sem op (sval m a) (sval m b).
Proof.
  intros L Ro Oa Ob T m'. unfold HI in *. pose proof (lo_wf m L) as Wf.
  destruct (pair_runs a b (eval_opd_props a) (eval_opd_props b) (stack_top E) m L Ro Oa Ob T) as [Ag [Sl [Sr C]]].
  split; [exact Ag|]. eexists _, _. split; [apply compare_operands_eq|]. split; [exact C|].
  split; [apply symval_oval, Sl|]. split; [apply symval_oval, Sr|]. intros op.
  rewrite (compare_instr_sem op _ _ (wval_range m a Wf) (wval_range m b Wf)).
  now rewrite (sgn_wval _ m a Wf Oa), (sgn_wval _ m b Wf Ob).
Qed.

Lemma run_mem_agree e : forall m, layout_ok m -> vars_ok m e -> agree (HI m) m (run_mem e m).
Proof.
  induction e as [b|j|op a b|e IH|e1 IH1 e2 IH2|e1 IH1 e2 IH2]; intros m L V; cbn [run_mem vars_ok] in *.
  (* and, or: unless the left operand decides, the right one runs in the memory it leaves *)
  5, 6: destruct V as [V1 V2]; pose proof (IH1 m L V1) as A1.
  5, 6: destruct (right_operand_hyps m _ e2 L A1 V2) as [L1 [V21 [EH _]]].
  5, 6: destruct (beval m e1); try exact A1.
  5, 6: eapply agree_trans; [exact A1|]; rewrite <- EH; exact (IH2 _ L1 V21).
  - apply agree_refl.
  - apply agree_sw; [apply (lo_r1 m (proj1 L)) | right; left; reflexivity].
  - destruct L as [L Ro]. destruct V as [Va [Vb Vt]]. apply (cmp_props a b m L Ro Va Vb Vt).
  - apply IH; assumption.
Qed.
Lemma run_mem_trace e : forall m, layout_ok m -> vars_ok m e ->
  run_mem e m = fold_left atom_mem (trace m e) m.
Proof.
  induction e as [b|j|op a b|e IH|e1 IH1 e2 IH2|e1 IH1 e2 IH2]; intros m L V; cbn [run_mem vars_ok trace] in *; try reflexivity.
  2, 3: destruct V as [V1 V2]; rewrite fold_left_app, <- (IH1 m L V1); pose proof (run_mem_agree e1 m L V1) as A1.
  2, 3: destruct (right_operand_hyps m _ e2 L A1 V2) as [L1 [V21 _]].
  2, 3: destruct (beval m e1); try reflexivity.
  2, 3: rewrite <- (trace_agree m (run_mem e1 m) e2 (proj1 L) A1 V2); exact (IH2 _ L1 V21).
  - apply IH; assumption.
Qed.

(* End is defined at the very end of the block, where a continuation without a goto leaves *)
Lemma kexit_or_end pre g End q x : forallb simple pre = true ->
  plc (if ends_goto (kl pre g) then [] else [ALabel End]) q -> kexit g q = kexit (or_end g End) x.
Proof. intros S P. rewrite (ends_goto_kl pre g S) in P. destruct g; [reflexivity | symmetry; apply P]. Qed.
Lemma size_end_label (b : bool) l : size (if b then [] else [ALabel l]) = 0.
Proof. destruct b; reflexivity. Qed.

(* the two-way test that ends the comparison case and the bool-variable case of bool_expr_branch *)
Definition test_code (it be : label) (cc cc' : cond) (l r : sym) (kt kf : list aline) : list aline :=
  [AInstr (AJump (SLab it)); AInstr (AHc cc l r)] ++ kf ++ (if ends_goto kf then [] else goto be)
    ++ [ALabel it; AInstr (AHc cc' l r)] ++ kt ++ (if ends_goto kf then [] else [ALabel be]).
Lemma test_runs pt gt pf gf it be cc cc' l r x y q m m'' :
  In (cc, cc') halt_inversion -> forallb simple pt = true -> forallb simple pf = true ->
  plc (test_code it be cc cc' l r (kl pt gt) (kl pf gf)) q ->
  oval m (rs l) = Some x -> oval m (rs r) = Some y ->
  let b := cond_holds w cc x y in
  run_simple (if b then pt else pf) m = Some m'' ->
  runs (mk q m) [] (mk (kexit (if b then gt else gf) (q + size (test_code it be cc cc' l r (kl pt gt) (kl pf gf)))) m'').
Proof.
  intros Inv Spt Spf P Ol Or b Rs. unfold test_code in *. rewrite (ends_goto_kl pf gf Spf) in *.
  cbn [app plc] in P. destruct P as [Cj [Cc P]].
  apply placed_app in P. destruct P as [Pkf P]. apply placed_app in P. destruct P as [Pgo P].
  cbn [app plc] in P. destruct P as [Lit [Cc' P]]. apply placed_app in P. destruct P as [Pkt Pend].
  cbn [res_ins res_sym] in Cj, Cc, Cc'. rewrite <- Lit in Cc'.
  eapply runs_seq; [exact (branch_idiom_table w code cmem q m _ _ cc cc' _ _ x y Inv Cj Cc (oval_lab m it) Cc' Ol Or)|].
  fold b. szn. destruct b.
  - (* the target's test passes: into if_true *)
    rewrite Lit. pose proof (kont_runs pt gt _ m m'' Spt Pkt Rs) as K.
    destruct gt as [Lt|]; cbn [kexit] in K |- *; [exact K|]. destruct gf as [Lf|]; apply (runs_eq_pc K); szn; lia.
  - (* fall through into if_false, then past the target's test *)
    pose proof (kont_runs pf gf (q + 1 + 1) m m'' Spf Pkf Rs) as K. replace (q + 2) with (q + 1 + 1) by lia.
    destruct gf as [Lf|]; cbn [kexit] in K |- *; [exact K|].
    eapply runs_seq; [exact K|]. pose proof (goto_runs be _ m'' Pgo) as G.
    cbn [plc] in Pend. destruct Pend as [Lbe _]. rewrite Lbe in G. apply (runs_eq_pc G); szn; lia.
Qed.

(* what lower_runs says of one lowering: started in m, it runs the continuation that b selects,
   in the memory m1 *)
Definition branch_spec (L : lowering) (b : bool) (m m1 : mem) : Prop :=
  forall pt gt pf gf st C st' p, L (kl pt gt) (kl pf gf) st = (C, st') ->
    forallb simple pt = true -> forallb simple pf = true -> plc C p ->
    forall m'', run_simple (if b then pt else pf) m1 = Some m'' ->
    runs (mk p m) [] (mk (kexit (if b then gt else gf) (p + size C)) m'').
Lemma swapped_spec L b m m1 : branch_spec L b m m1 -> branch_spec (swapped L) (negb b) m m1.
Proof.
  intros H pt gt pf gf st C st' p L0 Spt Spf P m'' Rs.
  specialize (H pf gf pt gt st C st' p L0 Spf Spt P m''). destruct b; apply H; exact Rs.
Qed.
Lemma joined_spec n1 n2 L1 L2 b1 b2 m m1 m2 : branch_spec L1 b1 m m1 -> branch_spec L2 b2 m1 m2 ->
  branch_spec (joined n1 n2 L1 L2) (b1 && b2) m (if b1 then m2 else m1).
Proof.
  intros S1 S2 pt gt pf gf st C st' p L Spt Spf P m'' Rs. unfold joined in L.
  destruct (add_label n1 st) as [x st1]. destruct (add_label n2 st1) as [y st2].
  rewrite (kl_or_end pf gf y Spf) in L.
  destruct (L1 (goto x) (kl pf (or_end gf y)) st2) as [c1 st3] eqn:E1.
  destruct (L2 (kl pt gt) (kl pf gf) st3) as [c2 st4] eqn:E2.
  inversion L; subst C st'; clear L.
  apply placed_app in P. destruct P as [P1 P]. cbn [app plc] in P. destruct P as [Lx P].
  apply placed_app in P. destruct P as [P2 Pend].
  specialize (S1 [] (Some x) pf (or_end gf y) st2 c1 st3 p E1 eq_refl Spf P1).
  specialize (S2 pt gt pf gf st3 c2 st4 _ E2 Spt Spf P2).
  szn. rewrite size_end_label, Z.add_0_r, Z.add_assoc.
  destruct b1; cbn [andb] in Rs |- *.
  - (* on to the right operand, at the first label *)
    specialize (S1 _ eq_refl). cbn [kexit] in S1. rewrite Lx in S1. exact (runs_seq _ _ _ S1 (S2 _ Rs)).
  - (* short circuit: out through if_false *)
    rewrite (kexit_or_end pf gf y _ (p + size c1) Spf Pend). exact (S1 _ Rs).
Qed.

Theorem lower_runs e : forall pt gt pf gf st C st' p m,
  lower_branch E e (kl pt gt) (kl pf gf) st = (C, st') ->
  forallb simple pt = true -> forallb simple pf = true ->
  plc C p -> layout_ok m -> vars_ok m e ->
  forall m'', run_simple (if beval m e then pt else pf) (run_mem e m) = Some m'' ->
  runs (mk p m) [] (mk (kexit (if beval m e then gt else gf) (p + size C)) m'').
Proof.
  enough (H : forall m, layout_ok m -> vars_ok m e -> branch_spec (lower_branch E e) (beval m e) m (run_mem e m)).
  { intros pt gt pf gf st C st' p m L Spt Spf P Lo V. exact (H m Lo V pt gt pf gf st C st' p L Spt Spf P). }
  induction e as [b|j|op a b|e IH|e1 IH1 e2 IH2|e1 IH1 e2 IH2]; intros m Lo V.
  - intros pt gt pf gf st C st' p L Spt Spf P m'' Rs. inversion L; subst C st'; clear L.
    cbn [beval run_mem] in *. destruct b; apply kont_runs; assumption.
  - (* BVar: the load, then the test of its value against 0 *)
    intros pt gt pf gf st C st' p L Spt Spf P m'' Rs. cbn [lower_branch] in L.
    destruct (add_label LIsTrue st) as [it st1]. destruct (add_label LBoolEnd st1) as [be st2].
    inversion L; subst C st'; clear L.
    destruct (load_bool_instr E R1 j) as [ld Eld]. rewrite Eld in P |- *.
    match goal with |- context [size ?c] =>
      change c with (AInstr ld :: test_code it be Cne Ceq (SReg R1) (SLit 0) (kl pt gt) (kl pf gf)) in P |- * end.
    destruct P as [Cl P]. cbn [size]. rewrite Z.add_assoc. destruct Lo as [Lo Ro]. cbn [vars_ok] in V. cbn [run_mem beval] in Rs |- *.
    pose proof (load_bool_act p m (HI m) R1 j ld (or_intror eq_refl) Lo V Eld Cl) as A. cbn [regaddr] in A.
    set (v := bval m j) in *. set (m1 := sw m r1 v) in *. eapply runs_tau; [exact A|].
    assert (Ov : oval m1 (St r1) = Some v).
    { unfold m1. rewrite (oval_st_sw_same w Hw cmem m _ _ (lo_r1 m Lo) (lo_i1 m Lo)). f_equal.
      apply (wrap_small w). pose proof (bval_range m j (lo_wf m Lo)) as Hb.
      fold v in Hb. pose proof (W_ge w Hw1). unfold inrange. lia. }
    pose proof (test_runs pt gt pf gf it be Cne Ceq (SReg R1) (SLit 0) v (wrap 0) (p + 1) m1 m''
                  ltac:(cbn; tauto) Spt Spf P Ov (oval_imm w cmem m1 0)) as T.
    cbn [cond_holds] in T. rewrite wrap_0 in T. exact (T Rs).
  - (* BCmp: the operands, then the test *)
    intros pt gt pf gf st C st' p L Spt Spf P m'' Rs. cbn [lower_branch] in L.
    destruct (add_label LCompareIsTrue st) as [it st1]. destruct (add_label LCompareEnd st1) as [be st2].
    destruct Lo as [Lo Ro]. cbn [vars_ok] in V. destruct V as [Va [Vb Vt]].
    destruct (cmp_props a b m Lo Ro Va Vb Vt) as [Ag [lhs [rhs [Eco [Rco [Oa [Ob Sem]]]]]]].
    rewrite Eco in L. inversion L; subst C st'; clear L.
    apply placed_app in P. destruct P as [Pco P].
    cbn [run_mem beval] in Rs |- *. set (m2 := pair_mem (stack_top E) a b m) in *.
    eapply runs_seq; [exact (Rco p Pco)|].
    pose proof (test_runs pt gt pf gf it be _ _ lhs rhs _ _ _ m2 m'' (compare_instr_inv op) Spt Spf P Oa Ob) as T.
    rewrite Sem in T. rewrite size_app, Z.add_assoc. exact (T Rs).
  - exact (swapped_spec _ _ _ _ (IH m Lo V)).
  - destruct V as [V1 V2]. destruct (right_operand_hyps m _ e2 Lo (run_mem_agree e1 m Lo V1) V2) as [Lo1 [V21 [_ Eb]]].
    pose proof (joined_spec LLeftIsTrue LAndEnd _ _ _ _ _ _ _ (IH1 m Lo V1) (IH2 _ Lo1 V21)) as J.
    rewrite Eb in J. exact J.
  - (* or: the and of the negations, negated *)
    destruct V as [V1 V2]. destruct (right_operand_hyps m _ e2 Lo (run_mem_agree e1 m Lo V1) V2) as [Lo1 [V21 [_ Eb]]].
    pose proof (swapped_spec _ _ _ _ (joined_spec LLeftIsFalse LOrEnd _ _ _ _ _ _ _ (swapped_spec _ _ _ _ (IH1 m Lo V1))
                  (swapped_spec _ _ _ _ (IH2 _ Lo1 V21)))) as J.
    rewrite Eb in J. cbn [beval run_mem].
    destruct (beval m e1), (beval m e2); exact J.
Qed.

Definition b2z (b : bool) : Z := if b then 1 else 0.
(* hidc's invariant for bool locals: the byte is 0 or 1 (`sub r, 1, x` needs it) *)
Fixpoint bool_norm (m : mem) (e : bexpr) : Prop :=
  match e with
  | BVar j => bval m j = 0 \/ bval m j = 1
  | BLit _ | BCmp _ _ _ => True
  | BNot e1 => bool_norm m e1
  | BAnd e1 e2 | BOr e1 e2 => bool_norm m e1 /\ bool_norm m e2
  end.
Lemma bool_norm_agree m m' e : regs_ok m -> agree (HI m) m m' -> vars_ok m e -> bool_norm m e -> bool_norm m' e.
Proof.
  intros L A. induction e as [b|j|op a b|e IH|e1 IH1 e2 IH2|e1 IH1 e2 IH2]; cbn [vars_ok bool_norm]; try tauto.
  intros V. now rewrite (bval_agree (HI m) m m' j L A V).
Qed.
Lemma wrap_b2z b : wrap (b2z b) = b2z b.
Proof. apply (wrap_small w). pose proof (W_ge w Hw1). unfold inrange. destruct b; cbn; lia. Qed.

(* value position: the branch lowering with `mov [rg], 1` and `mov [rg], 0` as continuations *)
Lemma value_runs e rg st c st' p m : value_lowering E e rg st = (c, st') -> plc c p ->
  layout_ok m -> vars_ok m e -> rg = R0 \/ rg = R1 ->
  let m' := sw (run_mem e m) (ra rg) (b2z (beval m e)) in
  runs (mk p m) [] (mk (p + size c) m') /\ agree (HI m) m m' /\ oval m' (St (ra rg)) = Some (b2z (beval m e)).
Proof.
  intros Ev P Lo V Hr m'. unfold value_lowering in Ev.
  pose proof (run_mem_agree e m Lo V) as A.
  pose proof (regs_ok_agree _ m _ (proj1 Lo) A) as L1.
  destruct (ra_ok rg _ Hr L1) as [Ir0 Ir1].
  pose proof (lower_runs e [AMov rg (SLit 1)] None [AMov rg (SLit 0)] None st c st' p m Ev eq_refl eq_refl P Lo V m') as Rn.
  cbn [kexit] in Rn.
  assert (Rs : run_simple (if beval m e then [AMov rg (SLit 1)] else [AMov rg (SLit 0)]) (run_mem e m) = Some m').
  { unfold m'. destruct (beval m e); cbn [run_simple b2z]; unfold step_simple; cbn [res_ins res_sym exec val];
      unfold setdest; cbn [mm]; rewrite Ir1; unfold nxtm; cbn [mm pc]; f_equal; apply sw_wrap_eq; apply (wrap_wrap w Hw1). }
  destruct (beval m e) eqn:B; (split; [apply Rn; exact Rs|]); (split;
    [eapply agree_trans; [exact A | apply agree_sw_reg; assumption] |
     unfold m'; rewrite (oval_st_sw_same w Hw cmem _ _ _ Ir0 Ir1); f_equal; apply (wrap_b2z _)]).
Qed.

(* keep position (`bool p = e;`): the branch lowering with `sbso [fp], -off, 1` and `sbso [fp], -off, 0`
   as continuations, off being the byte reserved for the result *)
Lemma value_keep_runs e off st c st' p m :
  lower_branch E e [AInstr (ASbso (SReg RFp) (SLit (- off)) (SLit 1))] [AInstr (ASbso (SReg RFp) (SLit (- off)) (SLit 0))] st = (c, st') ->
  plc c p -> layout_ok m -> vars_ok m e -> 0 < off <= W / 2 -> inb m (FP m - off) 1 = true ->
  runs (mk p m) [] (mk (p + size c) (Machine.sb (run_mem e m) (FP m - off) (b2z (beval m e)))).
Proof.
  intros Ev P Lo V Ho I. pose proof (run_mem_agree e m Lo V) as A.
  pose proof (lower_runs e [ASbso (SReg RFp) (SLit (- off)) (SLit 1)] None [ASbso (SReg RFp) (SLit (- off)) (SLit 0)] None
                st c st' p m Ev eq_refl eq_refl P Lo V) as Rn.
  set (m1 := run_mem e m) in *. pose proof (regs_ok_agree _ m m1 (proj1 Lo) A) as L1.
  assert (St : forall z, wrap z = z -> step_simple (ASbso (SReg RFp) (SLit (- off)) (SLit z)) m1 = Some (Machine.sb m1 (FP m - off) z)).
  { intros z Hz. unfold step_simple. cbn [res_ins res_sym regaddr exec val mm]. rewrite (lo_if m1 L1).
    change (lw m1 fp) with (FP m1). rewrite (frame_addr m1 off L1 Ho), (FP_agree _ m m1 (proj1 Lo) A).
    unfold store; cbn [mm]. rewrite (agree_inb _ m m1 _ _ A), I, Hz. reflexivity. }
  destruct (beval m e); apply Rn; cbn [run_simple]; [rewrite (St 1 (wrap_b2z true)) | rewrite (St 0 (wrap_b2z false))]; reflexivity.
Qed.

Lemma bool_value_runs e : forall st c v st' p m,
  eval_bool_value E R1 e st = (c, v, st') -> plc c p ->
  layout_ok m -> vars_ok m e -> bool_norm m e ->
  exists m', runs (mk p m) [] (mk (p + size c) m') /\ agree (HI m) m m' /\
             oval m' (rs v) = Some (b2z (beval m e)).
Proof.
  induction e as [b|j|op a b|e IH|e1 IH1 e2 IH2|e1 IH1 e2 IH2]; intros st c v st' p m Ev P Lo V N; cbn [eval_bool_value] in Ev.
  (* a comparison, and, or: the value lowering into r1 *)
  3, 5, 6: destruct (value_lowering E _ R1 st) as [c0 st0] eqn:E0; inversion Ev; subst c v st'; clear Ev;
    eexists; exact (value_runs _ R1 st c0 st0 p m E0 P Lo V (or_intror eq_refl)).
  - inversion Ev; subst. exists m. cbn [beval].
    split; [exact (code_runs_nil m p I)|]. split; [apply agree_refl|]. cbn [res_sym]. rewrite oval_imm. f_equal.
    destruct b; apply (wrap_b2z true) || apply (wrap_b2z false).
  - inversion Ev; subst; clear Ev.
    destruct (load_bool_instr E R1 j) as [ld Eld]. rewrite Eld in P |- *.
    destruct Lo as [Lo Ro]. cbn [vars_ok] in V.
    exists (sw m r1 (bval m j)).
    split; [exact (code_runs_one ld m _ (fun q => load_bool_act q m (HI m) R1 j ld (or_intror eq_refl) Lo V Eld) p P)|]. split; [apply agree_sw; [apply (lo_r1 m Lo) | auto]|].
    cbn [res_sym regaddr beval]. rewrite (oval_st_sw_same w Hw cmem m _ _ (lo_r1 m Lo) (lo_i1 m Lo)). f_equal.
    cbn [bool_norm] in N. destruct N as [-> | ->]; [apply (wrap_b2z false) | apply (wrap_b2z true)].
  - destruct (eval_bool_value E R1 e st) as [[c0 v0] st0] eqn:E0.
    inversion Ev; subst; clear Ev. apply placed_app in P. destruct P as [P0 Ps].
    cbn [vars_ok bool_norm] in V, N.
    destruct (IH st c0 v0 st' p m E0 P0 Lo V N) as [m1 [R1' [A1 O1]]].
    cbn [plc res_ins res_sym regaddr] in Ps. destruct Ps as [Cs _].
    pose proof (regs_ok_agree _ m m1 (proj1 Lo) A1) as L1.
    destruct (not_by_sub w Hw code cmem _ m1 r1 _ (b2z (beval m e)) Cs O1 (lo_r1 m1 L1) (lo_i1 m1 L1)) as [Rn Lv];
      [destruct (beval m e); auto|].
    exists (sw m1 r1 (1 - b2z (beval m e))). rewrite size_app, Z.add_assoc.
    split; [exact (runs_seq _ _ _ R1' Rn)|].
    split; [eapply agree_trans; [exact A1|]; apply agree_sw; [apply (lo_r1 m1 L1) | auto]|].
    cbn [res_sym regaddr beval]. rewrite oval_st, Lv by (rewrite inb_sw; apply (lo_i1 m1 L1)).
    destruct (beval m e); reflexivity.
Qed.

Definition is_test (e : bexpr) : Prop := match e with BOr _ _ | BLit _ => False | _ => True end.
(* truth_is_defeat sees an expression as a disjunction of tests and literals *)
Lemma defeat_ind (P : bexpr -> Prop) : (forall e, is_test e -> P e) -> (forall b, P (BLit b)) ->
  (forall e1 e2, P e1 -> P e2 -> P (BOr e1 e2)) -> forall e, P e.
Proof. intros Ht Hl Ho. induction e; try (apply Ht; exact I); auto. Qed.
Lemma defeat_value_test e virt cc st c st' p m : cc = Cne \/ cc = Ceq ->
  defeat_by_value E virt e cc st = (c, st') -> plc c p -> layout_ok m -> vars_ok m e -> bool_norm m e ->
  exists cp cc' l r m1 x y,
    c = cp ++ defeat_jump virt ++ [AInstr (AHc cc' l r)] /\
    runs (mk p m) [] (mk (p + size cp) m1) /\ agree (HI m) m m1 /\
    oval m1 (rs l) = Some x /\ oval m1 (rs r) = Some y /\
    cond_holds w cc' x y = (if match cc with Cne => true | _ => false end then beval m e else negb (beval m e)).
Proof.
  intros Hcc Ev P Lo V N. unfold defeat_by_value in Ev. destruct (eval_bool_value E R1 e st) as [[c0 v] st0] eqn:E0.
  inversion Ev; subst c st'; clear Ev. apply placed_app in P. destruct P as [P0 _].
  destruct (bool_value_runs e st c0 v st0 p m E0 P0 Lo V N) as [m1 [R1' [A1 O1]]].
  exists c0, cc, v, (SLit 0), m1, (b2z (beval m e)), (wrap 0).
  split; [reflexivity|]. split; [exact R1'|]. split; [exact A1|]. split; [exact O1|]. split; [apply oval_imm|].
  rewrite wrap_0. destruct Hcc as [-> | ->]; cbn [cond_holds]; destruct (beval m e); reflexivity.
Qed.
(* every test of truth_is_defeat: a silent prefix computing the operands, then [j [defeat];] hcc *)
Lemma defeat_test e virt : is_test e -> forall st c st' p m,
  lower_defeat E virt e st = (c, st') -> plc c p -> layout_ok m -> vars_ok m e -> bool_norm m e ->
  exists cp cc l r m1 x y,
    c = cp ++ defeat_jump virt ++ [AInstr (AHc cc l r)] /\
    runs (mk p m) [] (mk (p + size cp) m1) /\ agree (HI m) m m1 /\
    oval m1 (rs l) = Some x /\ oval m1 (rs r) = Some y /\ cond_holds w cc x y = beval m e.
Proof.
  intros Ts st c st' p m Ev P Lo V N.
  destruct e as [b|j|op a b|e1|e1 e2|e1 e2]; try destruct Ts; cbn [lower_defeat] in Ev.
  - exact (defeat_value_test (BVar j) virt Cne st c st' p m (or_introl eq_refl) Ev P Lo V N).
  - destruct Lo as [Lo Ro]. cbn [vars_ok] in V. destruct V as [Va [Vb Vt]].
    destruct (cmp_props a b m Lo Ro Va Vb Vt) as [Ag [lhs [rhs [Eco [Rco [Oa [Ob Sem]]]]]]].
    rewrite Eco in Ev. inversion Ev; subst c st'; clear Ev.
    apply placed_app in P. destruct P as [Pco _].
    exists (pair_code E (stack_top E) a b), (compare_instr op), lhs, rhs, (pair_mem (stack_top E) a b m), (wval m a), (wval m b).
    split; [reflexivity|]. split; [exact (Rco p Pco)|]. split; [exact Ag|]. split; [exact Oa|]. split; [exact Ob | apply Sem].
  - cbn [vars_ok bool_norm] in V, N.
    exact (defeat_value_test e1 virt Ceq st c st' p m (or_intror eq_refl) Ev P Lo V N).
  - exact (defeat_value_test (BAnd e1 e2) virt Cne st c st' p m (or_introl eq_refl) Ev P Lo V N).
Qed.

(* STATIC defeat (effective_defeat = halt): the lowered code halts iff the expression is true;
   otherwise it falls through silently, having changed only r0, r1, r2 and the temporaries *)
Definition static_spec (e : bexpr) : Prop := forall st c st' p m,
  lower_defeat E false e st = (c, st') -> plc c p -> layout_ok m -> vars_ok m e -> bool_norm m e ->
  (beval m e = true -> Halts (mk p m)) /\
  (beval m e = false -> exists m', runs (mk p m) [] (mk (p + size c) m') /\ agree (HI m) m m').
Theorem defeat_static_runs e : static_spec e.
Proof.
  induction e as [e Ts|b|e1 e2 IH1 IH2] using defeat_ind; intros st c st' p m Ev P Lo V N.
  - destruct (defeat_test e false Ts st c st' p m Ev P Lo V N) as [cp [cc [l [r [m1 [x [y [Ec [R1' [A1 [Ol [Or Cd]]]]]]]]]]]].
    subst c. cbn [defeat_jump app] in *. apply placed_app in P. destruct P as [_ Pt].
    cbn [plc res_ins] in Pt. destruct Pt as [Ct _].
    destruct (defeat_call_static_cond w code cmem _ m1 cc _ _ x y Ct Ol Or) as [Ht Hf]. rewrite Cd in Ht, Hf.
    split; intros B.
    + apply (proj1 R1'). apply Ht. exact B.
    + exists m1. split; [|exact A1]. rewrite size_app, Z.add_assoc. cbn [size]. rewrite Z.add_0_r.
      exact (runs_seq _ _ _ R1' (Hf B)).
  - cbn [lower_defeat defeat_jump app] in Ev. inversion Ev; subst c st'; clear Ev. cbn [beval]. destruct b.
    + cbn [plc res_ins] in P. destruct P as [Ch _]. split; [intros _; apply (defeat_call_static w code cmem p m Ch) | discriminate].
    + split; [discriminate|]. intros _. exists m. split; [exact (code_runs_nil m p I) | apply agree_refl].
  - cbn [lower_defeat] in Ev. destruct (lower_defeat E false e1 st) as [c1 st1] eqn:E1.
    destruct (lower_defeat E false e2 st1) as [c2 st2] eqn:E2. inversion Ev; subst c st'; clear Ev.
    apply placed_app in P. destruct P as [P1 P2]. cbn [vars_ok bool_norm beval] in *. destruct V as [V1 V2]. destruct N as [N1 N2].
    destruct (IH1 st c1 st1 p m E1 P1 Lo V1 N1) as [T1 F1].
    destruct (beval m e1) eqn:B1; cbn [orb].
    + split; [intros _; apply T1; reflexivity | discriminate].
    + destruct (F1 eq_refl) as [m1 [R1' A1]].
      destruct (right_operand_hyps m m1 e2 Lo A1 V2) as [Lo1 [V21 [EH Eb]]].
      destruct (IH2 st1 c2 st2 (p + size c1) m1 E2 P2 Lo1 V21 (bool_norm_agree m m1 e2 (proj1 Lo) A1 V2 N2)) as [T2 F2].
      rewrite Eb in T2, F2.
      split; intros B2.
      * apply (proj1 R1'). apply T2. exact B2.
      * destruct (F2 B2) as [m2 [R2 A2]]. exists m2. rewrite size_app. split.
        -- rewrite Z.add_assoc. exact (runs_seq _ _ _ R1' R2).
        -- eapply agree_trans; [exact A1|]. rewrite <- EH. exact A2.
Qed.

(* VIRTUAL defeat (effective_defeat = [defeat]): every test is `j [defeat]; hcc`.  The defeat word
   lies outside everything the evaluation writes. *)
Notation dw := (a_defeat R).
Definition defeat_ok (m : mem) : Prop := 0 <= dw /\ inb m dw w = true /\ dj (HI m) dw w.
Lemma defeat_ok_agree m m' : regs_ok m -> agree (HI m) m m' -> defeat_ok m -> defeat_ok m' /\ lw m' dw = lw m dw.
Proof.
  intros L A [D0 [D1 D2]]. split.
  - split; [exact D0|]. split; [now rewrite (agree_inb _ m m' _ _ A) | now rewrite (HI_agree _ m m' L A)].
  - apply (agree_lw (HI m)); assumption.
Qed.
(* one test, all three cases of TimeTravel.defeat_call_virtual_cond: after the silent operand
   prefix (state q, memory m1),
   (1) the expression is true: control goes to the handler;
   (2) false and the continuation does not halt: control falls through;
   (3) false but the continuation HALTS: control goes to the handler although the test failed *)
Theorem defeat_virtual_test e : is_test e -> forall st c st' p m,
  lower_defeat E true e st = (c, st') -> plc c p -> layout_ok m -> vars_ok m e -> bool_norm m e ->
  defeat_ok m ->
  let hd := lw m dw in
  exists m1, agree (HI m) m m1 /\ exists q, runs (mk p m) [] (mk q m1) /\ q + 2 = p + size c /\
    (beval m e = true -> runs (mk q m1) [] (mk hd m1)) /\
    (beval m e = false -> ~ Halts (mk (q + 2) m1) -> runs (mk q m1) [] (mk (q + 2) m1) /\ ~ Halts (mk q m1)) /\
    (beval m e = false -> Halts (mk (q + 2) m1) -> runs (mk q m1) [] (mk hd m1)).
Proof.
  intros Ts st c st' p m Ev P Lo V N Dk hd.
  destruct (defeat_test e true Ts st c st' p m Ev P Lo V N) as [cp [cc [l [r [m1 [x [y [Ec [R1' [A1 [Ol [Or Cd]]]]]]]]]]]].
  subst c. cbn [defeat_jump app] in *. apply placed_app in P. destruct P as [_ Pt].
  cbn [plc res_ins res_sym regaddr] in Pt. destruct Pt as [Cj [Ct _]].
  destruct (defeat_ok_agree m m1 (proj1 Lo) A1 Dk) as [[D0 [D1 D2]] Eh].
  destruct (defeat_call_virtual_cond w code cmem _ m1 dw cc _ _ x y Cj D1 Ct Ol Or) as [H1 [H2 H3]].
  rewrite Eh in H1, H3. fold hd in H1, H3. rewrite Cd in H1, H2, H3.
  exists m1. split; [exact A1|]. exists (p + size cp). split; [exact R1'|]. split; [rewrite size_app; cbn [size]; lia|].
  split; [intros B; apply (H1 B)|]. split; [intros B Nh; apply (H2 B Nh) | intros B Hh; apply (H3 B Hh)].
Qed.

(* the whole expression, when the handler never halts (C03: a compiled program never halts):
   true -> control reaches the handler; false and the continuation never halts -> falls through.
   In e1 || e2 a failed last test of e1 falls through only if what follows it does not halt (case 2
   of defeat_virtual_test); what follows is the code of e2, which runs into the handler or into
   the continuation (`At` below), and neither halts. *)
Definition virtual_spec (e : bexpr) : Prop := forall st c st' p m,
  lower_defeat E true e st = (c, st') -> plc c p -> layout_ok m -> vars_ok m e -> bool_norm m e ->
  defeat_ok m ->
  (forall m', agree (HI m) m m' -> ~ Halts (mk (lw m dw) m')) ->
  (beval m e = false -> forall m', agree (HI m) m m' -> ~ Halts (mk (p + size c) m')) ->
  exists m', agree (HI m) m m' /\ runs (mk p m) [] (mk (if beval m e then lw m dw else p + size c) m').
Theorem defeat_virtual_runs e : virtual_spec e.
Proof.
  induction e as [e Ts|b|e1 e2 IH1 IH2] using defeat_ind; intros st c st' p m Ev P Lo V N Dk Nh Nc.
  - destruct (defeat_virtual_test e Ts st c st' p m Ev P Lo V N Dk) as [m1 [A1 [q [R1' [Eq [H1 [H2 _]]]]]]].
    exists m1. split; [exact A1|]. eapply runs_seq; [exact R1'|].
    destruct (beval m e); [exact (H1 eq_refl)|]. rewrite <- Eq. apply H2; [reflexivity|]. rewrite Eq. exact (Nc eq_refl m1 A1).
  - cbn [lower_defeat defeat_jump app] in Ev. inversion Ev; subst c st'; clear Ev. cbn [beval].
    exists m. split; [apply agree_refl|]. destruct b; [|exact (code_runs_nil m p I)].
    cbn [plc res_ins res_sym regaddr] in P. destruct P as [Cj [Ch _]].
    exact (proj1 (defeat_call_virtual w code cmem p m dw Cj Ch (proj1 (proj2 Dk)))).
  - cbn [lower_defeat] in Ev. destruct (lower_defeat E true e1 st) as [c1 st1] eqn:E1.
    destruct (lower_defeat E true e2 st1) as [c2 st2] eqn:E2. inversion Ev; subst c st'; clear Ev.
    apply placed_app in P. destruct P as [P1 P2]. cbn [vars_ok bool_norm beval] in *. destruct V as [V1 V2]. destruct N as [N1 N2].
    specialize (IH1 st c1 st1 p m E1 P1 Lo V1 N1 Dk Nh). rewrite size_app, Z.add_assoc in *.
    destruct (beval m e1); cbn [orb] in *; [exact (IH1 (fun X => ltac:(discriminate X)))|].
    assert (At : forall m1, agree (HI m) m m1 -> exists m', agree (HI m) m m' /\
              runs (mk (p + size c1) m1) [] (mk (if beval m e2 then lw m dw else p + size c1 + size c2) m')).
    { intros m1 A1. destruct (defeat_ok_agree m m1 (proj1 Lo) A1 Dk) as [Dk1 Eh].
      destruct (right_operand_hyps m m1 e2 Lo A1 V2) as [Lo1 [V21 [EH Eb]]].
      destruct (IH2 st1 c2 st2 (p + size c1) m1 E2 P2 Lo1 V21 (bool_norm_agree m m1 e2 (proj1 Lo) A1 V2 N2) Dk1) as [m' [A' R']].
      - intros m' A'. rewrite Eh. apply Nh. eapply agree_trans; [exact A1|]. rewrite <- EH. exact A'.
      - rewrite Eb. intros B m' A'. apply (Nc B). eapply agree_trans; [exact A1|]. rewrite <- EH. exact A'.
      - rewrite Eb, Eh, EH in *. exists m'. split; [eapply agree_trans; eauto | exact R']. }
    destruct IH1 as [m1 [A1 R1']].
    { intros _ m' A' Hh. destruct (At m' A') as [m'' [A'' R'']]. apply (proj1 R'') in Hh.
      destruct (beval m e2); [exact (Nh m'' A'' Hh) | exact (Nc eq_refl m'' A'' Hh)]. }
    destruct (At m1 A1) as [m2 [A2 R2]]. exists m2. split; [exact A2 | exact (runs_seq _ _ _ R1' R2)].
Qed.
End Sem.

Lemma eval_bool_value_defs E e : forall r st c v st', eval_bool_value E r e st = (c, v, st') ->
  st_le st st' /\ Forall (between st st') (deflabels c) /\ NoDup (deflabels c).
Proof.
  induction e as [b|j|op a b|e IH|e1 IH1 e2 IH2|e1 IH1 e2 IH2]; intros r st c v st' Ev; cbn [eval_bool_value] in Ev.
  3, 5, 6: destruct (value_lowering E _ r st) as [c0 st0] eqn:L; inversion Ev; subst;
    apply (lower_branch_defs E _ _ _ _ _ _ L); reflexivity.
  - inversion Ev; subst. split; [apply st_le_refl|]. split; constructor.
  - inversion Ev; subst. split; [apply st_le_refl|]. destruct j; split; constructor.
  - destruct (eval_bool_value E r e st) as [[c0 v0] st0] eqn:E0. inversion Ev; subst.
    destruct (IH r st c0 v0 st' E0) as [M [F D]]. split; [exact M|]. defl. rewrite app_nil_r. split; assumption.
Qed.
Lemma defeat_jump_nolabels virt : deflabels (defeat_jump virt) = [].
Proof. destruct virt; reflexivity. Qed.
Lemma defeat_by_value_defs E virt e cc st c st' : defeat_by_value E virt e cc st = (c, st') ->
  st_le st st' /\ Forall (between st st') (deflabels c) /\ NoDup (deflabels c).
Proof.
  unfold defeat_by_value. intros Ev. destruct (eval_bool_value E R1 e st) as [[c0 v] st0] eqn:E0. inversion Ev; subst.
  destruct (eval_bool_value_defs E e R1 st c0 v st' E0) as [M [F D]]. split; [exact M|].
  defl. rewrite defeat_jump_nolabels. cbn [app]. rewrite app_nil_r. split; assumption.
Qed.
Lemma lower_defeat_defs E virt e : forall st c st', lower_defeat E virt e st = (c, st') ->
  st_le st st' /\ Forall (between st st') (deflabels c) /\ NoDup (deflabels c).
Proof.
  induction e as [b|j|op a b|e IH|e1 IH1 e2 IH2|e1 IH1 e2 IH2]; intros st c st' Ev; cbn [lower_defeat] in Ev.
  - inversion Ev; subst. split; [apply st_le_refl|]. destruct b; defl; rewrite ?defeat_jump_nolabels; split; constructor.
  - exact (defeat_by_value_defs E virt (BVar j) Cne st c st' Ev).
  - pose proof (compare_operands_nolabels E a b) as Dc.
    destruct (compare_operands E a b) as [[co lhs] rhs]. cbn [fst] in Dc. inversion Ev; subst.
    split; [apply st_le_refl|]. defl. rewrite Dc, defeat_jump_nolabels. split; constructor.
  - exact (defeat_by_value_defs E virt e Ceq st c st' Ev).
  - exact (defeat_by_value_defs E virt (BAnd e1 e2) Cne st c st' Ev).
  - destruct (lower_defeat E virt e1 st) as [c1 st1] eqn:E1. destruct (lower_defeat E virt e2 st1) as [c2 st2] eqn:E2.
    inversion Ev; subst. destruct (IH1 _ _ _ E1) as [M1 [F1 D1]]. destruct (IH2 _ _ _ E2) as [M2 [F2 D2]].
    split; [eapply st_le_trans; eauto|]. apply (defs_app_sep st st1 st'); assumption.
Qed.

Lemma below_not_between st st' x : below st x -> ~ between st st' x.
Proof. unfold below, between. lia. Qed.
Lemma resolved_placed code R ext B C Wd :
  (forall x, 0 <= ext x < Wd) -> NoDup (deflabels C) -> code_at code B (resolve R ext B C) ->
  0 <= B -> B + size C < Wd ->
  placed R (labenv ext B C) code C B /\ (forall l, 0 <= labenv ext B C l < Wd).
Proof.
  intros He Nd CA HB HS. split; [apply resolve_placed; assumption | apply labenv_range; assumption].
Qed.

Section Top.
Variable w : Z.
Hypothesis Hw : 2 <= w.
Variable code : Z -> option instr.
Variable cmem : mem.
Variable R : regmap.
Variable E : env.
Hypothesis HwE : wsize E = w.
Variable lo : Z.                     (* lowest address the pushed temporaries may occupy *)
Variable ext : label -> Z.           (* addresses of the labels defined outside the lowered block *)
Hypothesis ext_range : forall x, 0 <= ext x < Machine.W w.
Notation act := (Machine.act w code cmem).
Notation Halts := (HidV.Sphinx.Halts.Halts act).
Notation runs := (HidV.Sphinx.Halts.runs act).
Notation csteps := (HidV.Sphinx.Halts.csteps act).

(* DESIGN C01 item 3, without `/` and `%` (op_ok; they are lowered at the statement level, with the
   guard of a checked build: LowerStmtProofs.div_r1_runs).  For every int expression tree o that
   oexp_ok admits (any nesting), eval_expr(rg, o, keep) lowered at frame offset top: the code
   runs silently (Halts-equivalent, no events) into eval_mem; only r0, r1, r2 and the temporaries'
   area [lo, fp - top) may change (`agree`; the code itself does not write r2); the value
   ⟦o⟧ mod 2^(8w) is where the returned bubble says; and its signed reading is the source value. *)
Theorem arith_lowering_correct o top rg keep B m :
  let C := fst (eval_opd E top rg o keep) in
  let bub := snd (eval_opd E top rg o keep) in
  code_at code B (resolve R ext B C) ->
  0 <= B -> B + size C < Machine.W w ->
  rg = R0 \/ rg = R1 ->
  regs_ok w R lo m -> room_ok w R lo top m -> oexp_ok w R E lo (FP w R m - top) m o ->
  Z.of_nat (temps o keep) * w <= FP w R m - top - lo ->
  let m' := eval_mem w R E top rg o keep m in
  runs (mk B m) [] (mk (B + size C) m') /\
  agree w R lo (FP w R m - top) m m' /\
  bub = bub_of E top rg o keep /\
  bub_val w R m' bub = wval w R E m o /\
  wval w R E m o = Machine.wrap w (sval w R E m o) /\
  Machine.sgn w (wval w R E m o) = sval w R E m o.
Proof.
  intros C bub CA HB HS Hr L Ro O T m'.
  assert (Nd : NoDup (deflabels C)) by (unfold C; rewrite eval_opd_nolabels; constructor).
  destruct (resolved_placed code R ext B C _ ext_range Nd CA HB HS) as [P _].
  destruct (eval_opd_props w R E lo Hw HwE code cmem (labenv ext B C) o top rg keep m Hr L Ro O T) as [A [V Cd]].
  assert (Eb : bub = bub_of E top rg o keep) by apply eval_opd_bub.
  split; [exact (Cd B P)|].
  split; [exact A|]. split; [exact Eb|]. split; [rewrite Eb; exact V|].
  assert (Hw1 : 1 <= w) by lia.
  pose proof (sgn_wval w R E lo Hw _ m o (lo_wf w R lo m L) O) as Sg.
  split; [|exact Sg]. rewrite <- Sg. symmetry. apply (wrap_sgn w Hw1). apply wval_range; [exact Hw | apply (lo_wf w R lo m L)].
Qed.
Theorem get_expr_value_correct o top rg B m :
  let ev := eval_opd E top rg o false in
  let C := fst ev ++ fst (pop_value rg (snd ev)) in
  let v := snd (pop_value rg (snd ev)) in
  code_at code B (resolve R ext B C) ->
  0 <= B -> B + size C < Machine.W w ->
  rg = R0 \/ rg = R1 ->
  regs_ok w R lo m -> room_ok w R lo top m -> oexp_ok w R E lo (FP w R m - top) m o ->
  Z.of_nat (temps o false) * w <= FP w R m - top - lo ->
  let m' := pop_mem w R rg (bub_of E top rg o false) (eval_mem w R E top rg o false m) in
  runs (mk B m) [] (mk (B + size C) m') /\
  agree w R lo (FP w R m - top) m m' /\
  Idioms.oval w cmem m' (res_sym R ext v) = Some (wval w R E m o).
Proof.
  intros ev C v CA HB HS Hr L Ro O T m'. unfold C, v, ev in *. rewrite eval_opd_bub in *.
  fold (value_code E top rg o) in *. fold (sym_of rg (bub_of E top rg o false)).
  assert (Nd : NoDup (deflabels (value_code E top rg o))).
  { unfold value_code. rewrite deflabels_app, eval_opd_nolabels, pop_value_nolabels. constructor. }
  destruct (resolved_placed code R ext B _ _ ext_range Nd CA HB HS) as [P _].
  set (lab := labenv ext B (value_code E top rg o)) in *.
  destruct (get_value_props w R E lo Hw HwE code cmem lab o (eval_opd_props w R E lo Hw HwE code cmem lab o)
              top rg m Hr L Ro O T) as [A [S Cd]].
  split; [exact (Cd B P)|]. split; [exact A | exact (symval_oval w R cmem ext _ _ _ S)].
Qed.

Lemma deflabels_kl pre g : deflabels (kl pre g) = [].
Proof.
  unfold kl. rewrite deflabels_app.
  assert (X : deflabels (map AInstr pre) = []) by (induction pre as [|i r IH]; [reflexivity | exact IH]).
  rewrite X. destruct g; reflexivity.
Qed.

(* BRANCH POSITION, general form: if_true = pt ++ [goto gt], if_false = pf ++ [goto gf], where pt, pf
   are straight-line and the gotos optional.  The code is the two-pass resolution of the model's
   output at base B; labels that the block does not define go through ext. *)
Theorem lowering_correct_gen e pt gt pf gf st B m :
  let C := fst (lower_branch E e (kl pt gt) (kl pf gf) st) in
  let lab := labenv ext B C in
  code_at code B (resolve R ext B C) ->
  0 <= B -> B + size C < Machine.W w ->
  forallb simple pt = true -> forallb simple pf = true ->
  (forall L, gt = Some L -> below st L) -> (forall L, gf = Some L -> below st L) ->
  layout_ok w R E lo m -> vars_ok w R E lo m e ->
  let b := beval w R E m e in
  let m' := run_mem w R E e m in
  agree w R lo (HI w R E m) m m' /\
  m' = fold_left (atom_mem w R E) (trace w R E m e) m /\
  forall m'', run_simple w R cmem lab (if b then pt else pf) m' = Some m'' ->
    runs (mk B m) [] (mk (match (if b then gt else gf) with Some L => ext L | None => B + size C end) m'').
Proof.
  intros C lab CA HB HS Spt Spf Bt Bf Lo V b m'.
  destruct (lower_branch E e (kl pt gt) (kl pf gf) st) as [C0 st'] eqn:L. cbn [fst] in C. subst C.
  destruct (lower_branch_defs E e _ _ _ _ _ L (deflabels_kl pt gt) (deflabels_kl pf gf)) as [_ [Fb Nd]].
  destruct (resolved_placed code R ext B C0 _ ext_range Nd CA HB HS) as [P LR]. fold lab in P, LR.
  split; [apply (run_mem_agree w R E lo Hw HwE code cmem lab); assumption|].
  split; [apply (run_mem_trace w R E lo Hw HwE code cmem lab); assumption|].
  intros m'' Rs.
  pose proof (lower_runs w R E lo Hw HwE code cmem lab LR e pt gt pf gf st C0 st' B m L Spt Spf P Lo V m'' Rs) as Rn.
  fold b in Rn.
  replace (match (if b then gt else gf) with Some L0 => ext L0 | None => B + size C0 end)
    with (kexit lab (if b then gt else gf) (B + size C0)); [exact Rn|].
  assert (X : forall g, (forall L0, g = Some L0 -> below st L0) ->
            kexit lab g (B + size C0) = match g with Some L0 => ext L0 | None => B + size C0 end).
  { intros [L0|] Hb; cbn [kexit]; [|reflexivity]. apply labenv_ext. intro I.
    rewrite Forall_forall in Fb. exact (below_not_between st st' L0 (Hb L0 eq_refl) (Fb _ I)). }
  destruct b; apply X; assumption.
Qed.

(* DESIGN C01 item 2: both continuations are gotos *)
Theorem branch_lowering_correct e T F st B m :
  let C := fst (lower_branch E e (goto T) (goto F) st) in
  code_at code B (resolve R ext B C) ->
  0 <= B -> B + size C < Machine.W w ->
  below st T -> below st F ->
  layout_ok w R E lo m -> vars_ok w R E lo m e ->
  let m' := run_mem w R E e m in
  runs (mk B m) [] (mk (if beval w R E m e then ext T else ext F) m') /\
  agree w R lo (HI w R E m) m m' /\
  m' = fold_left (atom_mem w R E) (trace w R E m e) m.
Proof.
  intros C CA HB HS BT BF Lo V m'.
  destruct (lowering_correct_gen e [] (Some T) [] (Some F) st B m CA HB HS eq_refl eq_refl) as [A [Tr Rn]]; try assumption.
  - intros L X; inversion X; subst; exact BT.
  - intros L X; inversion X; subst; exact BF.
  - split; [|split; assumption]. specialize (Rn m').
    destruct (beval w R E m e); apply Rn; reflexivity.
Qed.

(* the fall-through form of IfBlock / LoopBlock: if_true = (), if_false = goto else *)
Theorem fallthrough_lowering_correct e Else st B m :
  let C := fst (lower_branch E e [] (goto Else) st) in
  code_at code B (resolve R ext B C) ->
  0 <= B -> B + size C < Machine.W w ->
  below st Else ->
  layout_ok w R E lo m -> vars_ok w R E lo m e ->
  let m' := run_mem w R E e m in
  runs (mk B m) [] (mk (if beval w R E m e then B + size C else ext Else) m') /\
  agree w R lo (HI w R E m) m m' /\
  m' = fold_left (atom_mem w R E) (trace w R E m e) m.
Proof.
  intros C CA HB HS BE Lo V m'.
  destruct (lowering_correct_gen e [] None [] (Some Else) st B m CA HB HS eq_refl eq_refl) as [A [Tr Rn]]; try assumption.
  - intros L X; discriminate X.
  - intros L X; inversion X; subst; exact BE.
  - split; [|split; assumption]. specialize (Rn m').
    destruct (beval w R E m e); apply Rn; reflexivity.
Qed.
Theorem if_block_lowering_correct e st B m :
  let C := fst (fst (fst (if_block E e st))) in
  let else_label := snd (fst (fst (if_block E e st))) in
  code_at code B (resolve R ext B C) ->
  0 <= B -> B + size C < Machine.W w ->
  layout_ok w R E lo m -> vars_ok w R E lo m e ->
  let m' := run_mem w R E e m in
  runs (mk B m) [] (mk (if beval w R E m e then B + size C else ext else_label) m') /\
  agree w R lo (HI w R E m) m m' /\
  m' = fold_left (atom_mem w R E) (trace w R E m e) m.
Proof.
  unfold if_block.
  destruct (add_label LElse st) as [el st1] eqn:A1. destruct (add_label LEndElse st1) as [ee st2] eqn:A2.
  destruct (lower_branch E e [] (goto el) st2) as [c st3] eqn:L. cbn [fst snd].
  intros CA HB HS Lo V.
  pose proof (fallthrough_lowering_correct e el st2 B m) as T. rewrite L in T. cbn [fst] in T.
  apply T; try assumption.
  inversion A1; inversion A2; subst. unfold below; cbn. lia.
Qed.

(* C09 item 6: VALUE position (eval_expr, BooleanOp case, keep = False) *)
Theorem value_lowering_correct e rout st B m :
  let C := fst (value_lowering E e rout st) in
  code_at code B (resolve R ext B C) ->
  0 <= B -> B + size C < Machine.W w ->
  layout_ok w R E lo m -> vars_ok w R E lo m e ->
  rout = R0 \/ rout = R1 ->
  let v := if beval w R E m e then 1 else 0 in
  let m'' := Machine.sw w (run_mem w R E e m) (regaddr R rout) v in
  runs (mk B m) [] (mk (B + size C) m'') /\ Machine.lw w m'' (regaddr R rout) = v /\
  agree w R lo (HI w R E m) m m''.
Proof.
  intros C CA HB HS Lo V Hr v m''.
  destruct (value_lowering E e rout st) as [C0 st'] eqn:L. cbn [fst] in C. subst C.
  assert (Nd : NoDup (deflabels C0)) by (apply (lower_branch_defs E e _ _ _ _ _ L); reflexivity).
  destruct (resolved_placed code R ext B C0 _ ext_range Nd CA HB HS) as [P LR].
  destruct (value_runs w R E lo Hw HwE code cmem _ LR e rout st C0 st' B m L P Lo V Hr) as [Rn [A O]].
  split; [exact Rn|]. split; [|exact A].
  apply oval_st_inv in O. destruct O as [_ O]. symmetry. exact O.
Qed.
(* keep = True (e.g. `bool p = e;`): the result byte is reserved on the frame, one byte above the
   current stack top; the expression is lowered with the stack top at that byte (E') *)
Theorem value_lowering_keep_correct e st B m :
  let off := stack_top E + 1 in
  let E' := with_top E off in
  let C := fst (value_lowering_keep E e st) in
  code_at code B (resolve R ext B C) ->
  0 <= B -> B + size C < Machine.W w ->
  layout_ok w R E' lo m -> vars_ok w R E' lo m e ->
  slot_ok w R lo (HI w R E' m) m off 1 ->
  let v := if beval w R E' m e then 1 else 0 in
  let m'' := Machine.sb (run_mem w R E' e m) (FP w R m - off) v in
  runs (mk B m) [] (mk (B + size C) m'') /\ lb m'' (FP w R m - off) = v.
Proof.
  intros off E' C CA HB HS Lo V [S1 [_ [S3 _]]] v m''.
  destruct (value_lowering_keep E e st) as [C0 st'] eqn:L. cbn [fst] in C. subst C.
  assert (Nd : NoDup (deflabels C0)) by (apply (lower_branch_defs E' e _ _ _ _ _ L); reflexivity).
  destruct (resolved_placed code R ext B C0 _ ext_range Nd CA HB HS) as [P LR].
  split; [exact (value_keep_runs w R E' lo Hw HwE code cmem _ LR e off st C0 st' B m L P Lo V S1 S3)|].
  unfold m''. rewrite lb_sb_same. unfold v. destruct (beval w R E' m e); reflexivity.
Qed.
(* truth_is_defeat, STATIC defeat: the lowered code halts iff the expression is true; otherwise it
   falls through silently with only r0, r1, r2 and the temporaries changed *)
Theorem truth_is_defeat_correct e st B m :
  let C := fst (lower_defeat E false e st) in
  code_at code B (resolve R ext B C) ->
  0 <= B -> B + size C < Machine.W w ->
  layout_ok w R E lo m -> vars_ok w R E lo m e -> bool_norm w R E m e ->
  (beval w R E m e = true -> Halts (mk B m)) /\
  (beval w R E m e = false ->
     exists m', runs (mk B m) [] (mk (B + size C) m') /\ agree w R lo (HI w R E m) m m').
Proof.
  intros C CA HB HS Lo V N.
  destruct (lower_defeat E false e st) as [C0 st'] eqn:L. cbn [fst] in C. subst C.
  destruct (lower_defeat_defs E false e st C0 st' L) as [_ [_ Nd]].
  destruct (resolved_placed code R ext B C0 _ ext_range Nd CA HB HS) as [P LR].
  exact (defeat_static_runs w R E lo Hw HwE code cmem _ LR e st C0 st' B m L P Lo V N).
Qed.
(* truth_is_defeat, VIRTUAL defeat, when the handler never halts *)
Theorem truth_is_defeat_virtual_correct e st B m :
  let C := fst (lower_defeat E true e st) in
  let hd := Machine.lw w m (a_defeat R) in
  code_at code B (resolve R ext B C) ->
  0 <= B -> B + size C < Machine.W w ->
  layout_ok w R E lo m -> vars_ok w R E lo m e -> bool_norm w R E m e -> defeat_ok w R E lo m ->
  (forall m', agree w R lo (HI w R E m) m m' -> ~ Halts (mk hd m')) ->
  (beval w R E m e = true -> exists m', agree w R lo (HI w R E m) m m' /\ runs (mk B m) [] (mk hd m')) /\
  (beval w R E m e = false -> (forall m', agree w R lo (HI w R E m) m m' -> ~ Halts (mk (B + size C) m')) ->
     exists m', agree w R lo (HI w R E m) m m' /\ runs (mk B m) [] (mk (B + size C) m')).
Proof.
  intros C hd CA HB HS Lo V N Dk Nh.
  destruct (lower_defeat E true e st) as [C0 st'] eqn:L. cbn [fst] in C. subst C.
  destruct (lower_defeat_defs E true e st C0 st' L) as [_ [_ Nd]].
  destruct (resolved_placed code R ext B C0 _ ext_range Nd CA HB HS) as [P LR].
  pose proof (defeat_virtual_runs w R E lo Hw HwE code cmem _ LR e st C0 st' B m L P Lo V N Dk Nh) as H.
  split; intros Bv.
  - destruct H as [m' [A Rn]]; [rewrite Bv; discriminate|]. rewrite Bv in Rn. exists m'. split; assumption.
  - intros Nc. destruct H as [m' [A Rn]]; [intros _; exact Nc|]. rewrite Bv in Rn. exists m'. split; assumption.
Qed.
(* one virtual test, all three cases, with no assumption on the handler or the continuation *)
Theorem truth_is_defeat_virtual_test e st B m : is_test e ->
  let C := fst (lower_defeat E true e st) in
  let hd := Machine.lw w m (a_defeat R) in
  code_at code B (resolve R ext B C) ->
  0 <= B -> B + size C < Machine.W w ->
  layout_ok w R E lo m -> vars_ok w R E lo m e -> bool_norm w R E m e -> defeat_ok w R E lo m ->
  exists m1, agree w R lo (HI w R E m) m m1 /\ exists q, runs (mk B m) [] (mk q m1) /\ q + 2 = B + size C /\
    (beval w R E m e = true -> runs (mk q m1) [] (mk hd m1)) /\
    (beval w R E m e = false -> ~ Halts (mk (q + 2) m1) -> runs (mk q m1) [] (mk (q + 2) m1) /\ ~ Halts (mk q m1)) /\
    (beval w R E m e = false -> Halts (mk (q + 2) m1) -> runs (mk q m1) [] (mk hd m1)).
Proof.
  intros Ts C hd CA HB HS Lo V N Dk.
  destruct (lower_defeat E true e st) as [C0 st'] eqn:L. cbn [fst] in C. subst C.
  destruct (lower_defeat_defs E true e st C0 st' L) as [_ [_ Nd]].
  destruct (resolved_placed code R ext B C0 _ ext_range Nd CA HB HS) as [P LR].
  exact (defeat_virtual_test w R E lo Hw HwE code cmem _ LR e Ts st C0 st' B m L P Lo V N Dk).
Qed.

(* DESIGN C09 item 6: the three lowerings of one boolean expression decide the same truth value
   b = beval e: the value lowering leaves b (as 0/1) in the register, the branch lowering goes
   to T iff b, the defeat lowering halts iff b (and otherwise falls through) *)
Theorem three_lowerings_agree e m (b := beval w R E m e) :
  layout_ok w R E lo m -> vars_ok w R E lo m e -> bool_norm w R E m e ->
  (* value *)
  (forall rout st B, let C := fst (value_lowering E e rout st) in
     code_at code B (resolve R ext B C) -> 0 <= B -> B + size C < Machine.W w -> rout = R0 \/ rout = R1 ->
     exists m', runs (mk B m) [] (mk (B + size C) m') /\ Machine.lw w m' (regaddr R rout) = (if b then 1 else 0)) /\
  (* branch *)
  (forall T F st B, let C := fst (lower_branch E e (goto T) (goto F) st) in
     code_at code B (resolve R ext B C) -> 0 <= B -> B + size C < Machine.W w -> below st T -> below st F ->
     exists m', runs (mk B m) [] (mk (if b then ext T else ext F) m')) /\
  (* defeat *)
  (forall st B, let C := fst (lower_defeat E false e st) in
     code_at code B (resolve R ext B C) -> 0 <= B -> B + size C < Machine.W w ->
     if b then Halts (mk B m) else exists m', runs (mk B m) [] (mk (B + size C) m')).
Proof.
  intros Lo V N. split; [|split].
  - intros rout st B C CA HB HS Hr.
    destruct (value_lowering_correct e rout st B m CA HB HS Lo V Hr) as [Rn [Lv _]].
    eexists. split; [exact Rn | exact Lv].
  - intros T F st B C CA HB HS BT BF.
    destruct (branch_lowering_correct e T F st B m CA HB HS BT BF Lo V) as [Rn _].
    eexists. exact Rn.
  - intros st B C CA HB HS.
    destruct (truth_is_defeat_correct e st B m CA HB HS Lo V N) as [Ht Hf]. fold b in Ht, Hf.
    destruct b; [apply Ht; reflexivity | destruct (Hf eq_refl) as [m' [Rn _]]; exists m'; exact Rn].
Qed.
End Top.

(* frame offsets of the `swso [fp], -off, _` lines (the pushes) *)
Fixpoint store_offs (l : list aline) : list Z :=
  match l with
  | [] => []
  | AInstr (ASwso (SReg RFp) (SLit z) _) :: r => (- z) :: store_offs r
  | _ :: r => store_offs r
  end.
Lemma store_offs_app a b : store_offs (a ++ b) = store_offs a ++ store_offs b.
Proof.
  induction a as [|x r IH]; [reflexivity|]. cbn [app store_offs].
  destruct x as [l|[t| |c a0 b0|d b0 o|d b0 o|op d a0 b0|d a0|v|d v|b0 o v|b0 o v|a0 v]]; try exact IH.
  destruct b0 as [z|[| | | | | |?|?]|l|c|r'|x0]; try exact IH; destruct o as [z|r0|l|c|r'|x0]; try exact IH. cbn [app]. now rewrite IH.
Qed.
Lemma pop_value_stores r b : store_offs (fst (pop_value r b)) = [].
Proof. destruct b as [|[]| | | |]; reflexivity. Qed.
(* the pushes of an operand's code, in program order, as multiples of the word size above top *)
Fixpoint levels (o : iopd) (keep : bool) : list nat :=
  match o with
  | OArith _ x y =>
      let kx := negb (is_safe y) in
      levels x kx ++ map (Nat.add (pushed x kx)) (levels y false) ++ (if keep then [1%nat] else [])
  | OUn _ x => levels x false ++ (if keep then [1%nat] else [])
  | OGlob _ => if keep then [1%nat] else []
  | OTrunc x => levels x keep
  | _ => []
  end.
Lemma levels_temps o : forall keep,
  Forall (fun k => (1 <= k <= temps o keep)%nat) (levels o keep) /\
  (temps o keep <> 0%nat -> In (temps o keep) (levels o keep)).
Proof.
  assert (Fin : forall (keep : bool) M, ((if keep then 1 else 0) <= M)%nat ->
            Forall (fun k => (1 <= k <= M)%nat) (if keep then [1%nat] else [])).
  { intros [|] M H; constructor; [lia | constructor]. }
  induction o as [ch z|i|op x IHx y IHy|u x IHx|g|tx IHt|yj]; intros keep; cbn [levels temps];
    try (split; [constructor | intros H; contradiction H; reflexivity]).
  - set (kx := negb (is_safe y)). destruct (IHx kx) as [Fx Tx]. destruct (IHy false) as [Fy Ty].
    pose proof (pushed_le_temps x kx) as Hd.
    set (d := pushed x kx) in *. set (tx := temps x kx) in *. set (ty := temps y false) in *.
    set (M := (Nat.max (Nat.max tx (d + ty)) (if keep then 1 else 0))%nat). split.
    + apply Forall_app. split; [|apply Forall_app; split; [|apply Fin; unfold M; lia]].
      * eapply Forall_impl; [|exact Fx]. cbn beta. unfold M. lia.
      * apply Forall_map. eapply Forall_impl; [|exact Fy]. cbn beta. unfold M. lia.
    + intros NM. apply in_or_app.
      destruct (Nat.eq_dec M tx) as [e|N1]; [left; rewrite e; apply Tx; lia | right; apply in_or_app].
      destruct (Nat.eq_dec M (d + ty)) as [e|N2]; [left; rewrite e; apply in_map, Ty | right; destruct keep; [left|]];
        unfold M in *; lia.
  - destruct (IHx false) as [Fx Tx]. set (tx := temps x false) in *.
    set (M := (Nat.max tx (if keep then 1 else 0))%nat). split.
    + apply Forall_app. split; [|apply Fin; unfold M; lia]. eapply Forall_impl; [|exact Fx]. cbn beta. unfold M. lia.
    + intros NM. apply in_or_app.
      destruct (Nat.eq_dec M tx) as [e|N1]; [left; rewrite e; apply Tx; lia | right; destruct keep; [left|]; unfold M in *; lia].
  - destruct keep; split; [repeat constructor | intros _; left; reflexivity | constructor | intros H; contradiction H; reflexivity].
  - apply IHt.
Qed.
Lemma eval_opd_levels E o : forall top r keep,
  store_offs (fst (eval_opd E top r o keep)) = map (fun k => top + Z.of_nat k * wsize E) (levels o keep).
Proof.
  assert (Fin : forall top r keep cd, store_offs (fst (finish_opd E top r keep cd)) =
            store_offs cd ++ map (fun k => top + Z.of_nat k * wsize E) (if keep then [1%nat] else [])).
  { intros top r keep cd. unfold finish_opd. destruct keep; cbn [fst map]; [|now rewrite app_nil_r].
    rewrite store_offs_app. cbn [store_offs]. do 2 f_equal. lia. }
  induction o as [ch z|i|op x IHx y IHy|u x IHx|g|tx IHt|yj]; intros top r keep; try reflexivity.
  - rewrite eval_opd_arith, Fin. unfold pair_code, value_code.
    rewrite !store_offs_app, !pop_value_stores, IHx, IHy, top_after_bub. cbn [store_offs app levels].
    rewrite !app_nil_r, !map_app, map_map, <- app_assoc. do 2 f_equal.
    apply map_ext. intros k. rewrite Nat2Z.inj_add. ring.
  - rewrite eval_opd_un, Fin. unfold value_code. rewrite !store_offs_app, pop_value_stores, IHx.
    replace (store_offs (un_code u r _)) with (@nil Z)
      by (destruct u; [|cbn [un_code]; destruct (is_state_of _ _)]; reflexivity).
    cbn [levels]. now rewrite !app_nil_r, map_app.
  - cbn [eval_opd levels]. destruct keep; cbn [fst store_offs map]; [f_equal; lia | reflexivity].
  - cbn [eval_opd levels]. rewrite <- (IHt top r keep). destruct (eval_opd E top r tx keep). reflexivity.
Qed.

(* `temps` is what the model really uses: every push lies within temps words above top, and
   the bound is attained *)
Theorem eval_opd_stores E o : 0 < wsize E -> forall top r keep,
  let offs := store_offs (fst (eval_opd E top r o keep)) in
  let T := top + Z.of_nat (temps o keep) * wsize E in
  Forall (fun off => top < off <= T) offs /\ (temps o keep <> 0%nat -> In T offs).
Proof.
  intros Hws top r keep offs T. unfold offs, T. rewrite eval_opd_levels.
  destruct (levels_temps o keep) as [F I]. split.
  - apply Forall_map. eapply Forall_impl; [|exact F]. cbn beta. intros k [H1 H2].
    pose proof (Z.mul_le_mono_nonneg_r 1 (Z.of_nat k) (wsize E)). pose proof (Z.mul_le_mono_nonneg_r (Z.of_nat k) (Z.of_nat (temps o keep)) (wsize E)). lia.
  - intros N. exact (in_map _ _ _ (I N)).
Qed.

Lemma code_at_code_of_app l l' : code_at (code_of (l ++ l')) 0 l.
Proof.
  intros k i H. unfold code_of. rewrite Z.add_0_l.
  destruct (Z.ltb_spec (Z.of_nat k) 0); [lia|]. rewrite Nat2Z.id.
  rewrite nth_error_app1; [exact H|]. apply nth_error_Some. congruence.
Qed.
Lemma code_at_code_of l : code_at (code_of l) 0 l.
Proof. pose proof (code_at_code_of_app l []) as H. now rewrite app_nil_r in H. Qed.

(* satisfiability examples: w = 2, hidc's register layout, a 64-byte state section *)
Section Examples.
Definition ex_zero : mem := mkmem 64 (FMapPositive.PositiveMap.empty Z).
Lemma wf_ex_zero : wf_mem ex_zero.
Proof. intros a. unfold getb, ex_zero; cbn [mdata]. rewrite FMapPositive.PositiveMap.gempty. lia. Qed.
(* fp = 60; int locals a = 5 at 56, b = 7 at 54, c = 2 at 52; bool locals p, q = 0 at 51, 50;
   the stack top is at frame offset 10 (address 50); temporaries may use [40, 50); the defeat
   word at 62 *)
Definition ex_mem : mem := Machine.sw 2 (Machine.sw 2 (Machine.sw 2 (Machine.sw 2 ex_zero 2 60) 56 5) 54 7) 52 2.
Lemma wf_ex_mem : wf_mem ex_mem.
Proof. unfold ex_mem. repeat (apply (wf_sw 2); [|lia]). apply wf_ex_zero. Qed.
Definition ex_regs : regmap := hidc_regs 2 62 200.
Definition ex_lo : Z := 40.
Definition ex_env : env := with_top (is_you_env 2 3) 10.
(* a + 1 < b * c and not (p or c < -c) *)
Definition ex_e : bexpr :=
  BAnd (BCmp SLt (OArith SAdd (OVar 0) (OLit false 1)) (OArith SMul (OVar 1) (OVar 2)))
       (BNot (BOr (BVar (BLocal 0)) (BCmp SLt (OVar 2) (OUn UNeg (OVar 2))))).
Definition ex_T : label := (LElse, 0%nat).
Definition ex_F : label := (LEndElse, 0%nat).
Definition ex_st : lstate := fun _ => 1%nat.
Definition ex_ext (l : label) : Z := match fst l with LElse => 100 | _ => 101 end.
Lemma ex_ext_range x : 0 <= ex_ext x < Machine.W 2.
Proof. unfold ex_ext. destruct (fst x); vm_compute; split; (discriminate || reflexivity). Qed.

(* only conjunctions are split: `split` on a closed equation would make the kernel evaluate it *)
Ltac closed_arith :=
  repeat match goal with
  | |- _ /\ _ => split
  | |- _ <= _ => vm_compute; intro; discriminate
  | |- _ < _ => vm_compute; reflexivity
  | |- _ = true => vm_compute; reflexivity
  | |- _ = _ => vm_compute; reflexivity
  | |- _ \/ _ => vm_compute; first [left; intro; discriminate | right; intro; discriminate]
  | |- True => exact I
  end.
(* the layout hypotheses ask of the memory only its size and the frame pointer *)
Definition ex_shape (m : mem) : Prop := wf_mem m /\ msize m = 64 /\ FP 2 ex_regs m = 60.
Lemma ex_mem_shape : ex_shape ex_mem.
Proof. split; [apply wf_ex_mem | split; vm_compute; reflexivity]. Qed.
Lemma ex_layout m : ex_shape m -> layout_ok 2 ex_regs ex_env ex_lo m.
Proof. intros [Wf [Hs HF]]. split; constructor; try exact Wf; unfold inb; rewrite ?HF, ?Hs; closed_arith. Qed.
Lemma ex_HI m : ex_shape m -> HI 2 ex_regs ex_env m = 50.
Proof. intros [_ [_ HF]]. unfold HI. rewrite HF. reflexivity. Qed.
Lemma ex_slot m off n : ex_shape m -> In (off, n) [(4, 2); (6, 2); (8, 2); (9, 1); (10, 1)] -> slot_ok 2 ex_regs ex_lo 50 m off n.
Proof.
  intros [_ [Hs HF]] I. cbn [In] in I.
  repeat (destruct I as [I|I]; [inversion I; subst; unfold slot_ok, dj, inb; rewrite HF, Hs; closed_arith|]). contradiction.
Qed.
Lemma ex_vars m : ex_shape m -> vars_ok 2 ex_regs ex_env ex_lo m ex_e.
Proof.
  intros Sh. cbn [vars_ok bslot_ok ex_e oexp_ok op_ok ex_env is_you_env with_top int_off bool_off]. rewrite (ex_HI m Sh).
  closed_arith; apply (ex_slot m _ _ Sh); vm_compute; tauto.
Qed.
Lemma ex_norm : bool_norm 2 ex_regs ex_env ex_mem ex_e.
Proof. cbn [bool_norm ex_e]. repeat split. left. vm_compute. reflexivity. Qed.

(* an arithmetic operand with a kept temporary: (a + 1) * (b - c) into r0 *)
Definition ex_o : iopd := OArith SMul (OArith SAdd (OVar 0) (OLit false 1)) (OArith SSub (OVar 1) (OVar 2)).
Definition ex_oprog : list instr := resolve ex_regs ex_ext 0 (fst (eval_opd ex_env 10 R0 ex_o false)).
Example arith_lowering_ex :
  let m' := eval_mem 2 ex_regs ex_env 10 R0 ex_o false ex_mem in
  HidV.Sphinx.Halts.runs (Machine.act 2 (code_of ex_oprog) (zmem 0)) (mk 0 ex_mem) []
    (mk (size (fst (eval_opd ex_env 10 R0 ex_o false))) m') /\
  Machine.lw 2 m' (a_r0 ex_regs) = 30.
Proof.
  intros m'.
  destruct (arith_lowering_correct 2 ltac:(lia) (code_of ex_oprog) (zmem 0) ex_regs ex_env eq_refl ex_lo ex_ext ex_ext_range
              ex_o 10 R0 false 0 ex_mem) as [Rn [A [Eb [V _]]]].
  - apply code_at_code_of.
  - lia.
  - vm_compute. reflexivity.
  - left; reflexivity.
  - apply (ex_layout _ ex_mem_shape).
  - apply (ex_layout _ ex_mem_shape).
  - cbn [oexp_ok ex_o op_ok ex_env is_you_env with_top int_off]. replace (FP 2 ex_regs ex_mem - 10) with 50 by (vm_compute; reflexivity).
    closed_arith; apply (ex_slot _ _ _ ex_mem_shape); vm_compute; tauto.
  - vm_compute. intro; discriminate.
  - rewrite Z.add_0_l in Rn. split; [exact Rn|]. rewrite Eb in V. cbn [bub_of ex_o bub_val regaddr] in V. unfold m'. cbn [ex_regs hidc_regs a_r0] in V |- *. rewrite V.
    vm_compute. reflexivity.
Qed.

Definition ex_prog : list instr :=
  resolve ex_regs ex_ext 0 (fst (lower_branch ex_env ex_e (goto ex_T) (goto ex_F) ex_st)).
Example branch_lowering_ex :
  let m' := run_mem 2 ex_regs ex_env ex_e ex_mem in
  HidV.Sphinx.Halts.runs (Machine.act 2 (code_of ex_prog) (zmem 0)) (mk 0 ex_mem) [] (mk 100 m') /\
  agree 2 ex_regs ex_lo 50 ex_mem m'.
Proof.
  intros m'.
  destruct (branch_lowering_correct 2 ltac:(lia) (code_of ex_prog) (zmem 0) ex_regs ex_env eq_refl ex_lo ex_ext ex_ext_range
              ex_e ex_T ex_F ex_st 0 ex_mem) as [Rn [A _]].
  - apply code_at_code_of.
  - lia.
  - vm_compute. reflexivity.
  - unfold below, ex_st, ex_T, ex_F; cbn [fst snd]; lia.
  - unfold below, ex_st, ex_T, ex_F; cbn [fst snd]; lia.
  - apply (ex_layout _ ex_mem_shape).
  - apply (ex_vars _ ex_mem_shape).
  - rewrite (ex_HI _ ex_mem_shape) in A. split; [|exact A].
    replace (if beval 2 ex_regs ex_env ex_mem ex_e then ex_ext ex_T else ex_ext ex_F) with 100 in Rn
      by (vm_compute; reflexivity).
    exact Rn.
Qed.

Definition ex_if_prog : list instr :=
  resolve ex_regs ex_ext 0 (fst (fst (fst (if_block ex_env ex_e ex_st)))).
Example if_block_lowering_ex :
  HidV.Sphinx.Halts.runs (Machine.act 2 (code_of ex_if_prog) (zmem 0)) (mk 0 ex_mem) []
    (mk (size (fst (fst (fst (if_block ex_env ex_e ex_st))))) (run_mem 2 ex_regs ex_env ex_e ex_mem)).
Proof.
  destruct (if_block_lowering_correct 2 ltac:(lia) (code_of ex_if_prog) (zmem 0) ex_regs ex_env eq_refl ex_lo ex_ext ex_ext_range
              ex_e ex_st 0 ex_mem) as [Rn _].
  - apply code_at_code_of.
  - lia.
  - vm_compute. reflexivity.
  - apply (ex_layout _ ex_mem_shape).
  - apply (ex_vars _ ex_mem_shape).
  - replace (beval 2 ex_regs ex_env ex_mem ex_e) with true in Rn by (vm_compute; reflexivity).
    rewrite Z.add_0_l in Rn. exact Rn.
Qed.

Definition ex_val_prog : list instr :=
  resolve ex_regs ex_ext 0 (fst (value_lowering ex_env ex_e R0 ex_st)).
Example value_lowering_ex :
  exists m'', HidV.Sphinx.Halts.runs (Machine.act 2 (code_of ex_val_prog) (zmem 0)) (mk 0 ex_mem) []
                (mk (size (fst (value_lowering ex_env ex_e R0 ex_st))) m'') /\
              Machine.lw 2 m'' (a_r0 ex_regs) = 1.
Proof.
  destruct (value_lowering_correct 2 ltac:(lia) (code_of ex_val_prog) (zmem 0) ex_regs ex_env eq_refl ex_lo ex_ext ex_ext_range
              ex_e R0 ex_st 0 ex_mem) as [Rn [Lv _]].
  - apply code_at_code_of.
  - lia.
  - vm_compute. reflexivity.
  - apply (ex_layout _ ex_mem_shape).
  - apply (ex_vars _ ex_mem_shape).
  - left; reflexivity.
  - replace (beval 2 ex_regs ex_env ex_mem ex_e) with true in Rn, Lv by (vm_compute; reflexivity).
    rewrite Z.add_0_l in Rn. eexists. split; [exact Rn | exact Lv].
Qed.

(* static defeat: the expression is true, so the lowered code halts *)
Definition ex_def_prog : list instr := resolve ex_regs ex_ext 0 (fst (lower_defeat ex_env false ex_e ex_st)).
Example truth_is_defeat_ex : HidV.Sphinx.Halts.Halts (Machine.act 2 (code_of ex_def_prog) (zmem 0)) (mk 0 ex_mem).
Proof.
  destruct (truth_is_defeat_correct 2 ltac:(lia) (code_of ex_def_prog) (zmem 0) ex_regs ex_env eq_refl ex_lo ex_ext ex_ext_range
              ex_e ex_st 0 ex_mem) as [Ht _].
  - apply code_at_code_of.
  - lia.
  - vm_compute. reflexivity.
  - apply (ex_layout _ ex_mem_shape).
  - apply (ex_vars _ ex_mem_shape).
  - apply ex_norm.
  - apply Ht. vm_compute. reflexivity.
Qed.

(* virtual defeat: the handler is an absorbing stub placed right after the lowered code; the
   defeat word (at 62) holds its address *)
Definition ex_vcode : list aline := fst (lower_defeat ex_env true ex_e ex_st).
Definition ex_hd : Z := size ex_vcode.
Definition ex_vprog : list instr := resolve ex_regs ex_ext 0 ex_vcode ++ [IJ (Imm ex_hd); IHalt].
Definition ex_vmem : mem := Machine.sw 2 ex_mem 62 ex_hd.
Example truth_is_defeat_virtual_ex :
  exists m', HidV.Sphinx.Halts.runs (Machine.act 2 (code_of ex_vprog) (zmem 0)) (mk 0 ex_vmem) [] (mk ex_hd m').
Proof.
  assert (Sh : ex_shape ex_vmem).
  { split; [unfold ex_vmem; apply (wf_sw 2); [apply wf_ex_mem | lia] | split; vm_compute; reflexivity]. }
  destruct (truth_is_defeat_virtual_correct 2 ltac:(lia) (code_of ex_vprog) (zmem 0) ex_regs ex_env eq_refl ex_lo ex_ext ex_ext_range
              ex_e ex_st 0 ex_vmem) as [Ht _].
  - apply code_at_code_of_app.
  - lia.
  - vm_compute. reflexivity.
  - exact (ex_layout _ Sh).
  - exact (ex_vars _ Sh).
  - cbn [bool_norm ex_e]. repeat split. left. vm_compute. reflexivity.
  - unfold defeat_ok, dj. rewrite (ex_HI _ Sh). closed_arith.
  - intros m' _. replace (Machine.lw 2 ex_vmem (a_defeat ex_regs)) with ex_hd by (vm_compute; reflexivity).
    apply (goto_self_not_halts 2 (code_of ex_vprog) (zmem 0) ex_hd m' (Imm ex_hd)); vm_compute; reflexivity.
  - destruct Ht as [m' [_ Rn]]; [vm_compute; reflexivity|].
    replace (Machine.lw 2 ex_vmem (a_defeat ex_regs)) with ex_hd in Rn by (vm_compute; reflexivity).
    exists m'. exact Rn.
Qed.
End Examples.

(* Fold.v -- compile-time evaluation (`simplify()` and the literal casts of hidc/ast) on unbounded
   integers, exactly as the Python code computes it, against the run-time meaning of the same
   operators on machine words of w bytes (two's complement).  Property C14.

   The operator -> Python function table is REGENERATED (Gen/GenTypes.v: fold_op_table,
   fold_zero_msg); `rt_op1/rt_op2` (what the source operator means at run time) is the
   specification and is written by hand. *)
From Coq Require Import ZArith List Bool Lia String.
From HidV.Gen Require Import GenTypes.
Import ListNotations.
(* / and mod of variables occur in the statements (a / b within the signed range); lia is to know
   them by their equations, here and in every importer *)
Ltac Zify.zify_post_hook ::= Z.to_euclidean_division_equations.
Arguments Z.mul : simpl never.
Arguments Z.add : simpl never.
Arguments Z.pow : simpl never.
Arguments Z.modulo : simpl never.
Arguments Z.div : simpl never.
Arguments Z.sub : simpl never.
Arguments Z.opp : simpl never.
Arguments Z.quot : simpl never.
Local Open Scope Z_scope.

Scheme Boolean Equality for dty.
Scheme Boolean Equality for opclass.

Fixpoint assoc {A B : Type} (eqb : A -> A -> bool) (k : A) (l : list (A * B)) : option B :=
  match l with
  | [] => None
  | (k', v) :: tl => if eqb k k' then Some v else assoc eqb k tl
  end.

(** * Python semantics of the `operate` tags (unbounded ints; bools are the ints 0/1) *)

Inductive fres (A : Type) : Type :=
| FVal (a : A)            (* a value *)
| FErr (msg : string)     (* TypeCheckError raised by the folding code *)
| FCrash.                 (* anything else (uncaught ZeroDivisionError, wrong arity, no table entry) *)
Arguments FVal {A} a.
Arguments FErr {A} msg.
Arguments FCrash {A}.

Definition b2z (b : bool) : Z := if b then 1 else 0.
Definition truthy (z : Z) : bool := negb (z =? 0).

Inductive praw : Type := PVal (z : Z) | PZeroDiv | PArity.

Definition py_apply2 (f : foldfn) (a b : Z) : praw :=
  match f with
  | FAdd => PVal (a + b)
  | FSub => PVal (a - b)
  | FMul => PVal (a * b)
  | FFloorDiv => if b =? 0 then PZeroDiv else PVal (a / b)          (* Python // is floor *)
  | FFloorMod => if b =? 0 then PZeroDiv else PVal (a mod b)        (* sign of the divisor *)
  | FTruncDiv => if b =? 0 then PZeroDiv else PVal (Z.quot a b)
  | FLt => PVal (b2z (a <? b))
  | FGt => PVal (b2z (a >? b))
  | FLe => PVal (b2z (a <=? b))
  | FGe => PVal (b2z (a >=? b))
  | FEq => PVal (b2z (a =? b))
  | FNe => PVal (b2z (negb (a =? b)))
  | FAnd => PVal (b2z (truthy a && truthy b))
  | FOr => PVal (b2z (truthy a || truthy b))
  | FPos | FNeg | FNot => PArity
  end.

Definition py_apply1 (f : foldfn) (a : Z) : praw :=
  match f with
  | FPos => PVal a
  | FNeg => PVal (- a)
  | FNot => PVal (b2z (negb (truthy a)))
  | _ => PArity
  end.

Definition lift_raw (c : opclass) (r : praw) : fres Z :=
  match r with
  | PVal z => FVal z
  | PZeroDiv => match assoc opclass_beq c fold_zero_msg with Some m => FErr m | None => FCrash end
  | PArity => FCrash
  end.

(** `operate` of operator class c applied to literal data *)
Definition fold_op2 (c : opclass) (a b : Z) : fres Z :=
  match assoc opclass_beq c fold_op_table with
  | Some f => lift_raw c (py_apply2 f a b)
  | None => FCrash
  end.

Definition fold_op1 (c : opclass) (a : Z) : fres Z :=
  match assoc opclass_beq c fold_op_table with
  | Some f => lift_raw c (py_apply1 f a)
  | None => FCrash
  end.

Definition fres_map {A B} (g : A -> B) (r : fres A) : fres B :=
  match r with FVal a => FVal (g a) | FErr m => FErr m | FCrash => FCrash end.

(** ArithmeticOp.simplify: IntValue(int(operate(...)));  BooleanOp.simplify: BoolValue(bool(...)) *)
Definition fold_arith2 (c : opclass) (a b : Z) : fres Z := fold_op2 c a b.
Definition fold_arith1 (c : opclass) (a : Z) : fres Z := fold_op1 c a.
Definition fold_bool2 (c : opclass) (a b : Z) : fres bool := fres_map truthy (fold_op2 c a b).
Definition fold_bool1 (c : opclass) (a : Z) : fres bool := fres_map truthy (fold_op1 c a).

(** literal casts (expressions.py): IntValue.cast / BoolValue.cast / StringValue.cast *)
Definition fold_int_to_bool (d : Z) : bool := truthy d.              (* bool(self.data) *)
Definition fold_int_to_byte (d : Z) : Z := d mod 256.                (* self.data & 0xFF *)
Definition fold_byte_to_int (d : Z) : Z := d.
Definition fold_bool_to_int (b : bool) : Z := b2z b.                 (* int(self.data) *)
Definition fold_string_to_bool (len : nat) : bool := negb (Nat.eqb len 0).  (* bool(bytes) *)

(** * Run-time semantics on words of w bytes (the specification) *)

Definition modulus (w : Z) : Z := 2 ^ (8 * w).
Definition half (w : Z) : Z := 2 ^ (8 * w - 1).
Definition wrap (w x : Z) : Z := x mod modulus w.
Definition sgn (w x : Z) : Z := if x <? half w then x else x - modulus w.
Definition in_range (w x : Z) : Prop := - half w <= x < half w.
Definition in_rangeb (w x : Z) : bool := (- half w <=? x) && (x <? half w).

Inductive rtres : Type := RVal (z : Z) | RFault | RArity.

(** a, b are words in [0, 2^(8w)) *)
Definition rt_op2 (w : Z) (c : opclass) (a b : Z) : rtres :=
  match c with
  | OAdd => RVal (wrap w (a + b))
  | OSub => RVal (wrap w (a - b))
  | OMul => RVal (wrap w (a * b))
  | ODiv => if b =? 0 then RFault else RVal (wrap w (sgn w a / sgn w b))
  | OMod => if b =? 0 then RFault else RVal (wrap w (sgn w a mod sgn w b))
  | OLt => RVal (b2z (sgn w a <? sgn w b))
  | OGt => RVal (b2z (sgn w a >? sgn w b))
  | OLe => RVal (b2z (sgn w a <=? sgn w b))
  | OGe => RVal (b2z (sgn w a >=? sgn w b))
  | OEq => RVal (b2z (a =? b))
  | ONe => RVal (b2z (negb (a =? b)))
  | OAnd => RVal (b2z (truthy a && truthy b))
  | OOr => RVal (b2z (truthy a || truthy b))
  | OPos | ONeg | ONot => RArity
  end.

Definition rt_op1 (w : Z) (c : opclass) (a : Z) : rtres :=
  match c with
  | OPos => RVal a
  | ONeg => RVal (wrap w (- a))
  | ONot => RVal (b2z (negb (truthy a)))
  | _ => RArity
  end.

Definition rt_int_to_bool (a : Z) : bool := truthy a.      (* word <> 0 *)
Definition rt_int_to_byte (a : Z) : Z := a mod 256.        (* low 8 bits, zero-extended *)
Definition rt_byte_to_int (a : Z) : Z := a.
Definition rt_bool_to_int (b : bool) : Z := b2z b.

(** * Word arithmetic *)

Lemma modulus_pos : forall w, 1 <= w -> 0 < modulus w.
Proof. intros. unfold modulus. apply Z.pow_pos_nonneg; lia. Qed.

Lemma half_pos : forall w, 1 <= w -> 0 < half w.
Proof. intros. unfold half. apply Z.pow_pos_nonneg; lia. Qed.

Lemma modulus_half : forall w, 1 <= w -> modulus w = 2 * half w.
Proof.
  intros. unfold modulus, half.
  rewrite <- Z.pow_succ_r by lia. f_equal. lia.
Qed.

Lemma in_range_0 : forall w, 1 <= w -> in_range w 0.
Proof. intros w Hw. pose proof (half_pos w Hw). unfold in_range. lia. Qed.

Lemma wrap_range : forall w x, 1 <= w -> 0 <= wrap w x < modulus w.
Proof. intros. unfold wrap. apply Z.mod_pos_bound. now apply modulus_pos. Qed.

Lemma wrap_0 : forall w, wrap w 0 = 0.
Proof. intros. apply Zmod_0_l. Qed.

Lemma wrap_wrap : forall w x, wrap w (wrap w x) = wrap w x.
Proof. intros. apply Zmod_mod. Qed.

Lemma wrap_nonneg_small : forall w a, 0 <= a < modulus w -> wrap w a = a.
Proof. intros. now apply Z.mod_small. Qed.

Lemma wrap_neg : forall w a, - modulus w <= a < 0 -> wrap w a = a + modulus w.
Proof. intros w a Ha. symmetry. apply Z.mod_unique with (q := -1); lia. Qed.

(** A value in the signed range is recovered from its word. *)
Lemma sgn_wrap_inrange : forall w a, 1 <= w -> in_range w a -> sgn w (wrap w a) = a.
Proof.
  intros w a Hw [Hlo Hhi].
  pose proof (half_pos w Hw) as Hh. pose proof (modulus_half w Hw) as Hm.
  unfold sgn. destruct (Z_lt_ge_dec a 0) as [Hneg | Hpos].
  - rewrite wrap_neg by lia.
    destruct (a + modulus w <? half w) eqn:E; lia.
  - rewrite wrap_nonneg_small by lia.
    destruct (a <? half w) eqn:E; lia.
Qed.

Lemma wrap_inj_inrange : forall w a b, 1 <= w -> in_range w a -> in_range w b ->
  wrap w a = wrap w b -> a = b.
Proof.
  intros w a b Hw Ha Hb E.
  rewrite <- (sgn_wrap_inrange w a Hw Ha), <- (sgn_wrap_inrange w b Hw Hb). now rewrite E.
Qed.

Lemma wrap_eqb_inrange : forall w a b, 1 <= w -> in_range w a -> in_range w b ->
  (wrap w a =? wrap w b) = (a =? b).
Proof.
  intros w a b Hw Ha Hb.
  destruct (Z.eqb_spec a b) as [->|Hn]; [apply Z.eqb_refl|].
  apply Z.eqb_neq. intros E. now apply Hn, (wrap_inj_inrange w).
Qed.

Lemma wrap_zero_inrange : forall w a, 1 <= w -> in_range w a -> (wrap w a =? 0) = (a =? 0).
Proof.
  intros w a Hw Ha.
  rewrite <- (wrap_eqb_inrange w a 0 Hw Ha (in_range_0 w Hw)). now rewrite wrap_0.
Qed.

Lemma wrap_add : forall w a b, wrap w (wrap w a + wrap w b) = wrap w (a + b).
Proof. intros. symmetry. apply Zplus_mod. Qed.

Lemma wrap_sub : forall w a b, wrap w (wrap w a - wrap w b) = wrap w (a - b).
Proof. intros. symmetry. apply Zminus_mod. Qed.

Lemma wrap_mul : forall w a b, wrap w (wrap w a * wrap w b) = wrap w (a * b).
Proof. intros. symmetry. apply Zmult_mod. Qed.

Lemma wrap_opp : forall w a, wrap w (- wrap w a) = wrap w (- a).
Proof. intros. rewrite <- !Z.sub_0_l. apply Zminus_mod_idemp_r. Qed.

(* wrap is a ring homomorphism: an operation on words may be done on the integers first *)
#[local] Hint Rewrite wrap_add wrap_sub wrap_mul wrap_opp : wrap.

Lemma truthy_b2z : forall x, truthy (b2z x) = x.
Proof. intros []; reflexivity. Qed.

(** * C14 (positive half): folding the ring operators is invisible at every word size *)

Definition ring2 : list opclass := [OAdd; OSub; OMul].
Definition ring1 : list opclass := [OPos; ONeg].
Definition divmod : list opclass := [ODiv; OMod].
Definition compare6 : list opclass := [OLt; OGt; OLe; OGe; OEq; ONe].
Definition logic2 : list opclass := [OAnd; OOr].

(* [H : In c [c1; ...; cn]]: one goal per listed operator. *)
Ltac in_cases H :=
  repeat (destruct H as [H | H]; [subst | ]); try contradiction.

Theorem fold_agrees_ring : forall w c a b, 1 <= w -> In c ring2 ->
  exists v, fold_arith2 c a b = FVal v /\
            rt_op2 w c (wrap w a) (wrap w b) = RVal (wrap w v).
Proof.
  intros w c a b _ Hc. unfold ring2 in Hc.
  in_cases Hc; eexists; (split; [reflexivity|]); simpl; now autorewrite with wrap.
Qed.

Theorem fold_agrees_ring1 : forall w c a, 1 <= w -> In c ring1 ->
  exists v, fold_arith1 c a = FVal v /\
            rt_op1 w c (wrap w a) = RVal (wrap w v).
Proof.
  intros w c a _ Hc. unfold ring1 in Hc.
  in_cases Hc; eexists; (split; [reflexivity|]); simpl; now autorewrite with wrap.
Qed.

Lemma fold_div_unfold : forall a b,
  fold_arith2 ODiv a b = if b =? 0 then FErr "Division by zero"%string else FVal (a / b).
Proof. intros. unfold fold_arith2, fold_op2. simpl. destruct (b =? 0); reflexivity. Qed.

Lemma fold_mod_unfold : forall a b,
  fold_arith2 OMod a b = if b =? 0 then FErr "Modulus of zero"%string else FVal (a mod b).
Proof. intros. unfold fold_arith2, fold_op2. simpl. destruct (b =? 0); reflexivity. Qed.

(** / and %, and the six comparisons: agreement when the operands are in the signed range of the
    word.  (Run time divides the signed readings of the two words, which are then a and b.) *)
Theorem fold_agrees_inrange_divmod : forall w c a b v, 1 <= w -> In c divmod ->
  in_range w a -> in_range w b -> fold_arith2 c a b = FVal v ->
  rt_op2 w c (wrap w a) (wrap w b) = RVal (wrap w v).
Proof.
  intros w c a b v Hw Hc Ha Hb Hf. unfold divmod in Hc.
  in_cases Hc; [rewrite fold_div_unfold in Hf | rewrite fold_mod_unfold in Hf];
    unfold rt_op2; rewrite (wrap_zero_inrange w b Hw Hb);
    destruct (b =? 0); try discriminate Hf; injection Hf as <-;
    now rewrite !sgn_wrap_inrange.
Qed.

Theorem fold_agrees_inrange_compare : forall w c a b, 1 <= w -> In c compare6 ->
  in_range w a -> in_range w b ->
  exists r, fold_bool2 c a b = FVal r /\
            rt_op2 w c (wrap w a) (wrap w b) = RVal (b2z r).
Proof.
  intros w c a b Hw Hc Ha Hb. unfold compare6 in Hc.
  in_cases Hc; eexists;
    (split; [unfold fold_bool2, fold_op2; simpl; rewrite truthy_b2z; reflexivity|]);
    simpl; rewrite ?sgn_wrap_inrange, ?wrap_eqb_inrange by assumption; reflexivity.
Qed.

Definition fold_agrees_inrange_stmt : Prop :=
  (forall w c a b v, 1 <= w -> In c divmod ->
     in_range w a -> in_range w b -> fold_arith2 c a b = FVal v -> in_range w v ->
     rt_op2 w c (wrap w a) (wrap w b) = RVal (wrap w v)) /\
  (forall w c a b, 1 <= w -> In c compare6 -> in_range w a -> in_range w b ->
     exists r, fold_bool2 c a b = FVal r /\ rt_op2 w c (wrap w a) (wrap w b) = RVal (b2z r)).

Theorem fold_agrees_inrange : fold_agrees_inrange_stmt.
Proof.
  split; [|exact fold_agrees_inrange_compare].
  intros w c a b v Hw Hc Ha Hb Hf _. now apply fold_agrees_inrange_divmod.
Qed.

(** % never leaves the range; / leaves it only for  -2^(8w-1) / -1 *)
Lemma mod_result_inrange : forall w a b, 1 <= w -> in_range w a -> in_range w b -> b <> 0 ->
  in_range w (a mod b).
Proof. unfold in_range. intros w a b Hw Ha Hb Hb0. pose proof (half_pos w Hw). lia. Qed.

Lemma div_result_inrange : forall w a b, 1 <= w -> in_range w a -> in_range w b -> b <> 0 ->
  ~ (a = - half w /\ b = -1) -> in_range w (a / b).
Proof.
  unfold in_range. intros w a b Hw Ha Hb Hb0 Hx. pose proof (half_pos w Hw).
  assert (b = -1 \/ b < -1 \/ 0 < b) as [-> | [Hn | Hp]] by lia.
  - replace (a / -1) with (- a); [lia|]. lia.
  - nia.
  - nia.
Qed.

(** and / or / not on booleans (0/1), bool == bool, and int -> bool *)
Theorem fold_bool_agrees :
  (forall w c (x y : bool), In c logic2 ->
     exists r, fold_bool2 c (b2z x) (b2z y) = FVal r /\
               rt_op2 w c (b2z x) (b2z y) = RVal (b2z r)) /\
  (forall w (x : bool),
     exists r, fold_bool1 ONot (b2z x) = FVal r /\ rt_op1 w ONot (b2z x) = RVal (b2z r)) /\
  (forall w c (x y : bool), In c [OEq; ONe] ->
     exists r, fold_bool2 c (b2z x) (b2z y) = FVal r /\
               rt_op2 w c (b2z x) (b2z y) = RVal (b2z r)) /\
  (forall w a, 1 <= w -> in_range w a ->
     rt_int_to_bool (wrap w a) = fold_int_to_bool a) /\
  (forall b, rt_bool_to_int b = fold_bool_to_int b).
Proof.
  split; [|split; [|split; [|split]]].
  - intros w c x y Hc. unfold logic2 in Hc. in_cases Hc; destruct x, y; eexists; split; reflexivity.
  - intros w x. destruct x; eexists; split; reflexivity.
  - intros w c x y Hc. in_cases Hc; destruct x, y; eexists; split; reflexivity.
  - intros w a Hw Ha. unfold rt_int_to_bool, fold_int_to_bool, truthy.
    now rewrite wrap_zero_inrange.
  - reflexivity.
Qed.

(** Folding raises a compile error only for / 0 and % 0 (and never crashes on the unchanged
    table); such an expression would fault at run time for every word size. *)
Definition is_val {A} (r : fres A) : bool := match r with FVal _ => true | _ => false end.

Theorem fold_rejects_only_faults :
  (forall c a b, In c (ring2 ++ divmod) ->
     is_val (fold_arith2 c a b) = false <-> (In c divmod /\ b = 0)) /\
  (forall c a b, In c divmod -> b = 0 ->
     exists m, fold_arith2 c a b = FErr m /\ assoc opclass_beq c fold_zero_msg = Some m) /\
  (forall c a, In c ring1 -> is_val (fold_arith1 c a) = true) /\
  (forall c a b, In c (compare6 ++ logic2) -> is_val (fold_bool2 c a b) = true) /\
  (forall a, is_val (fold_bool1 ONot a) = true) /\
  (forall w c a b, 1 <= w -> In c (ring2 ++ divmod) -> is_val (fold_arith2 c a b) = false ->
     rt_op2 w c (wrap w a) (wrap w b) = RFault).
Proof.
  assert (A1 : forall c a b, In c (ring2 ++ divmod) ->
                 is_val (fold_arith2 c a b) = false -> In c divmod /\ b = 0).
  { intros c a b Hc Hv. simpl in Hc. in_cases Hc; try discriminate Hv.
    - rewrite fold_div_unfold in Hv. destruct (Z.eqb_spec b 0); [|discriminate]. simpl; auto.
    - rewrite fold_mod_unfold in Hv. destruct (Z.eqb_spec b 0); [|discriminate]. simpl; auto. }
  split; [|split; [|split; [|split; [|split]]]].
  - intros c a b Hc. split; [apply A1; assumption|].
    intros [Hd ->]. unfold divmod in Hd. in_cases Hd; reflexivity.
  - intros c a b Hc ->. unfold divmod in Hc. in_cases Hc; eexists; split; reflexivity.
  - intros c a Hc. unfold ring1 in Hc. in_cases Hc; reflexivity.
  - intros c a b Hc. simpl in Hc. in_cases Hc; reflexivity.
  - intros a. reflexivity.
  - intros w c a b Hw Hc Hv.
    destruct (A1 c a b Hc Hv) as [Hd ->].
    unfold divmod in Hd. in_cases Hd; unfold rt_op2; rewrite wrap_0; reflexivity.
Qed.

(** * C14 (negative half): where the faithful model of the code disagrees with run time
    (DESIGN.md section 6, F5) *)

(** 40000 / 3 at w = 2: folded 13333, run time wrap(-25536 / 3) = wrap(-8512) = 57024 *)
Theorem fold_div_refuted : exists w c a b v,
  1 <= w /\ In c divmod /\ fold_arith2 c a b = FVal v /\
  rt_op2 w c (wrap w a) (wrap w b) <> RVal (wrap w v).
Proof.
  exists 2, ODiv, 40000, 3, 13333. split; [lia|]. split; [simpl; auto|]. split; [reflexivity|].
  vm_compute. discriminate.
Qed.

Theorem fold_mod_refuted : exists w a b v,
  1 <= w /\ fold_arith2 OMod a b = FVal v /\
  rt_op2 w OMod (wrap w a) (wrap w b) <> RVal (wrap w v).
Proof. exists 2, 40000, 7, 2. split; [lia|]. split; [reflexivity|]. vm_compute. discriminate. Qed.

(** 40000 > 0 at w = 2: folded true, run time (-25536 > 0) = false *)
Theorem fold_cmp_refuted : exists w c a b r,
  1 <= w /\ In c compare6 /\ fold_bool2 c a b = FVal r /\
  rt_op2 w c (wrap w a) (wrap w b) <> RVal (b2z r).
Proof.
  exists 2, OGt, 40000, 0, true. split; [lia|]. split; [simpl; auto|]. split; [reflexivity|].
  vm_compute. discriminate.
Qed.

(** 65536 == 0 at w = 2: folded false, run time (0 == 0) true *)
Theorem fold_eq_refuted : exists w a b r,
  1 <= w /\ fold_bool2 OEq a b = FVal r /\ rt_op2 w OEq (wrap w a) (wrap w b) <> RVal (b2z r).
Proof. exists 2, 65536, 0, false. split; [lia|]. split; [reflexivity|]. vm_compute. discriminate. Qed.

(** `65536 is bool` at w = 2: folded true, run time (0 is bool) false *)
Theorem fold_int_to_bool_refuted : exists w a,
  1 <= w /\ rt_int_to_bool (wrap w a) <> fold_int_to_bool a.
Proof. exists 2, 65536. split; [lia|]. vm_compute. discriminate. Qed.

(** 1 / 65536 at w = 2 folds to 0 but faults at run time (the converse of
    fold_rejects_only_faults does not hold) *)
Theorem fold_misses_fault : exists w a b v,
  1 <= w /\ fold_arith2 ODiv a b = FVal v /\ rt_op2 w ODiv (wrap w a) (wrap w b) = RFault.
Proof. exists 2, 1, 65536, 0. split; [lia|]. split; reflexivity. Qed.

(** * Constant expressions: compile-time value vs run-time value *)

Inductive cexpr : Type :=
| CLit (z : Z)
| CUn (c : opclass) (e : cexpr)
| CBin (c : opclass) (l r : cexpr)
| CIsByte (e : cexpr)      (* `e is byte`  of an int-valued e *)
| CIsInt (e : cexpr).      (* `e is int`   of a byte-valued e *)

Fixpoint cfold (e : cexpr) : fres Z :=
  match e with
  | CLit z => FVal z
  | CUn c e1 => match cfold e1 with FVal a => fold_op1 c a | r => r end
  | CBin c l r =>
      match cfold l with
      | FVal a => match cfold r with FVal b => fold_op2 c a b | x => x end
      | x => x
      end
  | CIsByte e1 => fres_map fold_int_to_byte (cfold e1)
  | CIsInt e1 => fres_map fold_byte_to_int (cfold e1)
  end.

Fixpoint crt (w : Z) (e : cexpr) : rtres :=
  match e with
  | CLit z => RVal (wrap w z)
  | CUn c e1 => match crt w e1 with RVal a => rt_op1 w c a | r => r end
  | CBin c l r =>
      match crt w l with
      | RVal a => match crt w r with RVal b => rt_op2 w c a b | x => x end
      | x => x
      end
  | CIsByte e1 => match crt w e1 with RVal a => RVal (rt_int_to_byte a) | r => r end
  | CIsInt e1 => match crt w e1 with RVal a => RVal (rt_byte_to_int a) | r => r end
  end.

Fixpoint ring_only (e : cexpr) : bool :=
  match e with
  | CLit _ => true
  | CUn c e1 => (opclass_beq c OPos || opclass_beq c ONeg) && ring_only e1
  | CBin c l r => (opclass_beq c OAdd || opclass_beq c OSub || opclass_beq c OMul)
                  && ring_only l && ring_only r
  | CIsByte _ | CIsInt _ => false
  end.

Theorem ring_exprs_invisible : forall w e, 1 <= w -> ring_only e = true ->
  exists v, cfold e = FVal v /\ crt w e = RVal (wrap w v).
Proof.
  intros w e Hw. induction e as [z | c e1 IH | c l IHl r IHr | e1 IH | e1 IH]; simpl; intros Hr;
    try discriminate.
  - eauto.
  - apply andb_prop in Hr as [Hc Hr1]. destruct (IH Hr1) as (a & -> & ->).
    apply (fold_agrees_ring1 w c a Hw). destruct c; try discriminate; simpl; auto.
  - apply andb_prop in Hr as [Hr Hr2]. apply andb_prop in Hr as [Hc Hr1].
    destruct (IHl Hr1) as (a & -> & ->). destruct (IHr Hr2) as (b & -> & ->).
    apply (fold_agrees_ring w c a b Hw). destruct c; try discriminate; simpl; auto.
Qed.

(** The folded byte cast keeps the low byte (IntValue.cast(BYTE): `self.data & 0xFF`), so it agrees
    with the run-time cast for EVERY value, in range or not: 4 / (258 is byte) is 2 both ways. *)
Lemma fold_byte_cast_agrees : forall w a, 1 <= w ->
  rt_int_to_byte (wrap w a) = fold_int_to_byte a.
Proof.
  intros w a Hw. unfold rt_int_to_byte, fold_int_to_byte, wrap, modulus.
  assert (Hp : 0 < 2 ^ (8 * w)) by (apply Z.pow_pos_nonneg; lia).
  assert (Hd : (256 | 2 ^ (8 * w))).
  { exists (2 ^ (8 * w - 8)). change 256 with (2 ^ 8). rewrite <- Z.pow_add_r by lia. f_equal. lia. }
  symmetry. apply Znumtheory.Zmod_div_mod; [lia | exact Hp | exact Hd].
Qed.

Lemma fold_byte_cast_examples :
  (cfold (CBin ODiv (CLit 4) (CIsInt (CIsByte (CLit 258)))) = FVal 2) /\
  (crt 2 (CBin ODiv (CLit 4) (CIsInt (CIsByte (CLit 258)))) = RVal 2) /\
  (cfold (CIsInt (CIsByte (CLit 300))) = FVal 44) /\ (crt 2 (CIsInt (CIsByte (CLit 300))) = RVal 44) /\
  (cfold (CIsInt (CIsByte (CLit (-1)))) = FVal 255) /\ (crt 3 (CIsInt (CIsByte (CLit (-1)))) = RVal 255).
Proof. repeat split; vm_compute; reflexivity. Qed.

(** C14 for every constant expression, where ring_exprs_invisible has it for the ring operators
    only. *)
Definition C14_full_statement : Prop :=
  forall w e, 1 <= w ->
    match cfold e with
    | FVal v => crt w e = RVal (wrap w v)
    | FErr _ => crt w e = RFault
    | FCrash => False
    end.

Theorem C14_full_statement_refuted : ~ C14_full_statement.
Proof.
  intros H. destruct fold_div_refuted as (w & c & a & b & v & Hw & _ & Hf & Hr).
  specialize (H w (CBin c (CLit a) (CLit b)) Hw). simpl in H.
  unfold fold_arith2 in Hf. rewrite Hf in H. exact (Hr H).
Qed.

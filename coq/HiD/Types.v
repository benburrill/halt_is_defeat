(* Types.v -- executable model of hidc's elaborator (`evaluate` / `cast` / `coercible` / `coerce`
   of hidc/ast/*.py) on expressions, statements, blocks, functions and programs.  Property C07.

   The model mirrors THE CODE THAT EXISTS (defect F5 included; F6 and F7 were fixed in the
   repository and the model follows the fixed code); the documented typing
   rules are separate statements proved (or refuted with a witness) about it below.
   Data tables (types, cast maps, coercible pair set, operator table, builtin signatures) come
   from the regenerated Gen/GenTypes.v. *)
From Coq Require Import ZArith List Bool String Lia.
From HidV.Gen Require Import GenTypes.
From HidV.HiD Require Import Fold.
Import ListNotations.
Local Open Scope string_scope.
Local Open Scope Z_scope.

Definition ty_eqb (a b : ty) : bool :=
  match a, b with
  | TData x, TData y => dty_beq x y
  | TArr x c, TArr y d => dty_beq x y && Bool.eqb c d
  | _, _ => false
  end.

Lemma dty_beq_eq : forall a b, dty_beq a b = true <-> a = b.
Proof. intros [] []; split; intros H; reflexivity || discriminate H. Qed.

Lemma ty_eqb_eq : forall a b, ty_eqb a b = true <-> a = b.
Proof.
  intros [x|x c] [y|y d]; simpl;
    rewrite ?andb_true_iff, ?dty_beq_eq, ?Bool.eqb_true_iff; intuition congruence.
Qed.

Lemma ty_eqb_refl : forall a, ty_eqb a a = true.
Proof. intros. now apply ty_eqb_eq. Qed.

Definition all_types : list ty :=
  map TData dty_all ++ map (fun d => TArr d false) dty_all ++ map (fun d => TArr d true) dty_all.

Lemma dty_all_complete : forall d, In d dty_all.
Proof. intros []; simpl; tauto. Qed.

Lemma all_types_complete : forall t, In t all_types.
Proof.
  intros [d|d c]; unfold all_types; rewrite !in_app_iff.
  - left. apply in_map, dty_all_complete.
  - right. destruct c; [right | left]; apply (in_map (fun d => TArr d _)), dty_all_complete.
Qed.

Definition is_array (t : ty) : bool := match t with TArr _ _ => true | _ => false end.
Definition is_str_or_arr (t : ty) : bool :=
  match t with TData STRING => true | TArr _ _ => true | _ => false end.

Definition flavor_eqb (a b : flavor) : bool :=
  match a, b with
  | FL_NONE, FL_NONE | FL_YOU, FL_YOU | FL_DEFEAT, FL_DEFEAT => true
  | _, _ => false
  end.

Record ident : Type := mkId { id_name : string; id_flavor : flavor }.
Definition ident_eqb (a b : ident) : bool :=
  String.eqb (id_name a) (id_name b) && flavor_eqb (id_flavor a) (id_flavor b).

Record var : Type := mkVar { v_name : string; v_type : ty; v_const : bool }.

(** what the parser produces (spans dropped) *)
Inductive expr : Type :=
| EInt (n : Z)                         (* IntValue(n)  *)
| EChar (n : Z)                        (* ByteValue(n, is_char=True) *)
| EBool (b : bool)
| EStr (s : string)
| EVar (x : string)                    (* VariableLookup(UnresolvedName x) *)
| EArr (es : list expr)
| EIndex (src idx : expr)
| ELen (src : expr)
| ECall (f : ident) (args : list expr)
| EUn (c : opclass) (e : expr)
| EBin (c : opclass) (l r : expr)
| EIs (e : expr) (t : ty)
| ESpec (l r : expr)
| EArrInit (t : ty) (len : expr).      (* ArrayInitializer, only as a declaration initialiser *)

Inductive texpr : Type :=
| TInt (d : Z) (shr ischar : bool)                 (* IntValue  *)
| TByte (d : Z) (shr ischar : bool)                (* ByteValue *)
| TBool (b : bool)
| TStr (s : string)
| TVar (v : var)                                   (* VariableLookup(Variable) *)
| TParam (v : var)                                 (* Parameter *)
| TArrLit (vs : list texpr) (t : ty) (locked : bool)
| TIndex (src idx : texpr)
| TLen (src : texpr)
| TCall (f : ident) (args : list texpr) (ret : ty)
| TCast (k : castkind) (e : texpr)
| TVolatile (e : texpr)
| TUn (c : opclass) (e : texpr) (shr : bool)
| TBin (c : opclass) (l r : texpr) (shr : bool)
| TSpec (l r : texpr)
| TArrInit (t : ty) (len : texpr).

Inductive err : Type :=
| ENotType (from to : ty)            (* "{from} is not {to}" *)
| EUndeclared (x : string)           (* "{x} is empty" *)
| EMustBeArrayOrString
| EArrayAmbiguous
| ENestedArray
| EArrayUnresolvable
| EArrayEmptyElement                 (* "Array elements cannot be empty" *)
| ENoMatchingFunction (f : ident) (args : list ty)
| EFold (msg : string)               (* Division by zero / Modulus of zero *)
| ESpeculateType (t : ty)
| ERedeclaration (x : string)
| EConstVolatileDecl (x : string)
| EAssignConst
| EUnexpectedReturn
| EUnexpectedReturnValue
| EMissingReturnValue
| EMissingReturnStatement
| EUnreachable
| ERedefinition (f : ident) (params : list ty)
| ECrash (what : string).            (* not a TypeCheckError: assertion / internal error *)

Inductive result (A : Type) : Type := OK (a : A) | Err (e : err).
Arguments OK {A} a.
Arguments Err {A} e.

Notation "x <- e ;; k" := (match e with OK x => k | Err er => Err er end)
  (at level 61, e at next level, right associativity).

Definition map_result {A B : Type} (f : A -> result B) : list A -> result (list B) :=
  fix go (l : list A) : result (list B) :=
    match l with
    | [] => OK []
    | x :: tl => x' <- f x ;; tl' <- go tl ;; OK (x' :: tl')
    end.

Definition el_of (t : ty) : dty := match t with TArr el _ => el | TData _ => EMPTY end.

Definition is_arith (c : opclass) : bool :=
  match op_family c with FamBinArith | FamUnArith => true | _ => false end.

Fixpoint ty_of (e : texpr) : ty :=
  match e with
  | TInt _ _ _ => type_of_IntValue
  | TByte _ _ _ => type_of_ByteValue
  | TBool _ => type_of_BoolValue
  | TStr _ => type_of_StringValue
  | TVar v => v_type v
  | TParam v => v_type v
  | TArrLit _ t _ => t
  | TIndex src _ =>
      match ty_of src with
      | TData STRING => TData BYTE
      | t => TData (el_of t)
      end
  | TLen _ => type_of_LengthLookup
  | TCall _ _ ret => ret
  | TCast k _ => snd (cast_map k)
  | TVolatile x => TArr (el_of (ty_of x)) true
  | TUn c _ _ => if is_arith c then TData INT else TData BOOL
  | TBin c _ _ _ => if is_arith c then TData INT else TData BOOL
  | TSpec l _ => ty_of l
  | TArrInit t _ => t
  end.

(** * coercible / cast / coerce, per node class (expressions.py, operators.py) *)

(** Expression.coercible *)
Definition coercible_plain (t new : ty) : bool :=
  ty_eqb t new ||
  match t with
  | TArr el _ => ty_eqb (TArr el coercible_array_const) new
  | _ => existsb (fun p => ty_eqb (fst p) t && ty_eqb (snd p) new) coercible_scalar_pairs
  end.

Fixpoint coercible (e : texpr) (new : ty) : bool :=
  match e with
  | TInt _ shr _ | TByte _ shr _ =>
      coercible_plain (ty_of e) new || (shr && ty_eqb new (TData BYTE))
  | TArrLit vs t locked =>
      match new with
      | TArr el' _ =>
          if locked then dty_beq (el_of t) el'
          else forallb (fun v => coercible v (TData el')) vs
      | TData _ => false
      end
  | TVolatile x => coercible x new
  | TUn c _ shr | TBin c _ _ shr =>
      coercible_plain (ty_of e) new || (is_arith c && shr && ty_eqb new (TData BYTE))
  | _ => coercible_plain (ty_of e) new
  end.

Definition pair_is (t new : ty) (k : castkind) : bool :=
  ty_eqb t (fst (cast_map k)) && ty_eqb new (snd (cast_map k)).

(** the cases of Expression.cast that do not re-enter cast *)
Definition cast_tail (e : texpr) (t new : ty) : result texpr :=
  if pair_is t new KStringToByteArray then OK (TCast KStringToByteArray e)
  else match t, new with
       | TArr a false, TArr b true =>
           if dty_beq a b then OK (TVolatile e) else Err (ENotType t new)
       | _, _ => Err (ENotType t new)
       end.

Definition cast_plain0 (e : texpr) (t new : ty) : result texpr :=
  if ty_eqb t new then OK e
  else if pair_is t new KIntToByte then OK (TCast KIntToByte e)
  else if pair_is t new KByteToInt then OK (TCast KByteToInt e)
  else cast_tail e t new.

(** Expression.cast, for a node `e` of type `t` whose class does not override cast.  The two
    re-entrant cases (`(_, BOOL)` and `(BOOL, _)`) re-enter with a target / source that can only
    reach the non-re-entrant cases, so one level of unfolding is exact. *)
Definition cast_plain (e : texpr) (t new : ty) : result texpr :=
  if ty_eqb t new then OK e
  else if pair_is t new KIntToByte then OK (TCast KIntToByte e)
  else if pair_is t new KByteToInt then OK (TCast KByteToInt e)
  else if ty_eqb new (TData BOOL) then
    if is_str_or_arr t then OK (TCast KIntToBool (TLen e))
    else (e' <- cast_plain0 e t (TData INT) ;; OK (TCast KIntToBool e'))
  else if ty_eqb t (TData BOOL) then
    cast_plain0 (TCast KBoolToByte e) (snd (cast_map KBoolToByte)) new
  else cast_tail e t new.

(** IntValue.cast (inherited by ByteValue) *)
Definition cast_intvalue (self : texpr) (d : Z) (shr ischar : bool) (new : ty) (implicit : bool)
  : result texpr :=
  if ty_eqb new (TData BOOL) then OK (TBool (fold_int_to_bool d))
  else if ty_eqb new (TData BYTE) then OK (TByte (fold_int_to_byte d) shr ischar)
  else if ty_eqb new (TData INT) then OK (TInt d implicit ischar)
  else cast_plain self (ty_of self) new.

Fixpoint cast (e : texpr) (new : ty) {struct e} : result texpr :=
  match e with
  | TInt d shr ic | TByte d shr ic => cast_intvalue e d shr ic new false
  | TBool b =>
      if ty_eqb new (TData INT)
      then OK (TInt (fold_bool_to_int b) intvalue_shrinkable_default intvalue_is_char_default)
      else if ty_eqb new (TData BYTE)
      then OK (TByte (fold_bool_to_int b) intvalue_shrinkable_default intvalue_is_char_default)
      else cast_plain e (ty_of e) new
  | TStr s =>
      if ty_eqb new (TData BOOL) then OK (TBool (fold_string_to_bool (String.length s)))
      else cast_plain e (ty_of e) new
  | TArrLit vs t locked =>
      match new with
      | TArr el' _ =>
          vs' <- map_result (fun v => cast v (TData el')) vs ;;
          OK (TArrLit vs' new true)
      | TData _ => cast_plain e t new
      end
  | TVolatile x => cast x new
  | _ => cast_plain e (ty_of e) new
  end.

(** Expression.coerce / IntValue.coerce *)
Definition coerce (e : texpr) (new : ty) : result texpr :=
  if coercible e new then
    match e with
    | TInt d shr ic | TByte d shr ic => cast_intvalue e d shr ic new true
    | _ => cast e new
    end
  else Err (ENotType (ty_of e) new).

Record decl : Type := mkDecl { d_var : var; d_init : texpr }.
Definition scope : Type := list (string * decl).

Record fsig : Type := mkSig { f_id : ident; f_params : list ty; f_ret : dty }.

Record env : Type := mkEnv {
  e_scopes : list scope;      (* innermost first; the last one is the global scope *)
  e_funcs : list fsig;        (* insertion order: builtins, then the program's functions *)
  e_ret : option dty;
  e_unreach : bool            (* option unreachable_error *)
}.

Definition is_global (en : env) : bool := (List.length (e_scopes en) <=? 1)%nat.

Fixpoint scope_find (x : string) (s : scope) : option decl :=
  match s with
  | [] => None
  | (y, d) :: tl => if String.eqb x y then Some d else scope_find x tl
  end.

Fixpoint scopes_find (x : string) (ss : list scope) : option decl :=
  match ss with
  | [] => None
  | s :: tl => match scope_find x s with Some d => Some d | None => scopes_find x tl end
  end.

(** found in a scope that is not the outermost (global) one *)
Fixpoint found_local (x : string) (ss : list scope) : bool :=
  match ss with
  | [] | [_] => false
  | s :: tl => match scope_find x s with Some _ => true | None => found_local x tl end
  end.

Definition push_scope (en : env) : env :=
  mkEnv ([] :: e_scopes en) (e_funcs en) (e_ret en) (e_unreach en).

Definition child_env (en : env) (ret : option dty) : env :=
  mkEnv ([] :: e_scopes en) (e_funcs en)
        (match ret with Some r => Some r | None => e_ret en end) (e_unreach en).

Definition add_decl (en : env) (d : decl) : env :=
  match e_scopes en with
  | [] => mkEnv [[(v_name (d_var d), d)]] (e_funcs en) (e_ret en) (e_unreach en)
  | s :: tl => mkEnv (((v_name (d_var d), d) :: s) :: tl) (e_funcs en) (e_ret en) (e_unreach en)
  end.

(** * Overload resolution (FuncCall.evaluate) *)

Fixpoint tys_eqb (a b : list ty) : bool :=
  match a, b with
  | [], [] => true
  | x :: a', y :: b' => ty_eqb x y && tys_eqb a' b'
  | _, _ => false
  end.

Fixpoint all_coercible (args : list texpr) (ps : list ty) : bool :=
  match args, ps with
  | [], [] => true
  | a :: args', p :: ps' => coercible a p && all_coercible args' ps'
  | _, _ => false
  end.

Definition exact_sig (f : ident) (tys : list ty) (s : fsig) : bool :=
  ident_eqb f (f_id s) && tys_eqb tys (f_params s).

Definition coercible_sig (f : ident) (args : list texpr) (s : fsig) : bool :=
  ident_eqb f (f_id s) && all_coercible args (f_params s).

Definition resolve (decls : list fsig) (f : ident) (args : list texpr) : result fsig :=
  match find (exact_sig f (map ty_of args)) decls with
  | Some s => OK s
  | None =>
      match find (coercible_sig f args) decls with
      | Some s => OK s
      | None => Err (ENoMatchingFunction f (map ty_of args))
      end
  end.

Fixpoint coerce_all (args : list texpr) (ps : list ty) : result (list texpr) :=
  match args, ps with
  | a :: args', p :: ps' => a' <- coerce a p ;; tl <- coerce_all args' ps' ;; OK (a' :: tl)
  | _, _ => OK []
  end.

(** * Expression elaboration (`evaluate`) *)

Definition is_primitive (e : texpr) : bool :=
  match e with TInt _ _ _ | TByte _ _ _ | TBool _ | TStr _ => true | _ => false end.

(** PrimitiveValue.at / IntValue.at *)
Definition at_subst (e : texpr) : texpr :=
  match e with
  | TInt d _ ic => TInt d false ic
  | TByte d _ ic => TByte d false ic
  | _ => e
  end.

Definition lift_fold {A} (r : fres A) : result A :=
  match r with
  | FVal a => OK a
  | FErr m => Err (EFold m)
  | FCrash => Err (ECrash "fold")
  end.

(** ArrayLiteral.evaluate, after the values have been evaluated: iterate over the distinct
    element types in order of first occurrence *)
Fixpoint arr_pick (vs : list texpr) (cands : list ty) (seen : list ty) : result texpr :=
  match cands with
  | [] => Err EArrayUnresolvable
  | t :: tl =>
      if existsb (ty_eqb t) seen then arr_pick vs tl seen
      else match t with
           | TArr _ _ => Err ENestedArray
           | TData d =>
               if dty_beq d EMPTY then Err EArrayEmptyElement else
               if forallb (fun v => coercible v t) vs
               then OK (TArrLit vs (TArr d true) arrayliteral_locked_default)
               else arr_pick vs tl (t :: seen)
           end
  end.

Definition simplify_arith2 (c : opclass) (l r : texpr) (shr : bool) : result texpr :=
  match l, r with
  | TInt a _ _, TInt b _ _ =>
      v <- lift_fold (fold_arith2 c a b) ;; OK (TInt v shr intvalue_is_char_default)
  | _, _ => OK (TBin c l r shr)
  end.

Definition simplify_arith1 (c : opclass) (a : texpr) (shr : bool) : result texpr :=
  match a with
  | TInt x _ _ => v <- lift_fold (fold_arith1 c x) ;; OK (TInt v shr intvalue_is_char_default)
  | _ => OK (TUn c a shr)
  end.

Definition prim_data (e : texpr) : option Z :=
  match e with
  | TInt d _ _ | TByte d _ _ => Some d
  | TBool b => Some (b2z b)
  | _ => None
  end.

(** BooleanOp.simplify: all arguments PrimitiveValue.  (String data never reaches here: the
    callers have cast to bool or coerced to int first; a StringValue argument is kept
    unsimplified by this model and reported as a crash.) *)
Definition simplify_bool2 (c : opclass) (l r : texpr) : result texpr :=
  if is_primitive l && is_primitive r then
    match prim_data l, prim_data r with
    | Some a, Some b => v <- lift_fold (fold_bool2 c a b) ;; OK (TBool v)
    | _, _ => Err (ECrash "string operand in BooleanOp.simplify")
    end
  else OK (TBin c l r false).

Definition simplify_bool1 (c : opclass) (a : texpr) : result texpr :=
  if is_primitive a then
    match prim_data a with
    | Some x => v <- lift_fold (fold_bool1 c x) ;; OK (TBool v)
    | None => Err (ECrash "string operand in BooleanOp.simplify")
    end
  else OK (TUn c a false).

Definition spec_type_ok (t : ty) : bool :=
  match t with TData BYTE | TData INT | TData BOOL => true | _ => false end.

Definition lookup_var (en : env) (x : string) : option decl := scopes_find x (e_scopes en).

Fixpoint elab_expr (en : env) (e : expr) {struct e} : result texpr :=
  let elab_list := map_result (elab_expr en) in
  match e with
  | EInt n => OK (TInt n intvalue_shrinkable_default intvalue_is_char_default)
  | EChar n => OK (TByte n intvalue_shrinkable_default true)
  | EBool b => OK (TBool b)
  | EStr s => OK (TStr s)
  | EVar x =>
      match lookup_var en x with
      | None => Err (EUndeclared x)
      | Some d =>
          if (v_const (d_var d) || is_global en) && is_primitive (d_init d)
          then OK (at_subst (d_init d))
          else OK (TVar (d_var d))
      end
  | EArr es =>
      match es with
      | [] => OK (TArrLit [] arrayliteral_type_default arrayliteral_locked_default)
      | _ => vs <- elab_list es ;; arr_pick vs (map ty_of vs) []
      end
  | EIndex s i =>
      s' <- elab_expr en s ;;
      if negb (is_str_or_arr (ty_of s')) then Err EMustBeArrayOrString else
      s'' <- match s' with
             | TArrLit _ t _ =>
                 if dty_beq (el_of t) EMPTY then Err EArrayAmbiguous else coerce s' t
             | _ => if is_array (ty_of s') && dty_beq (el_of (ty_of s')) EMPTY
                    then Err (ECrash "assert el_type != EMPTY") else OK s'
             end ;;
      i' <- elab_expr en i ;;
      i'' <- coerce i' (TData INT) ;;
      OK (TIndex s'' i'')
  | ELen s =>
      s' <- elab_expr en s ;;
      if negb (is_str_or_arr (ty_of s')) then Err EMustBeArrayOrString else OK (TLen s')
  | ECall f args =>
      args' <- elab_list args ;;
      s <- resolve (e_funcs en) f args' ;;
      cargs <- coerce_all args' (f_params s) ;;
      OK (TCall f cargs (TData (f_ret s)))
  | EUn c a =>
      match op_family c with
      | FamUnArith =>
          a' <- elab_expr en a ;;
          ca <- coerce a' (TData INT) ;;
          simplify_arith1 c ca (arithop_shrinkable_default || coercible a' (TData BYTE))
      | FamUnLogic =>
          a' <- elab_expr en a ;;
          ca <- cast a' (TData BOOL) ;;
          simplify_bool1 c ca
      | _ => Err (ECrash "unary operator class")
      end
  | EBin c l r =>
      match op_family c with
      | FamBinArith =>
          l' <- elab_expr en l ;;
          r' <- elab_expr en r ;;
          cl <- coerce l' (TData INT) ;;
          cr <- coerce r' (TData INT) ;;
          simplify_arith2 c cl cr
            (arithop_shrinkable_default || (coercible l' (TData BYTE) && coercible r' (TData BYTE)))
      | FamBinLogic =>
          l' <- elab_expr en l ;;
          cl <- cast l' (TData BOOL) ;;
          r' <- elab_expr en r ;;
          cr <- cast r' (TData BOOL) ;;
          simplify_bool2 c cl cr
      | FamCompare =>
          l' <- elab_expr en l ;;
          cl <- coerce l' (TData INT) ;;
          r' <- elab_expr en r ;;
          cr <- coerce r' (TData INT) ;;
          simplify_bool2 c cl cr
      | FamEquality =>
          l' <- elab_expr en l ;;
          r' <- elab_expr en r ;;
          if ty_eqb (ty_of l') (TData BOOL) && ty_eqb (ty_of r') (TData BOOL)
          then simplify_bool2 c l' r'
          else (cl <- coerce l' (TData INT) ;;
                cr <- coerce r' (TData INT) ;;
                simplify_bool2 c cl cr)
      | _ => Err (ECrash "binary operator class")
      end
  | EIs a t => a' <- elab_expr en a ;; cast a' t
  | ESpec l r =>
      l' <- elab_expr en l ;;
      if negb (spec_type_ok (ty_of l')) then Err (ESpeculateType (ty_of l')) else
      r' <- elab_expr en r ;;
      cr <- coerce r' (ty_of l') ;;
      if is_primitive l' && is_primitive cr then OK l' else OK (TSpec l' cr)
  | EArrInit t len =>
      len' <- elab_expr en len ;;
      cl <- coerce len' (TData INT) ;;
      OK (TArrInit t cl)
  end.

Inductive stmt : Type :=
| SDecl (v : var) (init : expr)
| SAssign (lhs rhs : expr)
| SIncAssign (lhs : expr) (c : opclass) (rhs : expr)
| SReturn (val : option expr)
| SBreak
| SContinue
| SExpr (e : expr)
| SBlock (ss : list stmt)                       (* CodeBlock *)
| SIf (cond : expr) (body els : stmt)
| SLoop (body : stmt) (cond : expr) (cont : stmt)
| STry (body : stmt) (undo : bool) (handler : stmt)   (* handler = Undo/StopBlock(handler) *)
| SPreempt (body : stmt).

(** ExitMode flag sets *)
Record emode : Type := mkMode { m_none : bool; m_break : bool; m_loop : bool; m_defeat : bool; m_return : bool }.
Definition M0 := mkMode false false false false false.
Definition M_NONE := mkMode true false false false false.
Definition M_BREAK := mkMode false true false false false.
Definition M_LOOP := mkMode false false true false false.
Definition M_DEFEAT := mkMode false false false true false.
Definition M_RETURN := mkMode false false false false true.
Definition m_or (a b : emode) : emode :=
  mkMode (m_none a || m_none b) (m_break a || m_break b) (m_loop a || m_loop b)
         (m_defeat a || m_defeat b) (m_return a || m_return b).
Definition m_minus (a b : emode) : emode :=
  mkMode (m_none a && negb (m_none b)) (m_break a && negb (m_break b)) (m_loop a && negb (m_loop b))
         (m_defeat a && negb (m_defeat b)) (m_return a && negb (m_return b)).
(** ExitMode.replace: (self & ~old) | new *)
Definition m_replace (m old new : emode) : emode := m_or (m_minus m old) new.

Inductive tstmt : Type :=
| TSDecl (v : var) (init : texpr)
| TSAssign (lhs rhs : texpr)
| TSIncAssign (lhs rhs : texpr) (c : opclass)
| TSReturn (val : option texpr)
| TSBreak
| TSContinue
| TSExpr (e : texpr)
| TSBlock (ss : list tstmt) (mode : emode)
| TSIf (body : tstmt) (cond : texpr) (els : tstmt)
| TSLoop (body : tstmt) (cond : texpr) (cont : tstmt)
| TSTry (body : tstmt) (undo : bool) (handler : tstmt)
| TSPreempt (body : tstmt).

(** Block.exit_modes() of an evaluated block; None for a non-block *)
Fixpoint exit_modes (s : tstmt) : option emode :=
  match s with
  | TSBlock _ m => Some m
  | TSIf b _ e =>
      match exit_modes b, exit_modes e with
      | Some mb, Some me => Some (m_or mb me)
      | _, _ => None
      end
  | TSLoop b cond _ =>
      match exit_modes b with
      | Some m =>
          if negb (m_break m) && (match cond with TBool true => true | _ => false end)
          then Some (m_replace m M_NONE M_LOOP)
          else Some (m_replace m M_BREAK M_NONE)
      | None => None
      end
  | TSTry b _ h =>
      match exit_modes b, exit_modes h with
      | Some mb, Some mh => Some (m_replace mb M_DEFEAT mh)
      | _, _ => None
      end
  | TSPreempt b => match exit_modes b with Some m => Some (m_or m M_NONE) | None => None end
  | _ => None
  end.

Definition is_assignable (e : texpr) : bool :=
  match e with TVar _ | TIndex _ _ => true | _ => false end.

(** Assignable.const *)
Definition lookup_const (e : texpr) : bool :=
  match e with
  | TVar v => v_const v
  | TIndex src _ =>
      match ty_of src with
      | TData STRING => true                   (* strings are immutable *)
      | TArr _ c => c
      | _ => true
      end
  | _ => true
  end.

(** Declaration.evaluate *)
Definition redeclared (en : env) (x : string) : bool :=
  match lookup_var en x with
  | Some _ => is_global en || found_local x (e_scopes en)
  | None => false
  end.

Definition finish_decl (en : env) (v : var) (init : texpr) : result (tstmt * env) :=
  i <- coerce init (v_type v) ;;
  match i with
  | TVolatile _ => Err (EConstVolatileDecl (v_name v))
  | _ => OK (TSDecl v i, add_decl en (mkDecl v i))
  end.

(** Assignment.evaluate *)
Definition elab_assign (en : env) (lhs : expr) (rhs : expr) (mk : expr -> expr)
  : result (texpr * texpr) :=
  l <- elab_expr en lhs ;;
  if negb (is_assignable l) || lookup_const l then Err EAssignConst else
  r <- elab_expr en (mk rhs) ;;
  cr <- coerce r (ty_of l) ;;
  OK (l, cr).

Definition call_mode (f : ident) (args : list texpr) (m : emode) : emode :=
  if ident_eqb f (mkId "is_defeat" FL_DEFEAT) && (match args with [] => true | _ => false end)
  then m_replace m M_NONE M_DEFEAT
  else if (ident_eqb f (mkId "all_is_win" FL_NONE) || ident_eqb f (mkId "all_is_broken" FL_NONE))
          && (match args with [] => true | _ => false end)
  then m_replace m M_NONE M_LOOP
  else if flavor_eqb (id_flavor f) FL_DEFEAT then m_or m M_DEFEAT
  else m.

(** the loop of CodeBlock.evaluate *)
Definition stmt_mode (t1 : tstmt) (mode : emode) : emode :=
  match t1 with
  | TSReturn _ => m_replace mode M_NONE M_RETURN
  | TSBreak => m_replace mode M_NONE M_BREAK
  | TSExpr (TCall f args _) => call_mode f args mode
  | _ => match exit_modes t1 with
         | Some bm => m_replace mode M_NONE bm
         | None => mode
         end
  end.

Definition elab_block (elab : env -> stmt -> result (tstmt * env)) (unreach : bool)
  : list stmt -> env -> emode -> bool -> result (list tstmt * emode) :=
  fix go (ss : list stmt) (en' : env) (mode : emode) (cont : bool) : result (list tstmt * emode) :=
    match ss with
    | [] => OK ([], mode)
    | s1 :: tl =>
        if negb (m_none mode) || cont then
          (if unreach then Err EUnreachable else OK ([], mode))
        else
          r <- elab en' s1 ;;
          rest <- go tl (snd r) (stmt_mode (fst r) mode)
                    (match fst r with TSContinue => true | _ => cont end) ;;
          OK (fst r :: fst rest, snd rest)
    end.

Fixpoint elab_stmt (en : env) (s : stmt) {struct s} : result (tstmt * env) :=
  match s with
  | SDecl v init =>
      if redeclared en (v_name v) then Err (ERedeclaration (v_name v)) else
      i <- elab_expr en init ;; finish_decl en v i
  | SAssign lhs rhs =>
      p <- elab_assign en lhs rhs (fun r => r) ;;
      OK (TSAssign (fst p) (snd p), en)
  | SIncAssign lhs c rhs =>
      p <- elab_assign en lhs rhs (fun r => EBin c lhs r) ;;
      r' <- elab_expr en rhs ;;
      OK (TSIncAssign (fst p) r' c, en)
  | SReturn val =>
      match e_ret en with
      | None => Err EUnexpectedReturn
      | Some rt =>
          match val with
          | Some v =>
              if dty_beq rt EMPTY then Err EUnexpectedReturnValue else
              v' <- elab_expr en v ;; cv <- coerce v' (TData rt) ;; OK (TSReturn (Some cv), en)
          | None =>
              if negb (dty_beq rt EMPTY) then Err EMissingReturnValue else OK (TSReturn None, en)
          end
      end
  | SBreak => OK (TSBreak, en)
  | SContinue => OK (TSContinue, en)
  | SExpr e => e' <- elab_expr en e ;; OK (TSExpr e', en)
  | SBlock ss =>
      r <- elab_block elab_stmt (e_unreach en) ss (push_scope en) M_NONE false ;;
      OK (TSBlock (fst r) (snd r), en)
  | SIf cond body els =>
      b <- elab_stmt en body ;;
      c <- elab_expr en cond ;; cc <- cast c (TData BOOL) ;;
      e <- elab_stmt en els ;;
      OK (TSIf (fst b) cc (fst e), en)
  | SLoop body cond cont =>
      b <- elab_stmt en body ;;
      c <- elab_expr en cond ;; cc <- cast c (TData BOOL) ;;
      k <- elab_stmt en cont ;;
      OK (TSLoop (fst b) cc (fst k), en)
  | STry body undo handler =>
      b <- elab_stmt en body ;;
      h <- elab_stmt en handler ;;
      OK (TSTry (fst b) undo (fst h), en)
  | SPreempt body =>
      b <- elab_stmt en body ;;
      OK (TSPreempt (fst b), en)
  end.

(** FuncDeclaration *)
Record fdecl : Type := mkFdecl {
  fd_ret : dty; fd_name : ident; fd_params : list var; fd_body : list stmt }.

Record tfdecl : Type := mkTfdecl {
  tf_ret : dty; tf_name : ident; tf_params : list var; tf_body : tstmt }.

Record program : Type := mkProgram { p_vars : list stmt; p_funcs : list fdecl }.
Record tprogram : Type := mkTprogram { tp_vars : list tstmt; tp_funcs : list tfdecl }.

Definition sig_of (f : fdecl) : fsig :=
  mkSig (fd_name f) (map v_type (fd_params f)) (fd_ret f).

Definition builtin_fsigs : list fsig :=
  map (fun b => match b with (n, fl, ps, r) => mkSig (mkId n fl) ps r end) builtin_sigs.

(** Environment.add_funcs *)
Fixpoint add_funcs (table : list fsig) (fs : list fsig) : result (list fsig) :=
  match fs with
  | [] => OK table
  | f :: tl =>
      if existsb (exact_sig (f_id f) (f_params f)) table
      then Err (ERedefinition (f_id f) (f_params f))
      else add_funcs (table ++ [f]) tl
  end.

Fixpoint bind_params (en : env) (ps : list var) : result env :=
  match ps with
  | [] => OK en
  | p :: tl =>
      if redeclared en (v_name p) then Err (ERedeclaration (v_name p)) else
      r <- finish_decl en p (TParam p) ;;
      bind_params (snd r) tl
  end.

Definition elab_func (en : env) (f : fdecl) : result tfdecl :=
  en1 <- bind_params (child_env en (Some (fd_ret f))) (fd_params f) ;;
  r <- elab_stmt en1 (SBlock (fd_body f)) ;;
  match fst r with
  | TSBlock ss m =>
      if m_break m then Err (ECrash "assert BREAK not in exit_modes") else
      if m_defeat m && negb (flavor_eqb (id_flavor (fd_name f)) FL_DEFEAT)
      then Err (ECrash "assert DEFEAT only in defeat functions") else
      if m_none m then
        if negb (dty_beq (fd_ret f) EMPTY) then Err EMissingReturnStatement
        else OK (mkTfdecl (fd_ret f) (fd_name f) (fd_params f)
                   (TSBlock (ss ++ [TSReturn None]) (m_replace m M_NONE M_RETURN)))
      else OK (mkTfdecl (fd_ret f) (fd_name f) (fd_params f) (TSBlock ss m))
  | _ => Err (ECrash "function body")
  end.

Fixpoint elab_globals (en : env) (ds : list stmt) : result (list tstmt * env) :=
  match ds with
  | [] => OK ([], en)
  | d :: tl =>
      r <- elab_stmt en d ;;
      rest <- elab_globals (snd r) tl ;;
      OK (fst r :: fst rest, snd rest)
  end.

Fixpoint elab_funcs (en : env) (fs : list fdecl) : result (list tfdecl) :=
  match fs with
  | [] => OK []
  | f :: tl => f' <- elab_func en f ;; tl' <- elab_funcs en tl ;; OK (f' :: tl')
  end.

(** Program.evaluate on Environment.empty with the given options *)
Definition elab_program (unreach : bool) (p : program) : result tprogram :=
  t1 <- add_funcs [] builtin_fsigs ;;
  t2 <- add_funcs t1 (map sig_of (p_funcs p)) ;;
  let en := mkEnv [[]] t2 None unreach in
  g <- elab_globals en (p_vars p) ;;
  fs <- elab_funcs (snd g) (p_funcs p) ;;
  OK (mkTprogram (fst g) fs).

(* with string_scope opened last, ++ would be string append *)
Local Open Scope list_scope.

(** A boolean fact about all (pairs of) types holds once it has been evaluated on the 15 of them. *)
Lemma forall_types : forall P : ty -> bool,
  forallb P all_types = true -> forall t, P t = true.
Proof.
  intros P H t. rewrite forallb_forall in H. apply H. apply all_types_complete.
Qed.

Lemma forall_types2 : forall P : ty -> ty -> bool,
  forallb (fun a => forallb (P a) all_types) all_types = true -> forall a b, P a b = true.
Proof.
  intros P H a b. apply (forall_types (P a)). apply (forall_types _ H a).
Qed.

Lemma flavor_eqb_eq : forall a b, flavor_eqb a b = true <-> a = b.
Proof. intros [] []; split; intros H; reflexivity || discriminate H. Qed.

Lemma ident_eqb_eq : forall a b, ident_eqb a b = true <-> a = b.
Proof.
  intros [n1 f1] [n2 f2]. unfold ident_eqb. simpl.
  rewrite andb_true_iff, String.eqb_eq, flavor_eqb_eq. intuition congruence.
Qed.

Lemma tys_eqb_eq : forall a b, tys_eqb a b = true <-> a = b.
Proof.
  induction a as [|x a IH]; intros [|y b]; simpl;
    rewrite ?andb_true_iff, ?ty_eqb_eq, ?IH; intuition congruence.
Qed.

(** ** C07-1: the coercion lattice *)

(** The documented implicit coercions between types (README "Types", "Arrays and strings"). *)
Definition doc_coercible_ty (a b : ty) : bool :=
  match a, b with
  | TData BYTE, TData INT => true                 (* byte: "Coercible to int" *)
  | TData STRING, TArr BYTE true => true          (* string: "Coercible to const byte[]" *)
  | TArr x false, TArr y true => dty_beq x y      (* "a non-const array may be coerced into a const array" *)
  | _, _ => ty_eqb a b
  end.

(** The documented explicit casts (README "Allowed explicit type casts"), plus the identity and
    the const view of a mutable array (`x is T[]`, documented only in a source comment). *)
Definition doc_cast_ty (a b : ty) : bool :=
  ty_eqb a b ||
  match a, b with
  | TData BYTE, TData INT | TData BOOL, TData INT => true
  | TData INT, TData BYTE | TData BOOL, TData BYTE => true
  | TData INT, TData BOOL | TData BYTE, TData BOOL | TData STRING, TData BOOL => true
  | TArr _ _, TData BOOL => true
  | TData STRING, TArr BYTE true => true
  | TArr x false, TArr y true => dty_beq x y
  | _, _ => false
  end.

(** node classes that inherit Expression.coercible / Expression.cast unchanged *)
Definition is_plain (e : texpr) : bool :=
  match e with
  | TVar _ | TParam _ | TIndex _ _ | TLen _ | TCall _ _ _ | TCast _ _ | TSpec _ _ | TArrInit _ _ => true
  | TUn c _ _ | TBin c _ _ _ => negb (is_arith c)
  | _ => false
  end.

Definition is_ok {A} (r : result A) : bool := match r with OK _ => true | Err _ => false end.

Definition rep_plain (t : ty) : texpr := TParam (mkVar "p" t true).

Theorem lattice_plain : forall a b, coercible_plain a b = doc_coercible_ty a b.
Proof.
  intros a b. apply Bool.eqb_prop. revert a b. apply forall_types2. vm_compute. reflexivity.
Qed.

Lemma coercible_of_plain : forall e t, is_plain e = true -> coercible e t = coercible_plain (ty_of e) t.
Proof.
  intros e t H. destruct e; try discriminate H; try reflexivity;
    simpl in *; apply negb_true_iff in H; rewrite H; apply orb_false_r.
Qed.

Lemma cast_of_plain : forall e t, is_plain e = true -> cast e t = cast_plain e (ty_of e) t.
Proof. intros e t H. destruct e; simpl in H; try discriminate; reflexivity. Qed.

(** Whether cast_plain succeeds depends on the two types only, so the node stays a variable. *)
Theorem cast_table_plain : forall e a b, is_ok (cast_plain e a b) = doc_cast_ty a b.
Proof.
  intros e a b. apply Bool.eqb_prop. revert a b. apply forall_types2. vm_compute. reflexivity.
Qed.

Theorem is_table_plain : forall e b, is_plain e = true ->
  is_ok (cast e b) = doc_cast_ty (ty_of e) b.
Proof. intros e b H. rewrite cast_of_plain by assumption. apply cast_table_plain. Qed.

Lemma plain_coercible_castable : forall e a b,
  coercible_plain a b = true -> is_ok (cast_plain e a b) = true.
Proof.
  intros e a b. apply implb_true_iff. revert a b. apply forall_types2. vm_compute. reflexivity.
Qed.

Theorem lattice_intlit : forall d s c t,
  coercible (TInt d s c) t = doc_coercible_ty (TData INT) t || (s && ty_eqb t (TData BYTE)).
Proof. intros. simpl. now rewrite lattice_plain. Qed.

Theorem lattice_bytelit : forall d s c t,
  coercible (TByte d s c) t = doc_coercible_ty (TData BYTE) t || (s && ty_eqb t (TData BYTE)).
Proof. intros. simpl. now rewrite lattice_plain. Qed.

(** array literals: "coercible to any type all entries can be coerced to ... Preferentially
    const, but may be coerced to non-const"; a type-locked literal only changes constness *)
Theorem lattice_arrlit : forall vs t new,
  coercible (TArrLit vs t false) new =
  match new with
  | TArr el _ => forallb (fun v => coercible v (TData el)) vs
  | TData _ => false
  end.
Proof. intros. destruct new; reflexivity. Qed.

Theorem lattice_arrlit_locked : forall vs el c new,
  coercible (TArrLit vs (TArr el c) true) new =
  match new with TArr el' _ => dty_beq el el' | TData _ => false end.
Proof. intros. destruct new; reflexivity. Qed.

Theorem lattice_volatile : forall x new, coercible (TVolatile x) new = coercible x new.
Proof. reflexivity. Qed.

Theorem lattice_arith : forall c l r s t, is_arith c = true ->
  coercible (TBin c l r s) t = doc_coercible_ty (TData INT) t || (s && ty_eqb t (TData BYTE)).
Proof. intros. simpl. rewrite H. simpl. now rewrite lattice_plain. Qed.

(** The finite table: 15 types x the expression classes *)
Inductive eclass : Type :=
| CPlain (t : ty)                 (* variable, call, lookup, cast node ... of type t *)
| CIntLit (shr : bool)            (* int literal / folded constant *)
| CByteLit (shr : bool)
| CArrLit (el : dty)              (* unlocked literal with one plain element of type el *)
| CArrLitEmpty                    (* [] *)
| CArrLitLocked (el : dty) (c : bool)
| CVolatile (el : dty).           (* `x is T[]` for a mutable x *)

Definition rep (c : eclass) : texpr :=
  match c with
  | CPlain t => rep_plain t
  | CIntLit s => TInt 0 s false
  | CByteLit s => TByte 0 s false
  | CArrLit el => TArrLit [rep_plain (TData el)] (TArr el true) false
  | CArrLitEmpty => TArrLit [] (TArr EMPTY true) false
  | CArrLitLocked el c => TArrLit [rep_plain (TData el)] (TArr el c) true
  | CVolatile el => TVolatile (rep_plain (TArr el false))
  end.

Definition all_classes : list eclass :=
  map CPlain all_types
  ++ flat_map (fun d => [CArrLit d; CArrLitLocked d false; CArrLitLocked d true; CVolatile d]) dty_all
  ++ [CIntLit true; CIntLit false; CByteLit true; CByteLit false; CArrLitEmpty].

Lemma all_classes_complete : forall c, In c all_classes.
Proof.
  intros c. unfold all_classes. rewrite !in_app_iff, in_flat_map.
  assert (D : forall d (P : dty -> Prop), P d -> exists x, In x dty_all /\ P x)
    by (intros d P H; exists d; split; [apply dty_all_complete | exact H]).
  destruct c as [t | [] | [] | el | | el [] | el];
    try (right; right; simpl; tauto); try (right; left; apply (D el); simpl; tauto).
  left. apply in_map, all_types_complete.
Qed.

(** the documented rule, per class *)
Definition doc_coercible (c : eclass) (new : ty) : bool :=
  match c with
  | CPlain t => doc_coercible_ty t new
  | CIntLit s => doc_coercible_ty (TData INT) new || (s && ty_eqb new (TData BYTE))
  | CByteLit _ => doc_coercible_ty (TData BYTE) new
  | CArrLit el => match new with TArr el' _ => doc_coercible_ty (TData el) (TData el') | _ => false end
  | CArrLitEmpty => is_array new
  | CArrLitLocked el _ => match new with TArr el' _ => dty_beq el el' | _ => false end
  | CVolatile el => match new with TArr el' _ => dty_beq el el' | _ => false end
  end.

Lemma forall_classes : forall P : eclass -> bool,
  forallb P all_classes = true -> forall c, P c = true.
Proof. intros P H c. rewrite forallb_forall in H. apply H, all_classes_complete. Qed.

Lemma forall_classes_types : forall P : eclass -> ty -> bool,
  forallb (fun c => forallb (P c) all_types) all_classes = true -> forall c t, P c t = true.
Proof. intros P H c. apply forall_types. exact (forall_classes _ H c). Qed.

Theorem lattice_table : forall c t, coercible (rep c) t = doc_coercible c t.
Proof.
  intros c t. apply Bool.eqb_prop. revert c t. apply forall_classes_types. vm_compute. reflexivity.
Qed.

Theorem lattice_reflexive : forall c, coercible (rep c) (ty_of (rep c)) = true.
Proof.
  apply forall_classes. vm_compute. reflexivity.
Qed.

Lemma is_ok_true : forall {A} (r : result A), is_ok r = true -> exists a, r = OK a.
Proof. intros A [a|e] H; [eauto | discriminate]. Qed.

Theorem lattice_cast_defined : forall c t, coercible (rep c) t = true -> exists e', cast (rep c) t = OK e'.
Proof.
  intros c t H. apply is_ok_true. revert H. apply implb_true_iff. revert c t.
  apply forall_classes_types. vm_compute. reflexivity.
Qed.

(** coerce fails only where coercible says no or cast fails: the `implicit` flag of
    IntValue.cast changes the node built, never whether one is built. *)
Lemma coerce_ok : forall e new, is_ok (coerce e new) = coercible e new && is_ok (cast e new).
Proof.
  intros e new. unfold coerce. destruct (coercible e new); [|reflexivity].
  destruct e; try reflexivity; simpl; unfold cast_intvalue;
    repeat (destruct (ty_eqb new _); [reflexivity|]); reflexivity.
Qed.

Theorem lattice_coerce_defined : forall c t, coercible (rep c) t = true -> exists e', coerce (rep c) t = OK e'.
Proof.
  intros c t H. apply is_ok_true. rewrite coerce_ok, H.
  destruct (lattice_cast_defined c t H) as [e' ->]. reflexivity.
Qed.

Definition is_scalar (t : ty) : bool := match t with TData _ => true | _ => false end.

Theorem only_scalar_coercions : forall c a b,
  ty_of (rep c) = TData a -> coercible (rep c) (TData b) = true ->
  a = b \/ (a = BYTE /\ b = INT) \/ (c = CIntLit true /\ b = BYTE).
Proof.
  intros c a b Ht Hc. rewrite lattice_table in Hc.
  destruct c as [t | s | s | el | | el k | el]; simpl in Ht; try discriminate.
  - subst t. destruct a, b; simpl in Hc; try discriminate; auto.
  - inversion Ht; subst a. destruct s, b; simpl in Hc; try discriminate; auto.
  - inversion Ht; subst a. destruct b; simpl in Hc; try discriminate; auto.
Qed.

Theorem scalar_to_array_only_string : forall c a el k,
  ty_of (rep c) = TData a -> coercible (rep c) (TArr el k) = true ->
  a = STRING /\ el = BYTE /\ k = true.
Proof.
  intros c a el k Ht Hc. rewrite lattice_table in Hc.
  destruct c as [t | s | s | el' | | el' k' | el']; simpl in Ht; try discriminate;
    [ subst t; destruct a, el, k; simpl in Hc; try discriminate; auto | .. ];
    try destruct s; destruct el, k; simpl in Hc; discriminate.
Qed.

Theorem array_never_to_scalar : forall c el k b,
  ty_of (rep c) = TArr el k -> coercible (rep c) (TData b) = false.
Proof.
  intros c el k b Ht. rewrite lattice_table.
  destruct c as [t | s | s | el' | | el' k' | el']; simpl in Ht; try discriminate; try reflexivity.
  subst t. destruct k; reflexivity.
Qed.

Theorem never_const_to_mutable : forall x y, coercible_plain (TArr x true) (TArr y false) = false.
Proof. intros. rewrite lattice_plain. destruct x, y; reflexivity. Qed.

Theorem mutable_to_const_same_element : forall x y k,
  coercible_plain (TArr x false) (TArr y k) = dty_beq x y.
Proof. intros. rewrite lattice_plain. destruct x, y, k; reflexivity. Qed.

Theorem never_from_empty : forall b, coercible_plain (TData EMPTY) b = true -> b = TData EMPTY.
Proof. intros b H. rewrite lattice_plain in H. destruct b as [[]|[] []]; simpl in H; try discriminate; reflexivity. Qed.

Theorem never_to_empty : forall c, coercible (rep c) (TData EMPTY) = true -> c = CPlain (TData EMPTY).
Proof.
  intros c H. rewrite lattice_table in H.
  destruct c as [t | s | s | el | | el k | el]; simpl in H; try discriminate.
  - destruct t as [[]|[] []]; simpl in H; try discriminate; reflexivity.
  - destruct s; discriminate.
Qed.

(** ** C07-2: overload resolution *)

Lemma exact_sig_spec : forall f tys s,
  exact_sig f tys s = true <-> f_id s = f /\ f_params s = tys.
Proof.
  intros f tys s. unfold exact_sig. rewrite andb_true_iff, ident_eqb_eq, tys_eqb_eq.
  split; intros [A B]; split; congruence.
Qed.

Lemma all_coercible_spec : forall args ps,
  all_coercible args ps = true <-> Forall2 (fun a p => coercible a p = true) args ps.
Proof.
  induction args as [|a args IH]; intros [|p ps]; simpl; split; intros H;
    try discriminate; try constructor; try (inversion H; fail).
  - apply andb_prop in H. tauto.
  - apply IH. apply andb_prop in H. tauto.
  - inversion H; subst. rewrite H3. simpl. now apply IH.
Qed.

Lemma Forall2_len : forall {A B} (R : A -> B -> Prop) l1 l2,
  Forall2 R l1 l2 -> List.length l1 = List.length l2.
Proof. induction 1; simpl; congruence. Qed.

(** "equal arity and every argument coercible to the corresponding parameter" *)
Lemma coercible_sig_spec : forall f args s,
  coercible_sig f args s = true <->
  f_id s = f /\ List.length (f_params s) = List.length args /\
  Forall2 (fun a p => coercible a p = true) args (f_params s).
Proof.
  intros f args s. unfold coercible_sig. rewrite andb_true_iff, ident_eqb_eq, all_coercible_spec.
  split.
  - intros [A B]. split; [congruence|]. split; [|assumption].
    symmetry. eapply Forall2_len; eauto.
  - intros [A [_ B]]. split; [congruence | assumption].
Qed.

Lemma find_first : forall {A} (P : A -> bool) pre s post,
  P s = true -> (forall x, In x pre -> P x = false) -> find P (pre ++ s :: post) = Some s.
Proof.
  intros A P pre. induction pre as [|y pre IH]; intros s post Hs Hpre; simpl.
  - now rewrite Hs.
  - rewrite (Hpre y) by (simpl; auto). apply IH; [assumption|]. intros x Hx. apply Hpre. simpl; auto.
Qed.

Lemma find_none_iff : forall {A} (P : A -> bool) l,
  find P l = None <-> (forall x, In x l -> P x = false).
Proof.
  intros A P l. split.
  - apply find_none.
  - induction l as [|y l IH]; intros H; simpl; [reflexivity|].
    rewrite (H y) by (simpl; auto). apply IH. intros x Hx. apply H. simpl; auto.
Qed.

Lemma find_split : forall {A} (P : A -> bool) l s,
  find P l = Some s -> exists pre post, l = pre ++ s :: post /\ P s = true /\
                                        (forall x, In x pre -> P x = false).
Proof.
  intros A P l. induction l as [|y l IH]; intros s H; simpl in H; [discriminate|].
  destruct (P y) eqn:E.
  - inversion H; subst. exists [], l. simpl. repeat split; auto. intros x [].
  - destruct (IH s H) as (pre & post & -> & Hs & Hpre).
    exists (y :: pre), post. repeat split; auto.
    intros x [<-|Hx]; auto.
Qed.

Definition overload_spec_stmt : Prop :=
  forall (decls : list fsig) (f : ident) (args : list texpr),
    let tys := map ty_of args in
    (* 1. an exact match wins (the first one, were there several) *)
    (forall pre s post,
        decls = pre ++ s :: post -> exact_sig f tys s = true ->
        (forall x, In x pre -> exact_sig f tys x = false) ->
        resolve decls f args = OK s) /\
    (* 2. otherwise the first declared signature every argument can be coerced to *)
    ((forall x, In x decls -> exact_sig f tys x = false) ->
     forall pre s post,
        decls = pre ++ s :: post -> coercible_sig f args s = true ->
        (forall x, In x pre -> coercible_sig f args x = false) ->
        resolve decls f args = OK s) /\
    (* 3. otherwise a compile error *)
    ((forall x, In x decls -> exact_sig f tys x = false) ->
     (forall x, In x decls -> coercible_sig f args x = false) ->
     resolve decls f args = Err (ENoMatchingFunction f tys)) /\
    (* 4. and nothing else: whatever resolve returns is one of the two *)
    (forall s, resolve decls f args = OK s ->
        In s decls /\
        (exact_sig f tys s = true \/
         ((forall x, In x decls -> exact_sig f tys x = false) /\ coercible_sig f args s = true))).

Theorem overload_spec : overload_spec_stmt.
Proof.
  intros decls f args tys. unfold resolve. fold tys. split; [|split; [|split]].
  - intros pre s post -> Hs Hpre. now rewrite (find_first _ pre s post Hs Hpre).
  - intros Hno pre s post -> Hs Hpre.
    rewrite (proj2 (find_none_iff _ _) Hno). now rewrite (find_first _ pre s post Hs Hpre).
  - intros Hno Hnc.
    rewrite (proj2 (find_none_iff _ _) Hno). now rewrite (proj2 (find_none_iff _ _) Hnc).
  - intros s H. destruct (find (exact_sig f tys) decls) eqn:E.
    + injection H as ->. apply find_some in E. tauto.
    + destruct (find (coercible_sig f args) decls) eqn:E2; [|discriminate].
      injection H as ->. apply find_some in E2. rewrite find_none_iff in E. tauto.
Qed.

(** an exact match is preferred over any earlier declared coercible signature *)
Theorem resolve_exact_first : forall decls f args s,
  In s decls -> exact_sig f (map ty_of args) s = true ->
  exists s', resolve decls f args = OK s' /\ f_id s' = f /\ f_params s' = map ty_of args.
Proof.
  intros decls f args s Hin Hs. unfold resolve.
  destruct (find (exact_sig f (map ty_of args)) decls) eqn:E.
  - exists f0. split; [reflexivity|]. apply find_some in E. now apply exact_sig_spec.
  - exfalso. rewrite (find_none _ _ E s Hin) in Hs. discriminate.
Qed.

Lemma texpr_ind' : forall P : texpr -> Prop,
  (forall d s c, P (TInt d s c)) -> (forall d s c, P (TByte d s c)) -> (forall b, P (TBool b)) ->
  (forall s, P (TStr s)) -> (forall v, P (TVar v)) -> (forall v, P (TParam v)) ->
  (forall vs t k, Forall P vs -> P (TArrLit vs t k)) ->
  (forall s i, P s -> P i -> P (TIndex s i)) -> (forall s, P s -> P (TLen s)) ->
  (forall f args r, Forall P args -> P (TCall f args r)) ->
  (forall k e, P e -> P (TCast k e)) -> (forall e, P e -> P (TVolatile e)) ->
  (forall c e s, P e -> P (TUn c e s)) -> (forall c l r s, P l -> P r -> P (TBin c l r s)) ->
  (forall l r, P l -> P r -> P (TSpec l r)) -> (forall t l, P l -> P (TArrInit t l)) ->
  forall e, P e.
Proof.
  intros P H1 H2 H3 H4 H5 H6 H7 H8 H9 H10 H11 H12 H13 H14 H15 H16.
  fix IH 1. intros [d s c|d s c|b|s|v|v|vs t k|s i|s|f args r|k e|e|c e s|c l r s|l r|t l].
  - apply H1. - apply H2. - apply H3. - apply H4. - apply H5. - apply H6.
  - apply H7. induction vs as [|x vs IHvs]; constructor; [apply IH | exact IHvs].
  - apply H8; apply IH.
  - apply H9; apply IH.
  - apply H10. induction args as [|x vs IHvs]; constructor; [apply IH | exact IHvs].
  - apply H11; apply IH.
  - apply H12; apply IH.
  - apply H13; apply IH.
  - apply H14; apply IH.
  - apply H15; apply IH.
  - apply H16; apply IH.
Qed.

Lemma bind_ok : forall {A B} (r : result A) (k : A -> result B) y,
  (x <- r ;; k x) = OK y -> exists x, r = OK x /\ k x = OK y.
Proof. intros A B [x|] k y H; [eauto | discriminate H]. Qed.

Lemma guard_ok : forall {A} (c : bool) e (r : result A) y,
  (if c then Err e else r) = OK y -> c = false /\ r = OK y.
Proof. intros A [] e r y H; [discriminate H | auto]. Qed.

(* [H : (x <- r ;; if c then Err _ else ... OK a) = OK b]: bind_ok and guard_ok all the way down
   to the final OK, the goal closed when H ends in an error; for proofs that do not refer to the
   intermediate results by name. *)
Ltac inv_res H :=
  repeat match type of H with
         | (match ?x with OK _ => _ | Err _ => _ end) = OK _ =>
             let E := fresh "E" in destruct x eqn:E; [|discriminate H]
         | (if ?c then _ else _) = OK _ =>
             let E := fresh "E" in destruct c eqn:E; try discriminate H
         | OK _ = OK _ => inversion H; subst; clear H
         | Err _ = OK _ => discriminate H
         end.

Lemma map_result_In : forall {A B} (f : A -> result B) l l',
  map_result f l = OK l' -> forall y, In y l' -> exists x, In x l /\ f x = OK y.
Proof.
  intros A B f. induction l as [|x l IH]; intros l' H y Hy; simpl in H; inv_res H.
  - destruct Hy.
  - destruct Hy as [<-|Hy]; [exists x; simpl; auto|].
    destruct (IH _ eq_refl y Hy) as (x' & Hx' & E'). exists x'; simpl; auto.
Qed.

Lemma map_result_ok : forall {A B} (f : A -> result B) l,
  (forall x, In x l -> is_ok (f x) = true) -> is_ok (map_result f l) = true.
Proof.
  intros A B f. induction l as [|x l IH]; intros H; simpl; [reflexivity|].
  destruct (is_ok_true _ (H x (or_introl eq_refl))) as [y ->].
  destruct (is_ok_true _ (IH (fun z Hz => H z (or_intror Hz)))) as [l' ->]. reflexivity.
Qed.

(** ** Checked expressions: the node classes and coercible *)

Definition shrinkable_node (e : texpr) : bool :=
  match e with
  | TInt _ s _ => s
  | TUn c _ s | TBin c _ _ s => is_arith c && s
  | _ => false
  end.

Lemma shrinkable_node_int : forall e, shrinkable_node e = true -> ty_of e = TData INT.
Proof.
  intros e H. destruct e; try discriminate H; [reflexivity | ..];
    apply andb_prop in H as [H _]; simpl; now rewrite H.
Qed.

(** Array literals and const views have a coercible of their own; every other class takes
    Expression.coercible on its type, and IntValue and ArithmeticOp add the narrowing to byte of
    a node still marked shrinkable.  (For a ByteValue the added case is already a plain one.) *)
Definition inherits_coercible (e : texpr) : bool :=
  match e with TArrLit _ _ _ | TVolatile _ => false | _ => true end.

Lemma coercible_inherited : forall e new, inherits_coercible e = true ->
  coercible e new = coercible_plain (ty_of e) new || (shrinkable_node e && ty_eqb new (TData BYTE)).
Proof.
  intros e new H. destruct e; try discriminate H; simpl; rewrite ?orb_false_r; try reflexivity.
  (* TByte *)
  destruct (ty_eqb new (TData BYTE)) eqn:B; [|now rewrite andb_false_r, orb_false_r].
  apply ty_eqb_eq in B as ->. reflexivity.
Qed.

(** An int-typed expression is implicitly narrowed to byte only if it is a literal (or folded
    constant) still marked shrinkable, or an arithmetic node marked shrinkable. *)
Theorem no_implicit_narrowing : forall e,
  ty_of e = TData INT -> coercible e (TData BYTE) = true -> shrinkable_node e = true.
Proof.
  intros e Ht Hc. destruct (inherits_coercible e) eqn:I.
  - rewrite coercible_inherited, Ht in Hc by exact I. now rewrite andb_true_r in Hc.
  - destruct e; discriminate.
Qed.

Theorem coerce_narrowing_only_shrinkable : forall e e',
  ty_of e = TData INT -> coerce e (TData BYTE) = OK e' -> shrinkable_node e = true.
Proof.
  intros e e' Ht H. unfold coerce in H.
  destruct (coercible e (TData BYTE)) eqn:E; [|discriminate].
  now apply no_implicit_narrowing.
Qed.

Lemma simplify_arith2_shape : forall c l r s te, simplify_arith2 c l r s = OK te ->
  te = TBin c l r s \/ exists v, te = TInt v s intvalue_is_char_default.
Proof.
  intros c l r s te H. unfold simplify_arith2 in H.
  destruct l; try (left; congruence). destruct r; try (left; congruence).
  inv_res H. eauto.
Qed.

Lemma simplify_arith1_shape : forall c a s te, simplify_arith1 c a s = OK te ->
  te = TUn c a s \/ exists v, te = TInt v s intvalue_is_char_default.
Proof.
  intros c a s te H. unfold simplify_arith1 in H.
  destruct a; try (left; congruence). inv_res H. eauto.
Qed.

Lemma simplify_arith2_coercible : forall c l r s te, is_arith c = true ->
  simplify_arith2 c l r s = OK te -> coercible te (TData BYTE) = s.
Proof.
  intros c l r s te Hc H.
  apply simplify_arith2_shape in H as [->|[v ->]]; simpl; rewrite ?Hc; destruct s; reflexivity.
Qed.

Lemma simplify_arith1_coercible : forall c a s te, is_arith c = true ->
  simplify_arith1 c a s = OK te -> coercible te (TData BYTE) = s.
Proof.
  intros c a s te Hc H.
  apply simplify_arith1_shape in H as [->|[v ->]]; simpl; rewrite ?Hc; destruct s; reflexivity.
Qed.

(** "if all of the operands are coercible to byte, the resulting value is also coercible to
    byte" -- and only then *)
Theorem arith_shrinkable : forall en c l r te,
  op_family c = FamBinArith -> elab_expr en (EBin c l r) = OK te ->
  exists l' r', elab_expr en l = OK l' /\ elab_expr en r = OK r' /\
    coercible te (TData BYTE) = coercible l' (TData BYTE) && coercible r' (TData BYTE).
Proof.
  intros en c l r te Hf H. simpl in H. rewrite Hf in H.
  destruct (elab_expr en l) as [l'|]; [|discriminate].
  destruct (elab_expr en r) as [r'|]; [|discriminate].
  destruct (coerce l' (TData INT)) as [cl|]; [|discriminate].
  destruct (coerce r' (TData INT)) as [cr|]; [|discriminate].
  exists l', r'. split; [reflexivity|]. split; [reflexivity|].
  apply simplify_arith2_coercible in H; [exact H|]. unfold is_arith. now rewrite Hf.
Qed.

Theorem arith_shrinkable_unary : forall en c a te,
  op_family c = FamUnArith -> elab_expr en (EUn c a) = OK te ->
  exists a', elab_expr en a = OK a' /\ coercible te (TData BYTE) = coercible a' (TData BYTE).
Proof.
  intros en c a te Hf H. simpl in H. rewrite Hf in H.
  destruct (elab_expr en a) as [a'|]; [|discriminate].
  destruct (coerce a' (TData INT)) as [ca|]; [|discriminate].
  exists a'. split; [reflexivity|].
  apply simplify_arith1_coercible in H; [exact H|]. unfold is_arith. now rewrite Hf.
Qed.

(** ** const arrays are never bound or passed where a mutable array is required *)

Fixpoint denotes_const_array (e : texpr) : bool :=
  match e with
  | TVolatile x => denotes_const_array x      (* a const *view* of x: as const as x itself *)
  | TArrLit _ _ _ => false                    (* a fresh array *)
  | _ => match ty_of e with TArr _ true => true | _ => false end
  end.

Theorem const_array_not_to_mutable : forall e el,
  denotes_const_array e = true -> coercible e (TArr el false) = false.
Proof.
  assert (G : forall e el, inherits_coercible e = true ->
              match ty_of e with TArr _ true => true | _ => false end = true ->
              coercible e (TArr el false) = false).
  { intros e el I H. rewrite coercible_inherited by exact I.
    destruct (ty_of e) as [|x []]; try discriminate H.
    rewrite never_const_to_mutable. apply andb_false_r. }
  induction e; intros el H; try discriminate H; try (now apply IHe); now apply G.
Qed.

Theorem const_array_not_coerced_to_mutable : forall e el e',
  coerce e (TArr el false) = OK e' -> denotes_const_array e = false.
Proof.
  intros e el e' H. unfold coerce in H.
  destruct (denotes_const_array e) eqn:D; [|reflexivity].
  rewrite (const_array_not_to_mutable e el D) in H. discriminate.
Qed.

(** ** Well-formedness of checked expressions; cast and coerce *)

Fixpoint wf (e : texpr) : bool :=
  match e with
  | TArrLit vs t locked =>
      is_array t &&
      forallb (fun v => wf v && is_scalar (ty_of v) &&
                        (negb locked || ty_eqb (ty_of v) (TData (el_of t))) &&
                        negb (ty_eqb (ty_of v) (TData EMPTY))) vs
  | TIndex s i => wf s && wf i
  | TLen s => wf s
  | TCall _ args _ => forallb wf args
  | TCast _ x => wf x
  | TVolatile x => wf x && is_array (ty_of x)
  | TUn _ x _ => wf x
  | TBin _ l r _ => wf l && wf r
  | TSpec l r => wf l && wf r
  | TArrInit _ l => wf l
  | _ => true
  end.

Lemma wf_arrlit_elem : forall vs t k x, wf (TArrLit vs t k) = true -> In x vs ->
  wf x = true /\ is_scalar (ty_of x) = true /\ (k = true -> ty_of x = TData (el_of t)) /\
  ty_of x <> TData EMPTY.
Proof.
  intros vs t k x W Hx. simpl in W. apply andb_prop in W as [_ W].
  rewrite forallb_forall in W. specialize (W x Hx).
  rewrite !andb_true_iff, negb_true_iff in W. destruct W as [[[W S] L] NE].
  repeat split; auto.
  - intros ->. now apply ty_eqb_eq.
  - intros T. rewrite T in NE. discriminate.
Qed.

Lemma coercible_plain_arr_scalar : forall el k d, coercible_plain (TArr el k) (TData d) = false.
Proof. intros. rewrite lattice_plain. destruct k; reflexivity. Qed.

Lemma arr_not_coercible_scalar : forall e d,
  wf e = true -> is_array (ty_of e) = true -> coercible e (TData d) = false.
Proof.
  assert (G : forall e d, inherits_coercible e = true -> is_array (ty_of e) = true ->
              coercible e (TData d) = false).
  { intros e d I A. rewrite coercible_inherited by exact I.
    destruct (ty_of e) as [|el k] eqn:T; [discriminate A|]. rewrite coercible_plain_arr_scalar.
    destruct (shrinkable_node e) eqn:S; [|reflexivity].
    apply shrinkable_node_int in S. congruence. }
  induction e; intros d0 W A; try (now apply G); [reflexivity|].
  simpl in W. apply andb_prop in W as [W A']. now apply IHe.
Qed.

(** an `empty`-typed expression is coercible to nothing else, and nothing else can be cast to
    `empty` *)
Lemma empty_not_coercible : forall e d,
  ty_of e = TData EMPTY -> coercible e (TData d) = true -> d = EMPTY.
Proof.
  intros e d T C. destruct (inherits_coercible e) eqn:I.
  - rewrite coercible_inherited, T in C by exact I. apply orb_prop in C as [C|C].
    + apply never_from_empty in C. congruence.
    + apply andb_prop in C as [C _]. apply shrinkable_node_int in C. congruence.
  - destruct e; discriminate.
Qed.

Lemma cast_plain_to_empty : forall e t e',
  cast_plain e t (TData EMPTY) = OK e' -> t = TData EMPTY.
Proof.
  intros e t e' H. pose proof (cast_table_plain e t (TData EMPTY)) as T. rewrite H in T.
  destruct t as [[]|[] []]; try discriminate T; reflexivity.
Qed.

Lemma cast_to_empty : forall e e',
  wf e = true -> cast e (TData EMPTY) = OK e' -> ty_of e = TData EMPTY.
Proof.
  induction e; intros e' W HC; simpl in HC; unfold cast_intvalue in HC; simpl in HC;
    try (apply cast_plain_to_empty in HC; exact HC).
  simpl in W. apply andb_prop in W as [W A]. rewrite (IHe _ W HC) in A. discriminate.
Qed.

Lemma pair_is_snd : forall t new k, pair_is t new k = true -> snd (cast_map k) = new.
Proof.
  intros t new k H. unfold pair_is in H. apply andb_prop in H as [_ H].
  apply ty_eqb_eq in H. now symmetry.
Qed.

(** Each layer of cast builds a node of the type asked for, well formed if its argument is. *)
Lemma cast_tail_sound : forall e t new e',
  ty_of e = t -> cast_tail e t new = OK e' -> ty_of e' = new /\ (wf e = true -> wf e' = true).
Proof.
  intros e t new e' Ht H. unfold cast_tail in H.
  destruct (pair_is t new KStringToByteArray) eqn:P.
  - injection H as <-. apply pair_is_snd in P. auto.
  - destruct t as [|a []], new as [|b []]; try discriminate H.
    destruct (dty_beq a b) eqn:D; [|discriminate H]. injection H as <-.
    apply dty_beq_eq in D as ->. simpl. rewrite Ht. split; [reflexivity | now intros ->].
Qed.

Lemma cast_plain0_sound : forall e t new e',
  ty_of e = t -> cast_plain0 e t new = OK e' -> ty_of e' = new /\ (wf e = true -> wf e' = true).
Proof.
  intros e t new e' Ht H. unfold cast_plain0 in H.
  destruct (ty_eqb t new) eqn:E1.
  { injection H as <-. apply ty_eqb_eq in E1. split; [congruence | auto]. }
  destruct (pair_is t new KIntToByte) eqn:E2.
  { injection H as <-. apply pair_is_snd in E2. auto. }
  destruct (pair_is t new KByteToInt) eqn:E3.
  { injection H as <-. apply pair_is_snd in E3. auto. }
  eapply cast_tail_sound; eauto.
Qed.

Lemma cast_plain_sound : forall e t new e',
  ty_of e = t -> cast_plain e t new = OK e' -> ty_of e' = new /\ (wf e = true -> wf e' = true).
Proof.
  intros e t new e' Ht H. unfold cast_plain in H.
  destruct (ty_eqb t new) eqn:E1.
  { injection H as <-. apply ty_eqb_eq in E1. split; [congruence | auto]. }
  destruct (pair_is t new KIntToByte) eqn:E2.
  { injection H as <-. apply pair_is_snd in E2. auto. }
  destruct (pair_is t new KByteToInt) eqn:E3.
  { injection H as <-. apply pair_is_snd in E3. auto. }
  destruct (ty_eqb new (TData BOOL)) eqn:E4.
  { apply ty_eqb_eq in E4 as ->. destruct (is_str_or_arr t).
    - injection H as <-. auto.
    - destruct (cast_plain0 e t (TData INT)) as [x|] eqn:E; [|discriminate H]. injection H as <-.
      split; [reflexivity | apply (cast_plain0_sound e t (TData INT) x Ht E)]. }
  destruct (ty_eqb t (TData BOOL)).
  { apply (cast_plain0_sound (TCast KBoolToByte e) _ new e' eq_refl H). }
  eapply cast_tail_sound; eauto.
Qed.

Lemma cast_intvalue_sound : forall self d s c new imp e',
  cast_intvalue self d s c new imp = OK e' ->
  ty_of e' = new /\ (wf self = true -> wf e' = true).
Proof.
  intros self d s c new imp e' H. unfold cast_intvalue in H.
  destruct (ty_eqb new (TData BOOL)) eqn:E1.
  { injection H as <-. apply ty_eqb_eq in E1 as ->. auto. }
  destruct (ty_eqb new (TData BYTE)) eqn:E2.
  { injection H as <-. apply ty_eqb_eq in E2 as ->. auto. }
  destruct (ty_eqb new (TData INT)) eqn:E3.
  { injection H as <-. apply ty_eqb_eq in E3 as ->. auto. }
  apply (cast_plain_sound self _ new e' eq_refl H).
Qed.

Theorem cast_sound : forall e new e',
  cast e new = OK e' -> ty_of e' = new /\ (wf e = true -> wf e' = true).
Proof.
  induction e using texpr_ind'; intros new e' HC; simpl in HC;
    try (eapply cast_plain_sound; [reflexivity | exact HC]);
    try (eapply cast_intvalue_sound; exact HC).
  - (* TBool *)
    destruct (ty_eqb new (TData INT)) eqn:E1.
    { injection HC as <-. apply ty_eqb_eq in E1 as ->. auto. }
    destruct (ty_eqb new (TData BYTE)) eqn:E2.
    { injection HC as <-. apply ty_eqb_eq in E2 as ->. auto. }
    eapply cast_plain_sound; [reflexivity | exact HC].
  - (* TStr *)
    destruct (ty_eqb new (TData BOOL)) eqn:E1.
    { injection HC as <-. apply ty_eqb_eq in E1 as ->. auto. }
    eapply cast_plain_sound; [reflexivity | exact HC].
  - (* TArrLit: every element is cast to the new element type *)
    destruct new as [d|el' k']; [eapply cast_plain_sound; [reflexivity | exact HC]|].
    apply bind_ok in HC as (vs' & E & HC). injection HC as <-. split; [reflexivity|]. intros W. simpl. rewrite forallb_forall. intros y Hy.
    destruct (map_result_In _ _ _ E y Hy) as (x & Hx & Ex).
    destruct (wf_arrlit_elem _ _ _ x W Hx) as (Wx & _ & _ & NE).
    rewrite Forall_forall in H. destruct (H x Hx _ _ Ex) as [T Wy]. rewrite T, (Wy Wx).
    destruct el'; try reflexivity.
    (* nothing but an `empty`-typed element is cast to `empty`, and the literal has none *)
    destruct (NE (cast_to_empty x y Wx Ex)).
  - (* TVolatile *)
    apply IHe in HC as [T W]. split; [exact T|]. simpl. intros V.
    apply andb_prop in V as [V _]. auto.
Qed.

Lemma cast_wf : forall e new e', cast e new = OK e' -> wf e = true -> wf e' = true.
Proof. intros e new e' H. apply (cast_sound e new e' H). Qed.

Theorem coerce_sound : forall e new e',
  coerce e new = OK e' -> ty_of e' = new /\ (wf e = true -> wf e' = true).
Proof.
  intros e new e' H. unfold coerce in H. destruct (coercible e new); [|discriminate].
  destruct e; try (eapply cast_sound; exact H); eapply cast_intvalue_sound; exact H.
Qed.

Lemma coerce_type : forall e new e', coerce e new = OK e' -> ty_of e' = new.
Proof. intros e new e' H. apply (coerce_sound e new e' H). Qed.

Lemma coerce_wf : forall e new e', coerce e new = OK e' -> wf e = true -> wf e' = true.
Proof. intros e new e' H. apply (coerce_sound e new e' H). Qed.

(** ** Every step of elab_expr keeps the tree well formed *)

(** [res_all Q r]: the value of r, if there is one, satisfies Q.  A fact of this form about an
    elaborator is proved along the binds that build its result (res_all_bind), where a statement
    `... = OK t -> Q t` has to be inverted bind by bind. *)
Definition res_all {A} (Q : A -> Prop) (r : result A) : Prop :=
  match r with OK a => Q a | Err _ => True end.

Lemma res_all_intro : forall {A} (Q : A -> Prop) r, (forall a, r = OK a -> Q a) -> res_all Q r.
Proof. intros A Q [a|e] H; simpl; auto. Qed.

Lemma res_all_bind : forall {A B} (Q : A -> Prop) (R : B -> Prop) r (k : A -> result B),
  res_all Q r -> (forall a, Q a -> res_all R (k a)) -> res_all R (x <- r ;; k x).
Proof. intros A B Q R [a|e] k H K; simpl; auto. Qed.

Definition wfr : result texpr -> Prop := res_all (fun t => wf t = true).
Definition wfrs : result (list texpr) -> Prop := res_all (fun ts => forallb wf ts = true).

Lemma wfr_bind : forall r k, wfr r -> (forall a, wf a = true -> wfr (k a)) -> wfr (x <- r ;; k x).
Proof. intros r k. apply res_all_bind. Qed.

Lemma wfrs_bind : forall r k,
  wfrs r -> (forall l, forallb wf l = true -> wfr (k l)) -> wfr (x <- r ;; k x).
Proof. intros r k. apply res_all_bind. Qed.

Lemma wfr_ite : forall (c : bool) a b, wfr a -> wfr b -> wfr (if c then a else b).
Proof. intros []; auto. Qed.

Lemma wfr_err : forall e, wfr (Err e).
Proof. exact (fun _ => I). Qed.

Lemma wfr_ok : forall t, wf t = true -> wfr (OK t).
Proof. auto. Qed.

Lemma wfr_cast : forall e t, wf e = true -> wfr (cast e t).
Proof. intros e t W. apply res_all_intro. intros a E. exact (cast_wf _ _ _ E W). Qed.

Lemma wfr_coerce : forall e t, wf e = true -> wfr (coerce e t).
Proof. intros e t W. apply res_all_intro. intros a E. exact (coerce_wf _ _ _ E W). Qed.

Lemma wfrs_coerce_all : forall args ps, forallb wf args = true -> wfrs (coerce_all args ps).
Proof.
  induction args as [|a args IH]; intros [|p ps] W; try reflexivity.
  simpl in W. apply andb_prop in W as [W1 W2].
  apply (res_all_bind (fun t => wf t = true)); [now apply wfr_coerce | intros a' Wa].
  apply (res_all_bind (fun l => forallb wf l = true)); [now apply IH | intros l Wl].
  simpl. now rewrite Wa, Wl.
Qed.

Lemma wfr_arr_pick : forall vs cands seen, forallb wf vs = true -> wfr (arr_pick vs cands seen).
Proof.
  intros vs cands seen W. revert seen. induction cands as [|t tl IH]; intros seen; simpl; [exact I|].
  destruct (existsb (ty_eqb t) seen); [apply IH|].
  destruct t as [d|]; [|exact I].
  destruct (dty_beq d EMPTY) eqn:NE; [exact I|].
  destruct (forallb (fun v => coercible v (TData d)) vs) eqn:C; [|apply IH].
  simpl. rewrite forallb_forall in *. intros v Hv.
  rewrite (W v Hv). simpl.
  (* an element coercible to the scalar d <> empty is neither an array nor `empty`-typed *)
  destruct (ty_of v) as [dv|] eqn:T.
  - simpl. destruct (dty_beq dv EMPTY) eqn:EV; [|reflexivity].
    apply dty_beq_eq in EV as ->.
    rewrite (empty_not_coercible v d T (C v Hv)) in NE. discriminate.
  - pose proof (arr_not_coercible_scalar v d (W v Hv)) as A. rewrite T, (C v Hv) in A.
    discriminate (A eq_refl).
Qed.

Lemma wfr_arith2 : forall c l r s, wf l = true -> wf r = true -> wfr (simplify_arith2 c l r s).
Proof.
  intros c l r s Wl Wr. apply res_all_intro. intros te H.
  apply simplify_arith2_shape in H as [->|[v ->]]; simpl; [now rewrite Wl, Wr | reflexivity].
Qed.

Lemma wfr_arith1 : forall c a s, wf a = true -> wfr (simplify_arith1 c a s).
Proof.
  intros c a s W. apply res_all_intro. intros te H.
  apply simplify_arith1_shape in H as [->|[v ->]]; [exact W | reflexivity].
Qed.

Lemma wfr_bool2 : forall c l r, wf l = true -> wf r = true -> wfr (simplify_bool2 c l r).
Proof.
  intros c l r Wl Wr. unfold simplify_bool2.
  destruct (is_primitive l && is_primitive r); [|simpl; now rewrite Wl, Wr].
  destruct (prim_data l), (prim_data r); try exact I. destruct (lift_fold _); simpl; auto.
Qed.

Lemma wfr_bool1 : forall c a, wf a = true -> wfr (simplify_bool1 c a).
Proof.
  intros c a W. unfold simplify_bool1. destruct (is_primitive a); [|exact W].
  destruct (prim_data a); [|exact I]. destruct (lift_fold _); simpl; auto.
Qed.

Lemma wfrs_map : forall en es,
  Forall (fun e => forall en, wfr (elab_expr en e)) es -> wfrs (map_result (elab_expr en) es).
Proof.
  intros en es HF. apply res_all_intro. intros vs H. rewrite forallb_forall. intros y Hy.
  destruct (map_result_In _ _ _ H y Hy) as (x & Hx & Ex).
  rewrite Forall_forall in HF. specialize (HF x Hx en). rewrite Ex in HF. exact HF.
Qed.

(* Each hint reads: this step of elab_expr yields a well-formed tree from well-formed ones; the
   goals they are applied to are the syntax of elab_expr itself. *)
Local Hint Resolve wfr_bind wfr_ite wfr_err wfr_ok wfr_cast wfr_coerce
  wfr_arith1 wfr_arith2 wfr_bool1 wfr_bool2 : wfr.

Lemma elab_expr_wfr : forall e en, wfr (elab_expr en e).
Proof.
  fix IH 1. intros e en.
  destruct e as [n|n|b|s|x|es|e1 e2|e|f args|c e|c e1 e2|e t|e1 e2|t e]; simpl; auto 8 with wfr.
  - (* EVar: a substituted initialiser is a literal *)
    destruct (lookup_var en x) as [d|]; [|exact I].
    destruct (_ && is_primitive (d_init d)) eqn:C; [|reflexivity].
    apply andb_prop in C as [_ C]. destruct (d_init d); try discriminate C; reflexivity.
  - (* EArr *)
    assert (HF : Forall (fun e => forall en, wfr (elab_expr en e)) es)
      by (induction es; constructor; auto).
    destruct es as [|e0 es]; [reflexivity|].
    apply wfrs_bind; [now apply wfrs_map | intros vs W]. now apply wfr_arr_pick.
  - (* EIndex *)
    apply wfr_bind; [apply IH | intros s' W1]. apply wfr_ite; [exact I|].
    apply wfr_bind; [destruct s'; auto with wfr | intros s'' W2].
    apply wfr_bind; [apply IH | intros i' Wi]. apply wfr_bind; [auto with wfr | intros i'' Wi'].
    simpl. now rewrite W2, Wi'.
  - (* ECall *)
    assert (HF : Forall (fun e => forall en, wfr (elab_expr en e)) args)
      by (induction args; constructor; auto).
    apply wfrs_bind; [now apply wfrs_map | intros args' W].
    apply (res_all_bind (fun _ => True)); [now apply res_all_intro | intros s _].
    apply wfrs_bind; [now apply wfrs_coerce_all | auto].
  - (* EUn, EBin: one hint per bind, guard and final simplify_*, the operands by IH; a unary
       operator nests two binds, a binary one four and, for == and !=, a guard *)
    destruct (op_family c); auto 8 with wfr.
  - destruct (op_family c); auto 12 with wfr.
  - (* ESpec *)
    apply wfr_bind; [apply IH | intros l' Wl]. apply wfr_ite; [exact I|].
    apply wfr_bind; [apply IH | intros r' Wr]. apply wfr_bind; [auto with wfr | intros cr Wc].
    destruct (_ && _); simpl; [exact Wl | now rewrite Wl, Wc].
Qed.

Theorem elab_expr_wf : forall e en te, elab_expr en e = OK te -> wf te = true.
Proof. intros e en te H. pose proof (elab_expr_wfr e en) as W. rewrite H in W. exact W. Qed.

(** ** C07-3: statement-level soundness *)

Fixpoint stmt_all (P : tstmt -> bool) (s : tstmt) : bool :=
  P s &&
  match s with
  | TSBlock ss _ => forallb (stmt_all P) ss
  | TSIf b _ e => stmt_all P b && stmt_all P e
  | TSLoop b _ k => stmt_all P b && stmt_all P k
  | TSTry b _ h => stmt_all P b && stmt_all P h
  | TSPreempt b => stmt_all P b
  | _ => true
  end.

Lemma finish_decl_sound : forall en v i t en', finish_decl en v i = OK (t, en') ->
  e_ret en' = e_ret en /\ exists i', t = TSDecl v i' /\ (wf i = true -> wf i' = true).
Proof.
  intros en v i t en' H. unfold finish_decl in H.
  destruct (coerce i (v_type v)) as [ci|] eqn:E; [|discriminate].
  pose proof (coerce_wf _ _ _ E) as W.
  destruct ci; try discriminate H; injection H as <- <-; split; eauto;
    unfold add_decl; destruct (e_scopes en); reflexivity.
Qed.

Definition target_ok (l : texpr) : bool := is_assignable l && negb (lookup_const l).

Definition assign_ok (_ : option dty) (s : tstmt) : bool :=
  match s with TSAssign l _ | TSIncAssign l _ _ => target_ok l | _ => true end.

(** what target_ok says: the target is a non-const variable or an element of a non-const array
    (never an element of a string: ArrayLookup.const is True for strings) *)
Lemma target_ok_shape : forall l, target_ok l = true ->
  (exists v, l = TVar v /\ v_const v = false) \/
  (exists src i el, l = TIndex src i /\ ty_of src = TArr el false).
Proof.
  intros l H. unfold target_ok in H. apply andb_prop in H as [H1 H2]. apply negb_true_iff in H2.
  destruct l; simpl in H1; try discriminate.
  - left. eauto.
  - simpl in H2. destruct (ty_of l1) as [[]|el []] eqn:T; try discriminate.
    right. eauto 6.
Qed.

Definition return_ok (rt : option dty) (s : tstmt) : bool :=
  match s with
  | TSReturn (Some v) =>
      match rt with
      | Some d => negb (dty_beq d EMPTY) && ty_eqb (ty_of v) (TData d)
      | None => false
      end
  | TSReturn None => match rt with Some d => dty_beq d EMPTY | None => false end
  | _ => true
  end.

Definition stmt_exprs_wf (_ : option dty) (s : tstmt) : bool :=
  match s with
  | TSDecl _ i => wf i
  | TSAssign l r => wf l && wf r
  | TSIncAssign l r _ => wf l && wf r
  | TSReturn (Some v) => wf v
  | TSExpr e => wf e
  | TSIf _ c _ => wf c
  | TSLoop _ c _ => wf c
  | _ => true
  end.

Lemma elab_assign_sound : forall en l r mk p, elab_assign en l r mk = OK p ->
  target_ok (fst p) = true /\ wf (fst p) = true /\ wf (snd p) = true.
Proof.
  intros en l r mk p H. unfold elab_assign in H.
  apply bind_ok in H as (l' & El & H). apply guard_ok in H as [G H].
  apply bind_ok in H as (r' & Er & H). apply bind_ok in H as (cr & Ec & H). injection H as <-. simpl.
  apply orb_false_iff in G as [C1 C2]. apply negb_false_iff in C1.
  unfold target_ok. rewrite C1, C2. split; [reflexivity|]. eauto using elab_expr_wf, coerce_wf.
Qed.

Definition compound (s : tstmt) : bool :=
  match s with
  | TSDecl _ _ | TSAssign _ _ | TSIncAssign _ _ _ | TSReturn _ | TSBreak | TSContinue | TSExpr _ => false
  | _ => true
  end.

(** What elab_stmt establishes of the node it builds: the return type in force is unchanged, an
    assignment target is writable, a return matches the function's type, every expression is
    well formed, and only a compound statement gives a compound node. *)
Lemma elab_stmt_node : forall en s t en', elab_stmt en s = OK (t, en') ->
  e_ret en' = e_ret en /\ assign_ok (e_ret en) t = true /\ return_ok (e_ret en) t = true /\
  stmt_exprs_wf (e_ret en) t = true /\
  match s with
  | SBlock _ | SIf _ _ _ | SLoop _ _ _ | STry _ _ _ | SPreempt _ => True
  | _ => compound t = false
  end.
Proof.
  intros en s t en' H. destruct s; simpl in H; try (inv_res H; auto; fail).
  - (* SDecl *) inv_res H. apply finish_decl_sound in H as [R [i' [-> W]]].
    simpl. repeat split; eauto using elab_expr_wf.
  - (* SAssign *) apply bind_ok in H as (p & E & H). injection H as <- <-.
    apply elab_assign_sound in E as (T & A & B). simpl. now rewrite T, A, B.
  - (* SIncAssign *) apply bind_ok in H as (p & E & H). apply bind_ok in H as (r' & Er & H).
    injection H as <- <-. apply elab_assign_sound in E as (T & A & B). simpl.
    now rewrite T, A, (elab_expr_wf _ _ _ Er).
  - (* SReturn *)
    destruct (e_ret en) as [rt|] eqn:R; [|discriminate]. destruct val; apply guard_ok in H as [G H].
    + apply bind_ok in H as (v' & Ev & H). apply bind_ok in H as (cv & Ec & H). injection H as <- <-.
      apply coerce_sound in Ec as [T W]. simpl. rewrite G, T, ty_eqb_refl.
      repeat split; eauto using elab_expr_wf.
    + injection H as <- <-. apply negb_false_iff in G. simpl. auto.
  - (* SExpr *) inv_res H. simpl. repeat split; eauto using elab_expr_wf.
  - (* SIf *) inv_res H. simpl. repeat split; eauto using elab_expr_wf, cast_wf.
  - (* SLoop *) inv_res H. simpl. repeat split; eauto using elab_expr_wf, cast_wf.
Qed.

(** The properties of single checked statements (given the enclosing function's return type)
    that follow from what elab_stmt_node says; they are what holds throughout the checked tree
    of an accepted program.  Only return_ok looks at the return type: the other properties take it
    and ignore it, to be of the type asked here. *)
Definition from_node (P : option dty -> tstmt -> bool) : Prop :=
  forall rt t, assign_ok rt t = true -> return_ok rt t = true -> stmt_exprs_wf rt t = true ->
    P rt t = true.

Lemma elab_block_all : forall (P : tstmt -> bool) rt elab unreach ss,
  Forall (fun s => forall en t en', e_ret en = rt -> elab en s = OK (t, en') ->
                   stmt_all P t = true /\ e_ret en' = rt) ss ->
  forall en mode cont r, e_ret en = rt ->
    elab_block elab unreach ss en mode cont = OK r -> forallb (stmt_all P) (fst r) = true.
Proof.
  intros P rt elab unreach ss HF. induction HF as [|s ss Hs HF IH]; intros en mode cont r Hen H.
  - simpl in H. inversion H; subst. reflexivity.
  - simpl in H. destruct (negb (m_none mode) || cont).
    + destruct unreach; inversion H; subst; reflexivity.
    + destruct (elab en s) as [[t1 en1]|] eqn:E; [|discriminate]. simpl in H.
      destruct (Hs en t1 en1 Hen E) as [Ht1 Hen1].
      apply bind_ok in H as (rest & E2 & H).
      inversion H; subst. simpl. rewrite Ht1. simpl. eapply IH; [exact Hen1 | exact E2].
Qed.

Lemma stmt_all_leaf : forall P t, compound t = false -> stmt_all P t = P t.
Proof. intros P t H. destruct t; try discriminate H; apply andb_true_r. Qed.

(** The result is taken as a pair, so that the hypotheses for sub-statements apply to the
    intermediate results as elab_stmt binds them. *)
Theorem elab_stmt_all : forall P, from_node P ->
  forall s en r, elab_stmt en s = OK r -> stmt_all (P (e_ret en)) (fst r) = true.
Proof.
  intros P HP. fix IH 1. intros s en [t en'] HE.
  destruct (elab_stmt_node en s t en' HE) as (_ & A & R & W & Hleaf).
  pose proof (HP _ _ A R W) as Hloc.
  destruct s as [| | | | | | |ss| | | |]; simpl in HE |- *.
  1-7: now rewrite stmt_all_leaf.
  (* if, loop, try, preempt: the node by Hloc, its sub-statements by IH *)
  2-5: inv_res HE; simpl; rewrite Hloc; simpl; now erewrite !IH by eassumption.
  (* SBlock: the statements run in a child scope with the same return type *)
  assert (HF : Forall (fun s => forall en r, elab_stmt en s = OK r ->
                                 stmt_all (P (e_ret en)) (fst r) = true) ss)
    by (clear - IH; induction ss as [|a ss IHss]; constructor; [exact (IH a) | exact IHss]).
  apply bind_ok in HE as (r & Er & HE). injection HE as <- <-. simpl. rewrite Hloc. simpl.
  eapply (elab_block_all (P (e_ret en)) (e_ret en)); [| |exact Er]; [|reflexivity].
  rewrite Forall_forall in *. intros s Hin en0 t0 en0' Hr He.
  split; [|rewrite <- Hr; apply (elab_stmt_node _ _ _ _ He)].
  rewrite <- Hr. exact (HF s Hin _ _ He).
Qed.

Lemma bind_params_ret : forall ps en en1, bind_params en ps = OK en1 -> e_ret en1 = e_ret en.
Proof.
  induction ps as [|p ps IH]; intros en en1 H; simpl in H.
  - now inversion H.
  - destruct (redeclared en (v_name p)); [discriminate|].
    destruct (finish_decl en p (TParam p)) as [[t e2]|] eqn:E; [|discriminate]. simpl in H.
    apply IH in H. apply finish_decl_sound in E as [E _]. congruence.
Qed.

Lemma elab_func_all : forall P, from_node P ->
  forall en f tf, elab_func en f = OK tf ->
    stmt_all (P (Some (tf_ret tf))) (tf_body tf) = true.
Proof.
  intros P HL en f tf H. unfold elab_func in H.
  destruct (bind_params (child_env en (Some (fd_ret f))) (fd_params f)) as [en1|] eqn:B; [|discriminate].
  apply bind_params_ret in B. simpl in B.
  destruct (elab_stmt en1 (SBlock (fd_body f))) as [[t en2]|] eqn:E; [|discriminate].
  pose proof (elab_stmt_all P HL _ _ _ E) as A. rewrite B in A.
  simpl in H. destruct t; try discriminate.
  destruct (m_break mode); [discriminate|].
  destruct (m_defeat mode && negb (flavor_eqb (id_flavor (fd_name f)) FL_DEFEAT)); [discriminate|].
  destruct (m_none mode).
  - destruct (negb (dty_beq (fd_ret f) EMPTY)) eqn:R; [discriminate|].
    inversion H; subst. simpl.
    apply negb_false_iff in R. apply dty_beq_eq in R.
    simpl in A. apply andb_prop in A as [_ A].
    (* the body's block is rebuilt with `return;` appended: two nodes elab_stmt did not build *)
    rewrite (HL _ (TSBlock _ _)), forallb_app, A by reflexivity. simpl.
    rewrite R. now rewrite (HL (Some EMPTY) (TSReturn None)).
  - inversion H; subst. exact A.
Qed.

Definition funcs_all (P : option dty -> tstmt -> bool) (tp : tprogram) : bool :=
  forallb (fun tf => stmt_all (P (Some (tf_ret tf))) (tf_body tf)) (tp_funcs tp).

Lemma elab_funcs_all : forall P, from_node P ->
  forall fs en tfs, elab_funcs en fs = OK tfs ->
    forallb (fun tf => stmt_all (P (Some (tf_ret tf))) (tf_body tf)) tfs = true.
Proof.
  intros P HL. induction fs as [|f fs IH]; intros en tfs H; simpl in H.
  - injection H as <-. reflexivity.
  - apply bind_ok in H as (tf & E & H). apply bind_ok in H as (rest & Er & H). injection H as <-.
    simpl. rewrite (elab_func_all P HL _ _ _ E). eauto.
Qed.

Lemma elab_globals_all : forall P, from_node P ->
  forall ds en r, elab_globals en ds = OK r ->
    e_ret (snd r) = e_ret en /\ forallb (stmt_all (P (e_ret en))) (fst r) = true.
Proof.
  intros P HL. induction ds as [|d ds IH]; intros en r H; simpl in H.
  - inversion H; subst. split; reflexivity.
  - destruct (elab_stmt en d) as [[t en1]|] eqn:E; [|discriminate]. simpl in H.
    destruct (elab_globals en1 ds) as [rest|] eqn:E2; [|discriminate].
    inversion H; subst. simpl.
    destruct (elab_stmt_node _ _ _ _ E) as [R1 _].
    destruct (IH _ _ E2) as [R2 A]. rewrite R1 in *. split; [exact R2|].
    now rewrite (elab_stmt_all P HL _ _ _ E : stmt_all _ t = true).
Qed.

(** What elab_stmt establishes of every node holds of every statement of an accepted program:
    of the function bodies under their return types, of the global declarations under none. *)
Lemma elab_program_all : forall P, from_node P ->
  forall u p tp, elab_program u p = OK tp ->
    funcs_all P tp = true /\ forallb (stmt_all (P None)) (tp_vars tp) = true.
Proof.
  intros P HL u p tp H. unfold elab_program in H.
  apply bind_ok in H as (t1 & _ & H). apply bind_ok in H as (t2 & _ & H). cbv zeta in H.
  apply bind_ok in H as (g & Eg & H). apply bind_ok in H as (fs & Ef & H). injection H as <-.
  split; [exact (elab_funcs_all P HL _ _ _ Ef) | apply (elab_globals_all P HL _ _ _ Eg)].
Qed.

(** No accepted program assigns to a const variable or to an element of a const array:
    every assignment target in the checked tree is a non-const variable, an element of a
    non-const array. *)
Theorem no_assign_to_const : forall u p tp,
  elab_program u p = OK tp -> funcs_all assign_ok tp = true.
Proof.
  intros u p tp. apply elab_program_all. intros rt t A _ _. exact A.
Qed.

(** Every return statement of an accepted program matches its function's return type. *)
Theorem returns_match : forall u p tp,
  elab_program u p = OK tp -> funcs_all return_ok tp = true.
Proof.
  intros u p tp. apply elab_program_all. intros rt t _ R _. exact R.
Qed.

(** No accepted program assigns to an element of a string (`s[0] = 'c'`, `s[0] += 1`). *)
Definition not_string_target (_ : option dty) (s : tstmt) : bool :=
  match s with
  | TSAssign (TIndex src _) _ | TSIncAssign (TIndex src _) _ _ =>
      negb (ty_eqb (ty_of src) (TData STRING))
  | _ => true
  end.

Lemma target_ok_not_string : forall src i,
  target_ok (TIndex src i) = true -> negb (ty_eqb (ty_of src) (TData STRING)) = true.
Proof.
  intros src i H. unfold target_ok in H. apply andb_prop in H as [_ H]. apply negb_true_iff in H.
  simpl in H. destruct (ty_of src) as [[]|el k]; try reflexivity; discriminate.
Qed.

Theorem no_assign_to_string_element : forall u p tp,
  elab_program u p = OK tp -> funcs_all not_string_target tp = true.
Proof.
  intros u p tp. apply elab_program_all. intros rt s Hs _ _. destruct s; try reflexivity; simpl in *;
    destruct lhs; try reflexivity; now apply target_ok_not_string in Hs.
Qed.

(** The witnesses of F7 and F6 (DESIGN.md section 6): assignment to an element of a string; the
    length of an array of `empty`.  Both are rejected now: C07_former_defect_witnesses_rejected in
    Props/C07_types.v, by evaluation. *)
Definition f7_witness : program :=
  mkProgram []
    [mkFdecl EMPTY (mkId "f" FL_NONE) []
       [SDecl (mkVar "s" (TData STRING) false) (EStr "ab");
        SAssign (EIndex (EVar "s") (EInt 0)) (EChar 99)]].

Definition f6_witness : program :=
  mkProgram []
    [mkFdecl EMPTY (mkId "e" FL_NONE) [] [];
     mkFdecl EMPTY (mkId "f" FL_NONE) []
       [SExpr (ECall (mkId "write" FL_NONE) [ELen (EArr [ECall (mkId "e" FL_NONE) []])])]].

(** "nested ... arrays" are rejected: in every accepted program every array literal (anywhere
    in any expression) has an array type whose elements are scalar-typed expressions, the
    elements of a type-locked literal have exactly its element type, and a Volatile only ever
    wraps an array; no element of an array literal has type `empty` (see also
    no_empty_typed_arrays below). *)
Theorem no_nested_arrays : forall u p tp,
  elab_program u p = OK tp ->
  funcs_all stmt_exprs_wf tp = true /\ forallb (stmt_all (stmt_exprs_wf None)) (tp_vars tp) = true.
Proof.
  intros u p tp. apply elab_program_all. intros rt t _ _ W. exact W.
Qed.

(** "empty-typed arrays" are rejected: no array literal of an accepted program has an element
    of type `empty` (the literal `[]`, which has no elements, keeps the placeholder type
    `const empty[]` until it is coerced). *)
Fixpoint no_empty_elems (e : texpr) : bool :=
  match e with
  | TArrLit vs _ _ =>
      forallb (fun v => no_empty_elems v && negb (ty_eqb (ty_of v) (TData EMPTY))) vs
  | TIndex s i => no_empty_elems s && no_empty_elems i
  | TLen s => no_empty_elems s
  | TCall _ args _ => forallb no_empty_elems args
  | TCast _ x => no_empty_elems x
  | TVolatile x => no_empty_elems x
  | TUn _ x _ => no_empty_elems x
  | TBin _ l r _ => no_empty_elems l && no_empty_elems r
  | TSpec l r => no_empty_elems l && no_empty_elems r
  | TArrInit _ l => no_empty_elems l
  | _ => true
  end.

Lemma wf_no_empty_elems : forall e, wf e = true -> no_empty_elems e = true.
Proof.
  induction e using texpr_ind'; intros W; try reflexivity; try (now apply IHe);
    try (simpl in *; apply andb_prop in W as [W1 W2]; now rewrite IHe1, IHe2).
  - (* TArrLit *) simpl. rewrite forallb_forall. rewrite Forall_forall in H. intros v Hv.
    destruct (wf_arrlit_elem _ _ _ v W Hv) as (Wv & _ & _ & NE).
    rewrite (H v Hv Wv). destruct (ty_eqb (ty_of v) (TData EMPTY)) eqn:T; [|reflexivity].
    apply ty_eqb_eq in T. contradiction.
  - (* TCall *) simpl in *. rewrite forallb_forall in *. rewrite Forall_forall in H. auto.
  - (* TVolatile *) simpl in W. apply andb_prop in W as [W _]. now apply IHe.
Qed.

Definition stmt_exprs_no_empty (_ : option dty) (s : tstmt) : bool :=
  match s with
  | TSDecl _ i => no_empty_elems i
  | TSAssign l r => no_empty_elems l && no_empty_elems r
  | TSIncAssign l r _ => no_empty_elems l && no_empty_elems r
  | TSReturn (Some v) => no_empty_elems v
  | TSExpr e => no_empty_elems e
  | TSIf _ c _ => no_empty_elems c
  | TSLoop _ c _ => no_empty_elems c
  | _ => true
  end.

Theorem no_empty_typed_arrays : forall u p tp,
  elab_program u p = OK tp ->
  funcs_all stmt_exprs_no_empty tp = true /\
  forallb (stmt_all (stmt_exprs_no_empty None)) (tp_vars tp) = true.
Proof.
  intros u p tp. apply elab_program_all. intros rt s _ _ W. destruct s; simpl in *; try reflexivity;
    rewrite ?andb_true_iff in W; try (destruct val; [|reflexivity]);
    rewrite ?wf_no_empty_elems by tauto; reflexivity.
Qed.

(** ** coercible implies castable, for every well-formed expression *)

(** The classes that override cast only add cases in which it succeeds. *)
Lemma cast_extends_plain : forall e new, inherits_coercible e = true ->
  is_ok (cast_plain e (ty_of e) new) = true -> is_ok (cast e new) = true.
Proof.
  intros e new I H. destruct e; try discriminate I; try exact H; simpl; unfold cast_intvalue;
    repeat (destruct (ty_eqb new _); [reflexivity|]); exact H.
Qed.

Lemma cast_same_scalar_ok : forall e d,
  wf e = true -> ty_of e = TData d -> is_ok (cast e (TData d)) = true.
Proof.
  intros e d W T. destruct (inherits_coercible e) eqn:I.
  - apply cast_extends_plain; [exact I|]. unfold cast_plain. now rewrite T, ty_eqb_refl.
  - destruct e; try discriminate I; simpl in *; [subst t|]; discriminate.
Qed.

Theorem coercible_cast_ok : forall e new,
  wf e = true -> coercible e new = true -> is_ok (cast e new) = true.
Proof.
  induction e using texpr_ind'; intros new W C;
    (* a shrinkable node is int-typed, and cast_plain takes int to byte *)
    try (apply cast_extends_plain; [reflexivity|];
         rewrite coercible_inherited in C by reflexivity; apply orb_prop in C as [C|C];
         [now apply plain_coercible_castable|];
         apply andb_prop in C as [S B]; apply ty_eqb_eq in B as ->;
         now rewrite (shrinkable_node_int _ S)).
  - (* TArrLit *) simpl in C. destruct new as [d|el' k']; [discriminate|]. simpl.
    assert (I : is_ok (map_result (fun v => cast v (TData el')) vs) = true).
    { apply map_result_ok. intros x Hx.
      destruct (wf_arrlit_elem _ _ _ x W Hx) as (Wx & _ & L & _). destruct k.
      - (* type-locked: the elements already have the element type *)
        apply dty_beq_eq in C as <-. apply cast_same_scalar_ok; auto.
      - rewrite forallb_forall in C. rewrite Forall_forall in H. auto. }
    destruct (map_result (fun v => cast v (TData el')) vs); [reflexivity | discriminate].
  - (* TVolatile *) simpl in *. apply andb_prop in W as [W _]. now apply IHe.
Qed.

(** * The documented typing rules, written independently of the elaborator (SPECIFICATION)

    `wt_program` decides "the program follows the documented typing rules" (README "Types",
    "Arrays and strings", "Operators", property C07) on an abstract domain: no tree is built, no
    constant is evaluated.  It is the right-hand side of C07_full_statement.  It deliberately
    says nothing about control flow (missing return *statements*, unreachable code: C16). *)

Inductive aexp : Type :=
| AX (t : ty) (shr : bool)                        (* an expression of type t; shr: an int that is
                                                     still coercible to byte *)
| ALit (els : list aexp) (t : ty) (locked : bool) (* an array literal *)
| AVol (el : dty).                                (* `x is T[]` for a mutable array x *)

Definition a_type (a : aexp) : ty :=
  match a with AX t _ => t | ALit _ t _ => t | AVol el => TArr el true end.

Fixpoint a_coercible (a : aexp) (new : ty) : bool :=
  match a with
  | AX t shr => doc_coercible_ty t new || (shr && ty_eqb new (TData BYTE))
  | ALit els t locked =>
      match new with
      | TArr el' _ => if locked then dty_beq (el_of t) el'
                      else forallb (fun x => a_coercible x (TData el')) els
      | _ => false
      end
  | AVol el => match new with TArr el' _ => dty_beq el el' | _ => false end
  end.

Fixpoint a_castable (a : aexp) (new : ty) : bool :=
  match a with
  | AX t _ => doc_cast_ty t new
  | ALit els t _ =>
      match new with
      | TArr el' _ => forallb (fun x => a_castable x (TData el')) els
      | TData BOOL => true
      | _ => false
      end
  | AVol el => doc_cast_ty (TArr el false) new
  end.

(** the result of an explicit cast / of a successful coercion *)
Definition a_cast_result (a : aexp) (new : ty) : aexp :=
  match a, new with
  | ALit els _ _, TArr el' _ => ALit (map (fun _ => AX (TData el') false) els) new true
  | AX (TArr el false) _, TArr _ true => AVol el
  | AVol el, TArr _ false => AX (TArr el false) false
  | AVol el, TArr _ true => AVol el
  | AX (TData INT) shr, TData BYTE => AX new false
  | _, _ => AX new false
  end.

Record senv : Type := mkSenv {
  s_scopes : list (list (string * (ty * bool)));
  s_funcs : list fsig;
  s_ret : option dty }.

Fixpoint s_find1 (x : string) (s : list (string * (ty * bool))) : option (ty * bool) :=
  match s with
  | [] => None
  | (y, v) :: tl => if String.eqb x y then Some v else s_find1 x tl
  end.

Fixpoint s_find (x : string) (ss : list (list (string * (ty * bool)))) : option (ty * bool) :=
  match ss with
  | [] => None
  | s :: tl => match s_find1 x s with Some v => Some v | None => s_find x tl end
  end.

Fixpoint s_found_local (x : string) (ss : list (list (string * (ty * bool)))) : bool :=
  match ss with
  | [] | [_] => false
  | s :: tl => match s_find1 x s with Some _ => true | None => s_found_local x tl end
  end.

Definition s_push (e : senv) : senv := mkSenv ([] :: s_scopes e) (s_funcs e) (s_ret e).
Definition s_add (e : senv) (x : string) (t : ty) (c : bool) : senv :=
  match s_scopes e with
  | [] => mkSenv [[(x, (t, c))]] (s_funcs e) (s_ret e)
  | s :: tl => mkSenv (((x, (t, c)) :: s) :: tl) (s_funcs e) (s_ret e)
  end.

Fixpoint a_all_coercible (args : list aexp) (ps : list ty) : bool :=
  match args, ps with
  | [], [] => true
  | a :: args', p :: ps' => a_coercible a p && a_all_coercible args' ps'
  | _, _ => false
  end.

(** "bound to the overload with exactly matching parameter types if there is one, otherwise to
    the first declared overload every argument can be coerced to" *)
Definition s_resolve (decls : list fsig) (f : ident) (args : list aexp) : option fsig :=
  match find (exact_sig f (map a_type args)) decls with
  | Some s => Some s
  | None => find (fun s => ident_eqb f (f_id s) && a_all_coercible args (f_params s)) decls
  end.

Definition is_scalar_a (a : aexp) : bool := match a with AX (TData _) _ => true | _ => false end.

Fixpoint pick_elem_type (els : list aexp) (cands : list aexp) : option dty :=
  match cands with
  | [] => None
  | c :: tl =>
      match a_type c with
      | TData d => if forallb (fun x => a_coercible x (TData d)) els then Some d
                   else pick_elem_type els tl
      | _ => None
      end
  end.

Definition opt_bind {A B} (o : option A) (f : A -> option B) : option B :=
  match o with Some a => f a | None => None end.

Definition opt_map_all {A B} (f : A -> option B) : list A -> option (list B) :=
  fix go (l : list A) : option (list B) :=
    match l with
    | [] => Some []
    | x :: tl => opt_bind (f x) (fun x' => opt_bind (go tl) (fun tl' => Some (x' :: tl')))
    end.

Fixpoint wt_expr (e : senv) (x : expr) {struct x} : option aexp :=
  match x with
  | EInt _ => Some (AX (TData INT) true)          (* "Type: int, but coercible to byte" *)
  | EChar _ => Some (AX (TData BYTE) false)
  | EBool _ => Some (AX (TData BOOL) false)
  | EStr _ => Some (AX (TData STRING) false)
  | EVar n => opt_bind (s_find n (s_scopes e)) (fun v => Some (AX (fst v) false))
  | EArr es =>
      match es with
      | [] => Some (ALit [] (TArr EMPTY true) false)
      | _ =>
          opt_bind (opt_map_all (wt_expr e) es) (fun els =>
          if negb (forallb is_scalar_a els) then None                 (* nested arrays *)
          else opt_bind (pick_elem_type els els) (fun d =>
               if dty_beq d EMPTY then None                            (* empty-typed arrays *)
               else Some (ALit els (TArr d true) false)))
      end
  | EIndex s i =>
      opt_bind (wt_expr e s) (fun sa =>
      opt_bind (wt_expr e i) (fun ia =>
      if negb (a_coercible ia (TData INT)) then None else
      match a_type sa with
      | TData STRING => Some (AX (TData BYTE) false)
      | TArr el _ => if dty_beq el EMPTY then None else Some (AX (TData el) false)
      | _ => None
      end))
  | ELen s =>
      opt_bind (wt_expr e s) (fun sa =>
      if is_str_or_arr (a_type sa) then Some (AX (TData INT) false) else None)
  | ECall f args =>
      opt_bind (opt_map_all (wt_expr e) args) (fun args' =>
      opt_bind (s_resolve (s_funcs e) f args') (fun sg => Some (AX (TData (f_ret sg)) false)))
  | EUn c a =>
      opt_bind (wt_expr e a) (fun aa =>
      match op_family c with
      | FamUnArith => if a_coercible aa (TData INT)
                      then Some (AX (TData INT) (a_coercible aa (TData BYTE))) else None
      | FamUnLogic => if a_castable aa (TData BOOL) then Some (AX (TData BOOL) false) else None
      | _ => None
      end)
  | EBin c l r =>
      opt_bind (wt_expr e l) (fun la =>
      opt_bind (wt_expr e r) (fun ra =>
      match op_family c with
      | FamBinArith =>
          if a_coercible la (TData INT) && a_coercible ra (TData INT)
          then Some (AX (TData INT) (a_coercible la (TData BYTE) && a_coercible ra (TData BYTE)))
          else None
      | FamCompare =>
          if a_coercible la (TData INT) && a_coercible ra (TData INT)
          then Some (AX (TData BOOL) false) else None
      | FamEquality =>
          if (ty_eqb (a_type la) (TData BOOL) && ty_eqb (a_type ra) (TData BOOL))
             || (a_coercible la (TData INT) && a_coercible ra (TData INT))
          then Some (AX (TData BOOL) false) else None
      | FamBinLogic =>
          if a_castable la (TData BOOL) && a_castable ra (TData BOOL)
          then Some (AX (TData BOOL) false) else None
      | _ => None
      end))
  | EIs a t =>
      match a, t with
      | EArr ((_ :: _) as es), TArr el' _ =>
          (* "(array literal) is T[] - valid if all entries in the array literal can be cast
             to T" -- no common element type is required *)
          opt_bind (opt_map_all (wt_expr e) es) (fun els =>
          if forallb is_scalar_a els && forallb (fun x => a_castable x (TData el')) els
             && negb (dty_beq el' EMPTY)
          then Some (ALit (map (fun _ => AX (TData el') false) els) t true) else None)
      | _, _ =>
          opt_bind (wt_expr e a) (fun aa =>
          if a_castable aa t then Some (a_cast_result aa t) else None)
      end
  | ESpec l r =>
      opt_bind (wt_expr e l) (fun la =>
      opt_bind (wt_expr e r) (fun ra =>
      if spec_type_ok (a_type la) && a_coercible ra (a_type la)
      then Some (AX (a_type la) false) else None))
  | EArrInit t len =>
      opt_bind (wt_expr e len) (fun la =>
      if a_coercible la (TData INT) then Some (AX t false) else None)
  end.

(** a declaration `T x = init`: init coercible to T; a const array variable may not be bound to
    a mutable array (only to a literal or another const array) *)
Definition wt_init (v : var) (a : aexp) : bool :=
  a_coercible a (v_type v) &&
  match v_type v, a with
  | TArr _ true, AX (TArr _ false) _ => false
  | TArr _ true, AVol _ => false
  | _, _ => true
  end.

Definition s_redeclared (e : senv) (x : string) : bool :=
  match s_find x (s_scopes e) with
  | Some _ => (List.length (s_scopes e) <=? 1)%nat || s_found_local x (s_scopes e)
  | None => false
  end.

(** assignment target: a non-const scalar variable or an element of a mutable array *)
Definition wt_target (e : senv) (lhs : expr) : option ty :=
  match lhs with
  | EVar n =>
      opt_bind (s_find n (s_scopes e)) (fun v => if snd v then None else Some (fst v))
  | EIndex s i =>
      opt_bind (wt_expr e s) (fun sa =>
      opt_bind (wt_expr e i) (fun ia =>
      if negb (a_coercible ia (TData INT)) then None else
      match sa with
      | AX (TArr el false) _ => Some (TData el)
      | _ => None                      (* const arrays, literals, const views and STRINGS *)
      end))
  | _ => None
  end.

Definition wt_block (wt : senv -> stmt -> option senv) : list stmt -> senv -> bool :=
  fix go (ss : list stmt) (e : senv) : bool :=
    match ss with
    | [] => true
    | s :: tl => match wt e s with Some e' => go tl e' | None => false end
    end.

Fixpoint wt_stmt (e : senv) (s : stmt) {struct s} : option senv :=
  let ok (b : bool) := if b then Some e else None in
  match s with
  | SDecl v init =>
      if s_redeclared e (v_name v) then None else
      opt_bind (wt_expr e init) (fun a =>
      if wt_init v a then Some (s_add e (v_name v) (v_type v) (v_const v)) else None)
  | SAssign lhs rhs =>
      opt_bind (wt_target e lhs) (fun t =>
      opt_bind (wt_expr e rhs) (fun a => ok (a_coercible a t)))
  | SIncAssign lhs c rhs =>
      opt_bind (wt_target e lhs) (fun t =>
      opt_bind (wt_expr e (EBin c lhs rhs)) (fun a => ok (a_coercible a t)))
  | SReturn val =>
      match s_ret e, val with
      | Some rt, Some v =>
          if dty_beq rt EMPTY then None
          else opt_bind (wt_expr e v) (fun a => ok (a_coercible a (TData rt)))
      | Some rt, None => ok (dty_beq rt EMPTY)
      | None, _ => None
      end
  | SBreak | SContinue => Some e
  | SExpr x => opt_bind (wt_expr e x) (fun _ => Some e)
  | SBlock ss => ok (wt_block wt_stmt ss (s_push e))
  | SIf c b els =>
      opt_bind (wt_expr e c) (fun a =>
      if a_castable a (TData BOOL)
      then opt_bind (wt_stmt e b) (fun _ => opt_bind (wt_stmt e els) (fun _ => Some e)) else None)
  | SLoop b c k =>
      opt_bind (wt_expr e c) (fun a =>
      if a_castable a (TData BOOL)
      then opt_bind (wt_stmt e b) (fun _ => opt_bind (wt_stmt e k) (fun _ => Some e)) else None)
  | STry b _ h => opt_bind (wt_stmt e b) (fun _ => opt_bind (wt_stmt e h) (fun _ => Some e))
  | SPreempt b => opt_bind (wt_stmt e b) (fun _ => Some e)
  end.

Fixpoint no_dup_sigs (seen : list fsig) (fs : list fsig) : bool :=
  match fs with
  | [] => true
  | f :: tl => negb (existsb (exact_sig (f_id f) (f_params f)) seen) && no_dup_sigs (seen ++ [f]) tl
  end.

Fixpoint wt_params (e : senv) (ps : list var) : option senv :=
  match ps with
  | [] => Some e
  | p :: tl => if s_redeclared e (v_name p) then None
               else wt_params (s_add e (v_name p) (v_type p) (v_const p)) tl
  end.

Definition wt_func (e : senv) (f : fdecl) : bool :=
  match wt_params (mkSenv ([] :: s_scopes e) (s_funcs e) (Some (fd_ret f))) (fd_params f) with
  | Some e1 => wt_block wt_stmt (fd_body f) (s_push e1)
  | None => false
  end.

Fixpoint wt_globals (e : senv) (ds : list stmt) : option senv :=
  match ds with
  | [] => Some e
  | d :: tl => opt_bind (wt_stmt e d) (fun e' => wt_globals e' tl)
  end.

Definition wt_program (p : program) : bool :=
  let sigs := builtin_fsigs ++ map sig_of (p_funcs p) in
  no_dup_sigs [] sigs &&
  match wt_globals (mkSenv [[]] sigs None) (p_vars p) with
  | Some e => forallb (wt_func e) (p_funcs p)
  | None => false
  end.

(** C07, in full: the typechecker accepts exactly the programs that follow the documented
    rules, and binds every call as documented (overload_spec_stmt).  Control-flow rejections
    (missing return statement, unreachable statement with the option on) belong to C16 and are
    excluded by hypothesis. *)
Definition control_flow_error (e : err) : bool :=
  match e with EMissingReturnStatement | EUnreachable => true | _ => false end.

Definition C07_full_statement : Prop :=
  (forall u p,
     match elab_program u p with
     | OK _ => wt_program p = true
     | Err e => control_flow_error e = true \/ wt_program p = false
     end) /\
  overload_spec_stmt.

(** It does not hold of the code as it is.  With F6 and F7 fixed, the witness is the narrowing
    of an explicit-cast result: `byte x = true is int;` is accepted, because BoolValue.cast(INT)
    builds a *shrinkable* IntValue (the dataclass default), whereas the documented rule makes only
    numeric literals and arithmetic over byte-coercible operands coercible to byte (`1 is int`
    and `b is int` for a bool variable b are rejected).  Other departures of the same kind, all
    agreeing with the model: type errors in unreachable statements are never reported;
    `[2, s] is bool[]` is rejected although every entry can be cast; `byte x = 5 ?? 5`. *)
Definition narrowing_witness : program :=
  mkProgram []
    [mkFdecl EMPTY (mkId "t" FL_NONE) []
       [SDecl (mkVar "x" (TData BYTE) false) (EIs (EBool true) (TData INT))]].

Lemma narrowing_witness_facts :
  (exists tp, elab_program false narrowing_witness = OK tp) /\ wt_program narrowing_witness = false.
Proof. split; [eexists; vm_compute; reflexivity | vm_compute; reflexivity]. Qed.

Theorem C07_full_statement_refuted : ~ C07_full_statement.
Proof.
  intros [H _]. specialize (H false narrowing_witness).
  destruct narrowing_witness_facts as [[tp E] W]. rewrite E, W in H. discriminate.
Qed.

(** * C07_partial: the proved part of C07 *)

Definition C07_partial_stmt : Prop :=
  (* (1) the coercion lattice *)
  ((forall a b, coercible_plain a b = doc_coercible_ty a b) /\
   (forall e t, is_plain e = true -> coercible e t = coercible_plain (ty_of e) t) /\
   (forall c t, coercible (rep c) t = doc_coercible c t) /\
   (forall c, coercible (rep c) (ty_of (rep c)) = true) /\
   (forall c t, coercible (rep c) t = true -> exists e', cast (rep c) t = OK e') /\
   (forall e new, wf e = true -> coercible e new = true -> is_ok (cast e new) = true) /\
   (forall c a b, ty_of (rep c) = TData a -> coercible (rep c) (TData b) = true ->
                  a = b \/ (a = BYTE /\ b = INT) \/ (c = CIntLit true /\ b = BYTE)) /\
   (forall c a el k, ty_of (rep c) = TData a -> coercible (rep c) (TArr el k) = true ->
                     a = STRING /\ el = BYTE /\ k = true) /\
   (forall x y, coercible_plain (TArr x true) (TArr y false) = false) /\
   (forall x y k, coercible_plain (TArr x false) (TArr y k) = dty_beq x y) /\
   (forall b, coercible_plain (TData EMPTY) b = true -> b = TData EMPTY) /\
   (forall c, coercible (rep c) (TData EMPTY) = true -> c = CPlain (TData EMPTY)) /\
   (forall e b, is_plain e = true -> is_ok (cast e b) = doc_cast_ty (ty_of e) b)) /\
  (* (2) overload resolution *)
  overload_spec_stmt /\
  (* (3) soundness of the rejections, on the checked tree of every accepted program *)
  ((forall u p tp, elab_program u p = OK tp ->
      funcs_all assign_ok tp = true /\ funcs_all not_string_target tp = true /\
      funcs_all return_ok tp = true /\
      funcs_all stmt_exprs_wf tp = true /\
      forallb (stmt_all (stmt_exprs_wf None)) (tp_vars tp) = true /\
      funcs_all stmt_exprs_no_empty tp = true /\
      forallb (stmt_all (stmt_exprs_no_empty None)) (tp_vars tp) = true) /\
   (forall l, target_ok l = true ->
      (exists v, l = TVar v /\ v_const v = false) \/
      (exists src i el, l = TIndex src i /\ ty_of src = TArr el false)) /\
   (forall e, ty_of e = TData INT -> coercible e (TData BYTE) = true -> shrinkable_node e = true) /\
   (forall e el, denotes_const_array e = true -> coercible e (TArr el false) = false) /\
   (forall e new e', coerce e new = OK e' -> ty_of e' = new)) /\
  (* (4) arithmetic shrinkability *)
  ((forall en c l r te, op_family c = FamBinArith -> elab_expr en (EBin c l r) = OK te ->
      exists l' r', elab_expr en l = OK l' /\ elab_expr en r = OK r' /\
        coercible te (TData BYTE) = coercible l' (TData BYTE) && coercible r' (TData BYTE)) /\
   (forall en c a te, op_family c = FamUnArith -> elab_expr en (EUn c a) = OK te ->
      exists a', elab_expr en a = OK a' /\ coercible te (TData BYTE) = coercible a' (TData BYTE))).

Theorem C07_partial : C07_partial_stmt.
Proof.
  split; [|split; [exact overload_spec|split]].
  - exact (conj lattice_plain (conj coercible_of_plain (conj lattice_table (conj lattice_reflexive
      (conj lattice_cast_defined (conj coercible_cast_ok (conj only_scalar_coercions
      (conj scalar_to_array_only_string (conj never_const_to_mutable
      (conj mutable_to_const_same_element (conj never_from_empty (conj never_to_empty
      is_table_plain)))))))))))).
  - split; [|exact (conj target_ok_shape (conj no_implicit_narrowing
                      (conj const_array_not_to_mutable coerce_type)))].
    intros u p tp H.
    destruct (no_nested_arrays u p tp H), (no_empty_typed_arrays u p tp H).
    repeat split; eauto using no_assign_to_const, no_assign_to_string_element, returns_match.
  - exact (conj arith_shrinkable arith_shrinkable_unary).
Qed.

(** * The hypotheses of the implications above are satisfiable *)

Definition ex_decls : list fsig :=
  [mkSig (mkId "f" FL_NONE) [TData INT] INT; mkSig (mkId "f" FL_NONE) [TData BYTE] BYTE;
   mkSig (mkId "f" FL_NONE) [TArr INT true] BOOL].

Definition ex_program : program :=
  mkProgram [SDecl (mkVar "g" (TData INT) false) (EInt 3)]
    [mkFdecl INT (mkId "f" FL_NONE) [mkVar "b" (TData BYTE) false; mkVar "a" (TArr INT false) true]
       [SDecl (mkVar "y" (TData BYTE) false) (EBin OAdd (EBin OMul (EVar "b") (EInt 3)) (EInt 4));
        SAssign (EIndex (EVar "a") (EInt 0)) (EVar "y");
        SExpr (ECall (mkId "write" FL_NONE) [EArr [EVar "y"; EInt 1]]);
        SReturn (Some (EBin OAdd (EVar "g") (EVar "y")))]].

Lemma wt_accepts_example : wt_program ex_program = true.
Proof. vm_compute. reflexivity. Qed.

Lemma arith_hyps_example : exists te,
  op_family OAdd = FamBinArith /\
  elab_expr (mkEnv [[("b", mkDecl (mkVar "b" (TData BYTE) false) (TParam (mkVar "b" (TData BYTE) false)))]; []] [] None false)
            (EBin OAdd (EVar "b") (EInt 1)) = OK te /\ coercible te (TData BYTE) = true.
Proof. eexists. repeat split; vm_compute; reflexivity. Qed.

(* C16 -- control never runs off the end of a function.

   Hand model of hidc's exit analysis (hidc/ast/blocks.py: CodeBlock.evaluate with the
   `found_continue` quirk and statement dropping, exit_modes of every block class;
   hidc/ast/program.py: FuncDeclaration.evaluate) built ONLY from the regenerated definitions
   in Gen/GenExit.v, an independent nondeterministic big-step semantics of function bodies,
   and the proofs relating the two.  At the end, for C18: what the option unreachable_error
   (`--lint`) changes of all this.

   Abstraction.  Expressions are opaque.  A statement is one of
     plain          an expression statement / assignment / declaration without control effect
     opaque         the same, but its expression may not complete: it contains a nested call of
                    a defeat function (`x = !f();`) or may fault or calls a function that may
                    reach a terminal state.  hidc does not look inside expressions, so it treats
                    it exactly like `plain`.
     is_defeat      `!is_defeat();`
     all_is_win / all_is_broken
     call_defeat    a call statement `!f(...);` of a user defeat function: defeats or returns
     return         with/without a value; flag h: the value expression is opaque as above
     break, continue
   and blocks: code block, if/else, loop (while and desugared for; the `cont` of a for loop is
   at most one simple statement -- the grammar only allows a plain statement there), try with an
   undo or stop handler, preempt.  Conditions are abstracted to what hidc's constant folding
   leaves behind: a BoolValue true, a BoolValue false, or something else (`unknown`; `opaque`
   when the condition may itself defeat or fault).

   Outcome classes (what was chosen, and why):
     Normal |-> NONE, Break |-> BREAK, Return |-> RETURN, Defeat |-> DEFEAT, Terminal |-> LOOP,
     Continue |-> nothing.  hidc does not record `continue` in the mode at all (the generator's
     own comment says so); mapping Continue to NONE is refuted below
     (continue_as_NONE_refuted: `{ { continue; } return; }` has mode RETURN).  Continue is sound
     to ignore because a loop absorbs it and nothing else can observe it
     (no_escape: it cannot leave a loop-closed block, i.e. a function body the parser accepts). *)
From Coq Require Import Bool List.
From HidV Require Import GenExit.
Import ListNotations.

Inductive cond := CUnknown | CTrue | CFalse | COpaque.
Inductive simple := Plain | Opaque | IsDefeat | AllIsWin | AllIsBroken | CallDefeat.
Inductive atom :=
| ASimple (s : simple)
| AReturn (v h : bool)      (* v: has a value; h: the value expression is opaque *)
| ABreak
| AContinue.
Inductive handler := Undo | Stop.

Inductive block :=
| BCode (ss : stmts)
| BIf (c : cond) (t e : block)
| BLoop (c : cond) (body : block) (cont : option simple)
| BTry (body : block) (k : handler) (h : block)
| BPreempt (body : block)
with stmts :=
| SNil
| SAtom (a : atom) (r : stmts)
| SBlock (b : block) (r : stmts).

Scheme block_mut := Induction for block Sort Prop
  with stmts_mut := Induction for stmts Sort Prop.
Combined Scheme block_stmts_mutind from block_mut, stmts_mut.

(* which `case` patterns of CodeBlock.evaluate a statement matches *)
Definition matches (a : atom) (p : pat) : bool :=
  match a, p with
  | AReturn _ _, P_Return => true
  | ABreak, P_Break => true
  | AContinue, P_Continue => true
  | ASimple IsDefeat, P_is_defeat => true
  | ASimple IsDefeat, P_any_defeat_call => true
  | ASimple AllIsWin, P_all_is_win => true
  | ASimple AllIsBroken, P_all_is_broken => true
  | ASimple CallDefeat, P_any_defeat_call => true
  | _, _ => false
  end.
Definition matches_block (p : pat) : bool := match p with P_Block => true | _ => false end.

(* first matching arm, in source order; no arm: nothing changes *)
Fixpoint first_arm (test : pat -> bool) (arms : list (pat * (modes -> modes -> modes) * bool))
  : (modes -> modes -> modes) * bool :=
  match arms with
  | [] => ((fun mode _ => mode), false)
  | (p, f, c) :: r => if test p then (f, c) else first_arm test r
  end.

Definition atom_update (a : atom) (mode : modes) : modes :=
  fst (first_arm (matches a) evaluate_arms) mode NONE.
Definition atom_continue (a : atom) : bool := snd (first_arm (matches a) evaluate_arms).
Definition block_update (mode stmt_modes : modes) : modes :=
  fst (first_arm matches_block evaluate_arms) mode stmt_modes.
Definition block_continue : bool := snd (first_arm matches_block evaluate_arms).

Definition cond_is_true (c : cond) : bool := match c with CTrue => true | _ => false end.
Definition handler_modes (k : handler) (m : modes) : modes :=
  match k with Undo => undo_exit_modes m | Stop => stop_exit_modes m end.

(* CodeBlock.evaluate + exit_modes: the truncated block and its mode *)
Fixpoint analyse (b : block) : block * modes :=
  match b with
  | BCode ss =>
      let (ss', m) := analyse_stmts ss initial_mode initial_found_continue in (BCode ss', m)
  | BIf c t e =>
      let (t', mt) := analyse t in let (e', me) := analyse e in
      (BIf c t' e', if_exit_modes mt me)
  | BLoop c body cont =>
      let (body', mb) := analyse body in
      (BLoop c body' cont, loop_exit_modes mb (cond_is_true c))
  | BTry body k h =>
      let (body', mb) := analyse body in let (h', mh) := analyse h in
      (BTry body' k h', try_exit_modes mb (handler_modes k mh))
  | BPreempt body =>
      let (body', mb) := analyse body in (BPreempt body', preempt_exit_modes mb)
  end
with analyse_stmts (ss : stmts) (mode : modes) (fc : bool) : stmts * modes :=
  match ss with
  | SNil => (SNil, mode)
  | SAtom a r =>
      if loop_exit_guard mode fc then (SNil, mode) else
      let (r', m') := analyse_stmts r (atom_update a mode) (atom_continue a || fc) in
      (SAtom a r', m')
  | SBlock b r =>
      if loop_exit_guard mode fc then (SNil, mode) else
      let (b', mb) := analyse b in
      let (r', m') := analyse_stmts r (block_update mode mb) (block_continue || fc) in
      (SBlock b' r', m')
  end.

Definition modes_of (b : block) : modes := snd (analyse b).

(* the `cont` of a loop is evaluated as a CodeBlock of its own; its mode is never used *)
Definition cont_block (k : option simple) : block :=
  match k with None => BCode SNil | Some s => BCode (SAtom (ASimple s) SNil) end.

(* diagnostics raised while a body is evaluated, in evaluation order *)
Inductive ret_kind := RetEmpty | RetValue.
Definition ret_is_empty (r : ret_kind) : bool := match r with RetEmpty => true | RetValue => false end.

Inductive error :=
| ErrUnreachable            (* 'Unreachable statement' (only with option unreachable_error) *)
| ErrMissingReturnValue     (* `return;` in a function returning a value *)
| ErrUnexpectedReturnValue  (* `return e;` in a function returning empty *)
| ErrMissingReturn.         (* 'Missing return statement' *)

Definition atom_diag (ret : ret_kind) (a : atom) : list error :=
  match a, ret with
  | AReturn true _, RetEmpty => [ErrUnexpectedReturnValue]
  | AReturn false _, RetValue => [ErrMissingReturnValue]
  | _, _ => []
  end.

Fixpoint diags (ue : bool) (ret : ret_kind) (b : block) : list error :=
  match b with
  | BCode ss => diags_stmts ue ret ss initial_mode initial_found_continue
  | BIf _ t e => diags ue ret t ++ diags ue ret e
  | BLoop _ body _ => diags ue ret body
  | BTry body _ h => diags ue ret body ++ diags ue ret h
  | BPreempt body => diags ue ret body
  end
with diags_stmts (ue : bool) (ret : ret_kind) (ss : stmts) (mode : modes) (fc : bool) : list error :=
  match ss with
  | SNil => []
  | SAtom a r =>
      if loop_exit_guard mode fc then (if ue then [ErrUnreachable] else []) else
      atom_diag ret a ++ diags_stmts ue ret r (atom_update a mode) (atom_continue a || fc)
  | SBlock b r =>
      if loop_exit_guard mode fc then (if ue then [ErrUnreachable] else []) else
      diags ue ret b ++ diags_stmts ue ret r (block_update mode (snd (analyse b))) (block_continue || fc)
  end.

Fixpoint app_stmts (a b : stmts) : stmts :=
  match a with
  | SNil => b
  | SAtom x r => SAtom x (app_stmts r b)
  | SBlock x r => SBlock x (app_stmts r b)
  end.

(* FuncDeclaration.evaluate *)
Inductive verdict :=
| Accepted (body : stmts) (m : modes)
| Rejected (e : error)
| AssertionFailed.

Definition elab_func (ue is_defeat_func : bool) (ret : ret_kind) (body : stmts) : verdict :=
  match diags ue ret (BCode body) with
  | e :: _ => Rejected e
  | [] =>
      let (ss, m) := analyse_stmts body initial_mode initial_found_continue in
      let re := ret_is_empty ret in
      if negb (func_assert_1 m re is_defeat_func) then AssertionFailed else
      if negb (func_assert_2 m re is_defeat_func) then AssertionFailed else
      if func_needs_fixup m re is_defeat_func then
        if func_missing_return m re is_defeat_func then Rejected ErrMissingReturn
        else Accepted (app_stmts ss (SAtom (AReturn false false) SNil)) (func_fixup_modes m)
      else Accepted ss m
  end.

(* pre-order listing of every block of an (already analysed) tree with its mode; used by the
   correspondence check only.  tag: 0 code (with its statement count), 1 if, 2 loop, 3 try,
   4 undo, 5 stop, 6 preempt *)
Fixpoint stmts_len (ss : stmts) : nat :=
  match ss with SNil => 0 | SAtom _ r => S (stmts_len r) | SBlock _ r => S (stmts_len r) end.

Fixpoint survey (b : block) : list (nat * nat * modes) :=
  match b with
  | BCode ss => (0, stmts_len ss, snd (analyse b)) :: survey_stmts ss
  | BIf _ t e => (1, 0, snd (analyse b)) :: survey t ++ survey e
  | BLoop _ body k =>
      (2, 0, snd (analyse b)) :: survey body
        ++ [(0, stmts_len (match cont_block k with BCode ss => ss | _ => SNil end), snd (analyse (cont_block k)))]
  | BTry body k h =>
      (3, 0, snd (analyse b)) :: survey body
        ++ (match k with Undo => 4 | Stop => 5 end, 0, handler_modes k (snd (analyse h))) :: survey h
  | BPreempt body => (6, 0, snd (analyse b)) :: survey body
  end
with survey_stmts (ss : stmts) : list (nat * nat * modes) :=
  match ss with
  | SNil => []
  | SAtom _ r => survey_stmts r
  | SBlock b r => survey b ++ survey_stmts r
  end.

Inductive outcome := Normal | Break | Continue | Return (v : bool) | Defeat | Terminal.

Inductive exec_simple : simple -> outcome -> Prop :=
| XS_plain : exec_simple Plain Normal
| XS_opaque_ok : exec_simple Opaque Normal
| XS_opaque_defeat : exec_simple Opaque Defeat
| XS_opaque_fault : exec_simple Opaque Terminal
| XS_is_defeat : exec_simple IsDefeat Defeat
| XS_win : exec_simple AllIsWin Terminal
| XS_broken : exec_simple AllIsBroken Terminal
| XS_call_returns : exec_simple CallDefeat Normal
| XS_call_defeats : exec_simple CallDefeat Defeat.

Inductive exec_atom : atom -> outcome -> Prop :=
| XA_simple s o : exec_simple s o -> exec_atom (ASimple s) o
| XA_return v h : exec_atom (AReturn v h) (Return v)
| XA_return_defeat v : exec_atom (AReturn v true) Defeat
| XA_return_fault v : exec_atom (AReturn v true) Terminal
| XA_break : exec_atom ABreak Break
| XA_continue : exec_atom AContinue Continue.

(* a condition may evaluate to this boolean *)
Definition cond_may (c : cond) (v : bool) : Prop :=
  match c with CUnknown | COpaque => True | CTrue => v = true | CFalse => v = false end.
(* evaluating the condition itself may end the execution *)
Definition cond_abort (c : cond) (o : outcome) : Prop :=
  c = COpaque /\ (o = Defeat \/ o = Terminal).

Definition exec_cont (k : option simple) (o : outcome) : Prop :=
  match k with None => o = Normal | Some s => exec_simple s o end.

Definition goes_on (o : outcome) : Prop := o = Normal \/ o = Continue.
Definition abrupt (o : outcome) : Prop := (exists v, o = Return v) \/ o = Defeat \/ o = Terminal.

(* terminating executions only (inductive big-step): a diverging run has no outcome *)
Inductive exec : block -> outcome -> Prop :=
| X_code ss o : exec_stmts ss o -> exec (BCode ss) o
| X_if_abort c t e o : cond_abort c o -> exec (BIf c t e) o
| X_if_true c t e o : cond_may c true -> exec t o -> exec (BIf c t e) o
| X_if_false c t e o : cond_may c false -> exec e o -> exec (BIf c t e) o
| X_loop_exit c body k : cond_may c false -> exec (BLoop c body k) Normal
| X_loop_abort c body k o : cond_abort c o -> exec (BLoop c body k) o
| X_loop_break c body k : cond_may c true -> exec body Break -> exec (BLoop c body k) Normal
| X_loop_abrupt c body k o :
    cond_may c true -> exec body o -> abrupt o -> exec (BLoop c body k) o
| X_loop_cont_abrupt c body k o1 o :
    cond_may c true -> exec body o1 -> goes_on o1 -> exec_cont k o -> o <> Normal ->
    exec (BLoop c body k) o
| X_loop_next c body k o1 o :
    cond_may c true -> exec body o1 -> goes_on o1 -> exec_cont k Normal ->
    exec (BLoop c body k) o -> exec (BLoop c body k) o
| X_try_pass body k h o : exec body o -> o <> Defeat -> exec (BTry body k h) o
| X_try_handle body k h o : exec body Defeat -> exec h o -> exec (BTry body k h) o
| X_preempt_skip body : exec (BPreempt body) Normal
| X_preempt_run body o : exec body o -> exec (BPreempt body) o
with exec_stmts : stmts -> outcome -> Prop :=
| X_nil : exec_stmts SNil Normal
| X_atom_stop a r o : exec_atom a o -> o <> Normal -> exec_stmts (SAtom a r) o
| X_atom_next a r o : exec_atom a Normal -> exec_stmts r o -> exec_stmts (SAtom a r) o
| X_block_stop b r o : exec b o -> o <> Normal -> exec_stmts (SBlock b r) o
| X_block_next b r o : exec b Normal -> exec_stmts r o -> exec_stmts (SBlock b r) o.

Definition class_of (o : outcome) : option flag :=
  match o with
  | Normal => Some F_NONE
  | Break => Some F_BREAK
  | Continue => None
  | Return _ => Some F_RETURN
  | Defeat => Some F_DEFEAT
  | Terminal => Some F_LOOP
  end.

Definition covers (m : modes) (o : outcome) : Prop :=
  match class_of o with Some f => has f m = true | None => True end.

(* outcomes hidc always tracks; Defeat and Terminal are tracked only where they are visible *)
Definition core (o : outcome) : Prop :=
  match o with Defeat | Terminal => False | _ => True end.

Definition quiet (k : option simple) : bool :=
  match k with None | Some Plain => true | _ => false end.
Definition visible_atom (a : atom) : bool :=
  match a with ASimple Opaque => false | AReturn _ true => false | _ => true end.
Definition visible_cond (c : cond) : bool := match c with COpaque => false | _ => true end.

(* no defeat / terminal source is hidden from the analysis: no opaque statement, return value or
   condition, and the `cont` of every loop is absent or plain *)
Fixpoint visible (b : block) : bool :=
  match b with
  | BCode ss => visible_stmts ss
  | BIf c t e => visible_cond c && visible t && visible e
  | BLoop c body k => visible_cond c && visible body && quiet k
  | BTry body _ h => visible body && visible h
  | BPreempt body => visible body
  end
with visible_stmts (ss : stmts) : bool :=
  match ss with
  | SNil => true
  | SAtom a r => visible_atom a && visible_stmts r
  | SBlock b r => visible b && visible_stmts r
  end.

(* break / continue only inside loops (what the parser enforces) *)
Fixpoint closed_in (inl : bool) (b : block) : bool :=
  match b with
  | BCode ss => closed_stmts inl ss
  | BIf _ t e => closed_in inl t && closed_in inl e
  | BLoop _ body _ => closed_in true body
  | BTry body _ h => closed_in inl body && closed_in inl h
  | BPreempt body => closed_in inl body
  end
with closed_stmts (inl : bool) (ss : stmts) : bool :=
  match ss with
  | SNil => true
  | SAtom a r => (match a with ABreak | AContinue => inl | _ => true end) && closed_stmts inl r
  | SBlock b r => closed_in inl b && closed_stmts inl r
  end.

Lemma has_or f a b : has f (m_or a b) = has f a || has f b.
Proof. destruct f; reflexivity. Qed.
Lemma has_and f a b : has f (m_and a b) = has f a && has f b.
Proof. destruct f; reflexivity. Qed.
Lemma has_not f a : has f (m_not a) = negb (has f a).
Proof. destruct f; reflexivity. Qed.
Lemma has_replace f s o n : has f (replace s o n) = (has f s && negb (has f o)) || has f n.
Proof. unfold replace. rewrite has_or, has_and, has_not. reflexivity. Qed.
Definition flag_eqb (f g : flag) : bool :=
  match f, g with
  | F_NONE, F_NONE | F_BREAK, F_BREAK | F_LOOP, F_LOOP | F_DEFEAT, F_DEFEAT | F_RETURN, F_RETURN => true
  | _, _ => false
  end.
Lemma has_single f g : has f (single g) = flag_eqb f g.
Proof. destruct f, g; reflexivity. Qed.
Lemma flag_eqb_eq f g : flag_eqb f g = true <-> f = g.
Proof. destruct f, g; simpl; split; congruence. Qed.
Lemma m_in_single f m : m_in (single f) m = has f m.
Proof.
  destruct m as [n b l d r].
  destruct f; [destruct n | destruct b | destruct l | destruct d | destruct r]; reflexivity.
Qed.
Lemma guard_spec m fc : loop_exit_guard m fc = negb (has F_NONE m) || fc.
Proof. unfold loop_exit_guard. change NONE with (single F_NONE). rewrite m_in_single. reflexivity. Qed.
Lemma guard_false m fc : loop_exit_guard m fc = false <-> has F_NONE m = true /\ fc = false.
Proof. rewrite guard_spec. destruct (has F_NONE m), fc; simpl; intuition discriminate. Qed.

(* the arms, as computed from the regenerated list *)
Lemma block_update_spec m mb : block_update m mb = replace m NONE mb.
Proof. reflexivity. Qed.
Lemma block_continue_spec : block_continue = false.
Proof. reflexivity. Qed.
Lemma atom_update_spec a m :
  atom_update a m =
  match a with
  | AReturn _ _ => replace m NONE RETURN
  | ABreak => replace m NONE BREAK
  | ASimple IsDefeat => replace m NONE DEFEAT
  | ASimple AllIsWin | ASimple AllIsBroken => replace m NONE LOOP
  | ASimple CallDefeat => m_or m DEFEAT
  | AContinue | ASimple Plain | ASimple Opaque => m
  end.
Proof. destruct a as [[]| | |]; reflexivity. Qed.
Lemma atom_continue_spec a : atom_continue a = match a with AContinue => true | _ => false end.
Proof. destruct a as [[]| | |]; reflexivity. Qed.

Lemma loop_exit_modes_spec mb ct :
  loop_exit_modes mb ct =
  if has F_BREAK mb || negb ct then replace mb BREAK NONE else replace mb NONE LOOP.
Proof.
  unfold loop_exit_modes. change BREAK with (single F_BREAK) at 1. rewrite m_in_single.
  destruct (has F_BREAK mb), ct; reflexivity.
Qed.

Arguments has : simpl never.
Arguments atom_update : simpl never.
Arguments block_update : simpl never.

(* The mode does not depend on what is dropped, so `analyse` splits into two structural
   functions; the proofs below are about these. *)
Fixpoint exits (b : block) : modes :=
  match b with
  | BCode ss => exits_stmts ss initial_mode initial_found_continue
  | BIf _ t e => if_exit_modes (exits t) (exits e)
  | BLoop c body _ => loop_exit_modes (exits body) (cond_is_true c)
  | BTry body k h => try_exit_modes (exits body) (handler_modes k (exits h))
  | BPreempt body => preempt_exit_modes (exits body)
  end
with exits_stmts (ss : stmts) (mode : modes) (fc : bool) : modes :=
  match ss with
  | SNil => mode
  | SAtom a r =>
      if loop_exit_guard mode fc then mode
      else exits_stmts r (atom_update a mode) (atom_continue a || fc)
  | SBlock b r =>
      if loop_exit_guard mode fc then mode
      else exits_stmts r (block_update mode (exits b)) (block_continue || fc)
  end.

Fixpoint trunc (b : block) : block :=
  match b with
  | BCode ss => BCode (trunc_stmts ss initial_mode initial_found_continue)
  | BIf c t e => BIf c (trunc t) (trunc e)
  | BLoop c body k => BLoop c (trunc body) k
  | BTry body k h => BTry (trunc body) k (trunc h)
  | BPreempt body => BPreempt (trunc body)
  end
with trunc_stmts (ss : stmts) (mode : modes) (fc : bool) : stmts :=
  match ss with
  | SNil => SNil
  | SAtom a r =>
      if loop_exit_guard mode fc then SNil
      else SAtom a (trunc_stmts r (atom_update a mode) (atom_continue a || fc))
  | SBlock b r =>
      if loop_exit_guard mode fc then SNil
      else SBlock (trunc b) (trunc_stmts r (block_update mode (exits b)) (block_continue || fc))
  end.

Lemma analyse_split :
  (forall b, analyse b = (trunc b, exits b)) /\
  (forall ss m fc, analyse_stmts ss m fc = (trunc_stmts ss m fc, exits_stmts ss m fc)).
Proof.
  apply block_stmts_mutind; simpl.
  - intros ss IH. rewrite IH. reflexivity.
  - intros c t IHt e IHe. rewrite IHt, IHe. reflexivity.
  - intros c b IHb k. rewrite IHb. reflexivity.
  - intros b IHb k h IHh. rewrite IHb, IHh. reflexivity.
  - intros b IHb. rewrite IHb. reflexivity.
  - reflexivity.
  - intros a r IH m fc. rewrite IH. destruct (loop_exit_guard m fc); reflexivity.
  - intros b IHb r IHr m fc. rewrite IHb, IHr. destruct (loop_exit_guard m fc); reflexivity.
Qed.

Lemma analyse_eq b b' m : analyse b = (b', m) -> b' = trunc b /\ m = exits b.
Proof. rewrite (proj1 analyse_split). intros [= <- <-]. auto. Qed.
Lemma modes_of_exits b : modes_of b = exits b.
Proof. unfold modes_of. rewrite (proj1 analyse_split). reflexivity. Qed.

Lemma covers_core_class o m f :
  class_of o = Some f -> has f m = true -> covers m o.
Proof. unfold covers. intros ->. auto. Qed.

Lemma covers_or m1 m2 o : covers m1 o \/ covers m2 o -> covers (m_or m1 m2) o.
Proof.
  unfold covers. destruct (class_of o); [|trivial].
  rewrite has_or. intros [-> | ->]; [reflexivity | apply orb_true_r].
Qed.
Lemma covers_new s old n o : covers n o -> covers (replace s old n) o.
Proof. intros H. apply covers_or. right. exact H. Qed.
(* `replace` takes away at most the one flag *)
Lemma covers_kept g s n o : class_of o <> Some g -> covers s o -> covers (replace s (single g) n) o.
Proof.
  unfold covers. destruct (class_of o) as [f|]; [|trivial]. intros Hf H.
  rewrite has_replace, H, has_single.
  destruct (flag_eqb f g) eqn:E; [|reflexivity]. apply flag_eqb_eq in E. congruence.
Qed.

Lemma covers_loop_exit mb : covers (loop_exit_modes mb false) Normal.
Proof. rewrite loop_exit_modes_spec, orb_true_r. apply covers_new. reflexivity. Qed.
Lemma covers_loop_break mb ct : covers mb Break -> covers (loop_exit_modes mb ct) Normal.
Proof.
  unfold covers at 1. simpl. intros H. rewrite loop_exit_modes_spec, H. apply covers_new. reflexivity.
Qed.
Lemma covers_loop_abrupt mb ct o : abrupt o -> covers mb o -> covers (loop_exit_modes mb ct) o.
Proof.
  intros A H. rewrite loop_exit_modes_spec.
  destruct (has F_BREAK mb || negb ct); apply covers_kept; try exact H;
    destruct A as [[v ->]|[-> | ->]]; discriminate.
Qed.

(* once an outcome other than Normal is accounted for, it stays so to the end of the block:
   the updates take away NONE only *)
Lemma covers_exits_stmts r o : o <> Normal -> forall m fc, covers m o -> covers (exits_stmts r m fc) o.
Proof.
  intros Hn. assert (C : class_of o <> Some F_NONE) by (destruct o; simpl; congruence).
  induction r as [|a r IH|b r IH]; intros m fc H; simpl;
    [exact H | destruct (loop_exit_guard m fc); [exact H | apply IH] ..].
  - rewrite atom_update_spec.
    destruct a as [[]| | |]; try exact H; try (apply covers_kept; assumption).
    apply covers_or. left. exact H.
  - rewrite block_update_spec. apply covers_kept; assumption.
Qed.

Lemma exec_simple_outcomes s o : exec_simple s o -> o = Normal \/ o = Defeat \/ o = Terminal.
Proof. destruct 1; auto. Qed.
Lemma exec_cont_outcomes k o : exec_cont k o -> o = Normal \/ o = Defeat \/ o = Terminal.
Proof. destruct k; simpl; [apply exec_simple_outcomes | auto]. Qed.
Lemma cond_abort_outcomes c o : cond_abort c o -> o = Defeat \/ o = Terminal.
Proof. intros [_ H]. exact H. Qed.

(* o is an outcome the analysis is held to: one it always tracks, or any when nothing is hidden *)
Definition ok (o : outcome) (v : bool) : Prop := core o \/ v = true.

Lemma ok_and o v w : ok o (v && w) -> ok o v /\ ok o w.
Proof. unfold ok. rewrite andb_true_iff. tauto. Qed.

Lemma cond_abort_not_ok c o : cond_abort c o -> ok o (visible_cond c) -> False.
Proof.
  intros [-> Ho] [Hc|Hv]; [destruct Ho as [-> | ->]; exact Hc | discriminate Hv].
Qed.
Lemma exec_cont_ok k o : exec_cont k o -> ok o (quiet k) -> o = Normal.
Proof.
  destruct k as [s|]; simpl; [|auto].
  destruct 1; intros [C|Q]; try reflexivity; try contradiction C; discriminate Q.
Qed.

Lemma atom_sound a o m :
  exec_atom a o -> ok o (visible_atom a) -> covers m Normal -> covers (atom_update a m) o.
Proof.
  intros H Hok Hm. rewrite atom_update_spec.
  (* Rule by rule, the flag of the outcome is the one atom_update puts in: a statement that
     completes leaves NONE in place; `return`, `break`, `!is_defeat()` and the two all_is_* calls put
     theirs in its stead; a defeat call adds DEFEAT; `continue` has no class.  The Defeat and
     Terminal outcomes of an opaque statement or return value belong to an atom that is not
     visible, which `ok` rules out. *)
  destruct H as [s o Hs|v h|v|v| |]; [destruct Hs|..]; cbv iota;
    try exact Hm; try exact I; try (apply covers_new; reflexivity);
    try (apply covers_or; auto; right; reflexivity);
    destruct Hok as [C|V]; try contradiction C; discriminate V.
Qed.

(* after a statement that completes normally the rest of the block is still analysed *)
Lemma atom_next_guard a m fc :
  loop_exit_guard m fc = false -> exec_atom a Normal ->
  loop_exit_guard (atom_update a m) (atom_continue a || fc) = false.
Proof.
  rewrite !guard_false. intros [Hm ->] H. split.
  - apply (atom_sound a Normal m H (or_introl I) Hm).
  - rewrite atom_continue_spec. inversion H; reflexivity.
Qed.
Lemma block_next_guard m mb fc :
  loop_exit_guard m fc = false -> covers mb Normal ->
  loop_exit_guard (block_update m mb) (block_continue || fc) = false.
Proof.
  rewrite !guard_false. intros [_ ->] H. split; [|reflexivity].
  apply (covers_new m NONE mb Normal H).
Qed.

Scheme exec_rule := Minimality for exec Sort Prop
  with exec_stmts_rule := Minimality for exec_stmts Sort Prop.
Combined Scheme exec_mutind from exec_rule, exec_stmts_rule.

(* By induction on the execution, of the source block: a statement sequence that starts with
   the guard open keeps it open as long as it runs, so no statement that runs is dropped.
   The cases come in the order of the rules of `exec` and `exec_stmts`. *)
Theorem sound_mutual :
  (forall b o, exec b o -> ok o (visible b) -> covers (exits b) o) /\
  (forall ss o, exec_stmts ss o -> forall m fc, loop_exit_guard m fc = false ->
     ok o (visible_stmts ss) -> covers (exits_stmts ss m fc) o).
Proof.
  apply exec_mutind; simpl.
  - intros ss o _ IH V. apply IH; [reflexivity | exact V].
  - intros c t e o A [[Vc _]%ok_and _]%ok_and. destruct (cond_abort_not_ok c o A Vc).
  - intros c t e o _ _ IH [[_ Vt]%ok_and _]%ok_and. apply covers_or. auto.
  - intros c t e o _ _ IH [_ Ve]%ok_and. apply covers_or. auto.
  - (* the six rules for loops *)
    intros c body k F _. destruct c; try discriminate F; apply covers_loop_exit.
  - intros c body k o A [[Vc _]%ok_and _]%ok_and. destruct (cond_abort_not_ok c o A Vc).
  - intros c body k _ _ IH _. apply covers_loop_break, IH. left. exact I.
  - intros c body k o _ _ IH A [[_ Vb]%ok_and _]%ok_and. apply covers_loop_abrupt; auto.
  - intros c body k o1 o _ _ _ _ K Hn [_ Vk]%ok_and. destruct (Hn (exec_cont_ok k o K Vk)).
  - intros c body k o1 o _ _ _ _ _ _ IH. exact IH.
  - intros body k h o _ IH Hn [Vb _]%ok_and.
    apply covers_kept; [destruct o; simpl; congruence | auto].
  - intros body k h o _ _ _ IH [_ Vh]%ok_and. apply covers_new. destruct k; auto.
  - intros body _. apply covers_or. right. reflexivity.
  - intros body o _ IH V. apply covers_or. auto.
  - (* sequences *)
    intros m fc G _. apply guard_false in G. apply G.
  - intros a r o H Hn m fc G [Va _]%ok_and.
    rewrite G. apply guard_false in G. apply covers_exits_stmts; [exact Hn|].
    apply atom_sound; [exact H | exact Va | apply G].
  - intros a r o H _ IH m fc G [_ Vr]%ok_and.
    rewrite G. apply IH; [apply atom_next_guard; assumption | exact Vr].
  - intros b r o _ IH Hn m fc G [Vb _]%ok_and.
    rewrite G. apply covers_exits_stmts; [exact Hn|]. apply covers_new; auto.
  - intros b r o _ IHb _ IHr m fc G [_ Vr]%ok_and.
    rewrite G. apply IHr; [|exact Vr]. apply block_next_guard; [exact G|]. apply IHb. left. exact I.
Qed.

(* each construct runs its parts only through their executions *)
Lemma exec_code_mono ss ss' :
  (forall o, exec_stmts ss o -> exec_stmts ss' o) -> forall o, exec (BCode ss) o -> exec (BCode ss') o.
Proof. intros Hs o H. inversion H; subst. constructor. auto. Qed.
Lemma exec_if_mono c t t' e e' :
  (forall o, exec t o -> exec t' o) -> (forall o, exec e o -> exec e' o) ->
  forall o, exec (BIf c t e) o -> exec (BIf c t' e') o.
Proof.
  intros Ht He o H.
  inversion H; subst; [apply X_if_abort | apply X_if_true | apply X_if_false]; auto.
Qed.
Lemma exec_loop_mono c b b' k :
  (forall o, exec b o -> exec b' o) -> forall o, exec (BLoop c b k) o -> exec (BLoop c b' k) o.
Proof.
  intros Hb o H. remember (BLoop c b k) as L eqn:EL.
  induction H; inversion EL; subst; clear EL.
  - apply X_loop_exit; assumption.
  - apply X_loop_abort; assumption.
  - apply X_loop_break; auto.
  - apply X_loop_abrupt; auto.
  - eapply X_loop_cont_abrupt; eauto.
  - eapply X_loop_next; eauto.
Qed.
Lemma exec_try_mono b b' k h h' :
  (forall o, exec b o -> exec b' o) -> (forall o, exec h o -> exec h' o) ->
  forall o, exec (BTry b k h) o -> exec (BTry b' k h') o.
Proof. intros Hb Hh o H. inversion H; subst; [apply X_try_pass | apply X_try_handle]; auto. Qed.
Lemma exec_preempt_mono b b' :
  (forall o, exec b o -> exec b' o) -> forall o, exec (BPreempt b) o -> exec (BPreempt b') o.
Proof. intros Hb o H. inversion H; subst; [apply X_preempt_skip | apply X_preempt_run]; auto. Qed.
(* the rest of a sequence matters only if its head completes normally *)
Lemma exec_atom_mono a r r' :
  (exec_atom a Normal -> forall o, exec_stmts r o -> exec_stmts r' o) ->
  forall o, exec_stmts (SAtom a r) o -> exec_stmts (SAtom a r') o.
Proof. intros Hr o H. inversion H; subst; [apply X_atom_stop | apply X_atom_next]; auto. Qed.
Lemma exec_block_mono b b' r r' :
  (forall o, exec b o -> exec b' o) ->
  (exec b Normal -> forall o, exec_stmts r o -> exec_stmts r' o) ->
  forall o, exec_stmts (SBlock b r) o -> exec_stmts (SBlock b' r') o.
Proof. intros Hb Hr o H. inversion H; subst; [apply X_block_stop | apply X_block_next]; auto. Qed.

Theorem dead_mutual :
  (forall b o, exec b o <-> exec (trunc b) o) /\
  (forall ss m fc o, loop_exit_guard m fc = false ->
     (exec_stmts ss o <-> exec_stmts (trunc_stmts ss m fc) o)).
Proof.
  apply block_stmts_mutind; simpl.
  - intros ss IH o. split; apply exec_code_mono; intros x; apply IH; reflexivity.
  - intros c t IHt e IHe o. split; apply exec_if_mono; intros x; first [apply IHt | apply IHe].
  - intros c b IHb k o. split; apply exec_loop_mono; intros x; apply IHb.
  - intros b IHb k h IHh o. split; apply exec_try_mono; intros x; first [apply IHb | apply IHh].
  - intros b IHb o. split; apply exec_preempt_mono; intros x; apply IHb.
  - tauto.
  - intros a r IH m fc o G. rewrite G.
    split; apply exec_atom_mono; intros N x; apply IH, atom_next_guard; assumption.
  - intros b IHb r IHr m fc o G. rewrite G.
    assert (GN : exec b Normal ->
                 loop_exit_guard (block_update m (exits b)) (block_continue || fc) = false).
    { intros N. apply block_next_guard; [exact G|]. apply (proj1 sound_mutual); [exact N | left; exact I]. }
    split; apply exec_block_mono; try (intros x; apply IHb); intros N x; apply IHr, GN;
      [exact N | apply IHb; exact N].
Qed.

(* The statements hidc drops (after a point whose mode lacks NONE, or after `continue`)
   can never run: the truncated block has exactly the executions of the original one. *)
Theorem dropped_is_dead : forall b b' m,
  analyse b = (b', m) -> forall o, exec b o <-> exec b' o.
Proof.
  intros b b' m E o. destruct (analyse_eq _ _ _ E) as [-> _]. apply (proj1 dead_mutual).
Qed.

Theorem analyse_idem_mutual :
  (forall b, trunc (trunc b) = trunc b /\ exits (trunc b) = exits b) /\
  (forall ss m fc, trunc_stmts (trunc_stmts ss m fc) m fc = trunc_stmts ss m fc /\
                   exits_stmts (trunc_stmts ss m fc) m fc = exits_stmts ss m fc).
Proof.
  apply block_stmts_mutind; simpl.
  - intros ss IH. destruct (IH initial_mode initial_found_continue) as [-> ->]. auto.
  - intros c t [-> ->] e [-> ->]. auto.
  - intros c b [-> ->] k. auto.
  - intros b [-> ->] k h [-> ->]. auto.
  - intros b [-> ->]. auto.
  - auto.
  - intros a r IH m fc. destruct (loop_exit_guard m fc) eqn:G; simpl; rewrite ?G; [auto|].
    destruct (IH (atom_update a m) (atom_continue a || fc)%bool) as [-> ->]. auto.
  - intros b IHb r IH m fc. destruct (loop_exit_guard m fc) eqn:G; simpl; rewrite ?G; [auto|].
    destruct IHb as [-> ->].
    destruct (IH (block_update m (exits b)) fc) as [-> ->]. auto.
Qed.

Theorem analyse_idem : forall b, analyse (fst (analyse b)) = analyse b.
Proof.
  intros b. rewrite (proj1 analyse_split b). simpl. rewrite (proj1 analyse_split (trunc b)).
  destruct (proj1 analyse_idem_mutual b) as [-> ->]. reflexivity.
Qed.

(* All classes of outcome, when no defeat / terminal source is hidden from the analysis. *)
Theorem exit_modes_sound : forall b b' m o,
  analyse b = (b', m) -> visible b' = true -> exec b' o -> covers m o.
Proof.
  intros b b' m o E V H. apply analyse_eq in E. destruct E as [-> ->].
  rewrite <- (proj2 (proj1 analyse_idem_mutual b)).
  apply (proj1 sound_mutual); [assumption | right; assumption].
Qed.

(* Judged by the visibility of the source instead.  That asks more (truncation hides nothing:
   visible b gives visible (trunc b)), so this is the weaker statement; it is reached without that
   fact, because the dropped statements do not run. *)
Lemma analysed_sound b b' m o :
  analyse b = (b', m) -> exec b' o -> ok o (visible b) -> covers m o.
Proof.
  intros E H. apply (dropped_is_dead _ _ _ E) in H.
  apply analyse_eq in E. destruct E as [-> ->]. apply (proj1 sound_mutual), H.
Qed.

Corollary exit_modes_sound_src : forall b b' m o,
  analyse b = (b', m) -> visible b = true -> exec b' o -> covers m o.
Proof. intros b b' m o E V H. apply (analysed_sound _ _ _ _ E H). right. exact V. Qed.

(* Unconditionally: Normal, Break and Return are always accounted for -- whatever is
   hidden inside expressions or in the `cont` of a for loop. *)
Theorem exit_modes_sound_core : forall b b' m o,
  analyse b = (b', m) -> exec b' o -> core o -> covers m o.
Proof. intros b b' m o E H C. apply (analysed_sound _ _ _ _ E H). left. exact C. Qed.

(* the corollary C16 is about: a block whose mode lacks NONE never completes normally *)
Corollary no_NONE_never_completes : forall b b' m,
  analyse b = (b', m) -> has F_NONE m = false -> ~ exec b' Normal.
Proof.
  intros b b' m E Hn H. pose proof (exit_modes_sound_core _ _ _ _ E H I) as C.
  unfold covers in C; simpl in C. congruence.
Qed.

(* Without the visibility condition the DEFEAT and LOOP classes are not sound: the `cont` of a
   for loop is evaluated but its mode is thrown away.
     for (;; !is_defeat()) { }     has mode LOOP         and ends in defeat
     for (; c; all_is_win()) { }   has mode NONE         and ends in a terminal state *)
Definition for_cont_defeat : block := BLoop CTrue (BCode SNil) (Some IsDefeat).
Definition for_cont_win : block := BLoop CUnknown (BCode SNil) (Some AllIsWin).

Theorem exit_modes_sound_refuted :
  (exists b b' m, analyse b = (b', m) /\ exec b' Defeat /\ ~ covers m Defeat) /\
  (exists b b' m, analyse b = (b', m) /\ exec b' Terminal /\ ~ covers m Terminal).
Proof.
  split.
  - exists for_cont_defeat, for_cont_defeat, LOOP. split; [reflexivity|]. split.
    + eapply X_loop_cont_abrupt with (o1 := Normal).
      * reflexivity.
      * constructor. constructor.
      * left; reflexivity.
      * simpl. constructor.
      * discriminate.
    + unfold covers; simpl. discriminate.
  - exists for_cont_win, for_cont_win, NONE. split; [reflexivity|]. split.
    + eapply X_loop_cont_abrupt with (o1 := Normal).
      * exact I.
      * constructor. constructor.
      * left; reflexivity.
      * simpl. constructor.
      * discriminate.
    + unfold covers; simpl. discriminate.
Qed.

(* Mapping Continue to NONE (as a first reading of "hidc keeps NONE in the mode after continue"
   suggests) is refuted: { { continue; } return; } *)
Definition continue_then_return : block :=
  BCode (SBlock (BCode (SAtom AContinue SNil)) (SAtom (AReturn false false) SNil)).

Theorem continue_as_NONE_refuted :
  exists b b' m, analyse b = (b', m) /\ visible b' = true /\ exec b' Continue /\ has F_NONE m = false.
Proof.
  exists continue_then_return, continue_then_return, RETURN.
  split; [reflexivity|]. split; [reflexivity|]. split; [|reflexivity].
  constructor. apply X_block_stop; [|discriminate].
  constructor. apply X_atom_stop; [constructor | discriminate].
Qed.

Definition escapes (o : outcome) : bool := match o with Break | Continue => true | _ => false end.

(* a loop never passes them on, so what its body may contain does not matter *)
Theorem no_escape_mutual :
  (forall b o, exec b o -> escapes o = true -> closed_in false b = false) /\
  (forall ss o, exec_stmts ss o -> escapes o = true -> closed_stmts false ss = false).
Proof.
  apply exec_mutind; simpl; try discriminate.
  - intros ss o _ IH. exact IH.
  - intros c t e o A. destruct (cond_abort_outcomes c o A) as [-> | ->]; discriminate.
  - intros c t e o _ _ IH E. rewrite (IH E). reflexivity.
  - intros c t e o _ _ IH E. rewrite (IH E). apply andb_false_r.
  - intros c body k o A. destruct (cond_abort_outcomes c o A) as [-> | ->]; discriminate.
  - intros c body k o _ _ _ [[v ->]|[-> | ->]]; discriminate.
  - intros c body k o1 o _ _ _ _ K. destruct (exec_cont_outcomes k o K) as [->|[->| ->]]; discriminate.
  - intros c body k o1 o _ _ _ _ _ _ IH. exact IH.
  - intros body k h o _ IH _ E. rewrite (IH E). reflexivity.
  - intros body k h o _ _ _ IH E. rewrite (IH E). apply andb_false_r.
  - intros body o _ IH. exact IH.
  - intros a r o H _ E. destruct H as [s o Hs| | | | |]; try discriminate E; try reflexivity.
    destruct (exec_simple_outcomes s o Hs) as [->|[->| ->]]; discriminate E.
  - intros a r o _ _ IH E. rewrite (IH E). apply andb_false_r.
  - intros b r o _ IH _ E. rewrite (IH E). reflexivity.
  - intros b r o _ _ _ IH E. rewrite (IH E). apply andb_false_r.
Qed.

(* a function body the parser accepts never ends in Break or Continue *)
Corollary no_escape : forall ss o,
  closed_stmts false ss = true -> exec_stmts ss o -> o <> Break /\ o <> Continue.
Proof.
  intros ss o C H.
  split; intros ->; rewrite (proj2 no_escape_mutual ss _ H eq_refl) in C; discriminate C.
Qed.

Lemma exec_app a : forall b o,
  exec_stmts (app_stmts a b) o ->
  (exec_stmts a o /\ o <> Normal) \/ (exec_stmts a Normal /\ exec_stmts b o).
Proof.
  induction a as [|x r IH|x r IH]; intros b o H; simpl in H.
  - right. split; [constructor | assumption].
  - inversion H as [|? ? ? Hx Hn|? ? ? Hx Hr| |]; subst.
    + left. split; [apply X_atom_stop|]; assumption.
    + destruct (IH _ _ Hr) as [[? ?]|[? ?]]; [left | right];
        (split; [apply X_atom_next|]; assumption).
  - inversion H as [| | |? ? ? Hx Hn|? ? ? Hx Hr]; subst.
    + left. split; [apply X_block_stop|]; assumption.
    + destruct (IH _ _ Hr) as [[? ?]|[? ?]]; [left | right];
        (split; [apply X_block_next|]; assumption).
Qed.

(* FuncDeclaration.evaluate in terms of the flags of the body's mode *)
Lemma elab_func_spec ue d ret body :
  elab_func ue d ret body =
  match diags ue ret (BCode body) with
  | e :: _ => Rejected e
  | [] =>
      let ss := trunc_stmts body initial_mode initial_found_continue in
      let m := exits_stmts body initial_mode initial_found_continue in
      if has F_BREAK m || has F_DEFEAT m && negb d then AssertionFailed
      else if has F_NONE m then
        if ret_is_empty ret
        then Accepted (app_stmts ss (SAtom (AReturn false false) SNil)) (func_fixup_modes m)
        else Rejected ErrMissingReturn
      else Accepted ss m
  end.
Proof.
  unfold elab_func. rewrite (proj2 analyse_split).
  unfold func_assert_1, func_assert_2, func_needs_fixup, func_missing_return.
  rewrite (m_in_single F_BREAK), (m_in_single F_DEFEAT), (m_in_single F_NONE).
  destruct (diags ue ret (BCode body)); [|reflexivity]. cbv zeta.
  destruct (has F_BREAK _), (has F_DEFEAT _), d, (has F_NONE _), (ret_is_empty ret); reflexivity.
Qed.

Lemma elab_accepted_inv ue d ret body ss m :
  elab_func ue d ret body = Accepted ss m ->
  let ss0 := trunc_stmts body initial_mode initial_found_continue in
  let m0 := exits_stmts body initial_mode initial_found_continue in
  diags ue ret (BCode body) = [] /\
  ((has F_NONE m0 = false /\ ss = ss0 /\ m = m0) \/
   (has F_NONE m0 = true /\ ret = RetEmpty /\
    ss = app_stmts ss0 (SAtom (AReturn false false) SNil) /\ m = func_fixup_modes m0)).
Proof.
  rewrite elab_func_spec. destruct (diags ue ret (BCode body)); [|discriminate]. cbv zeta.
  destruct (_ || _); [discriminate|]. destruct (has F_NONE _).
  - destruct ret; [|discriminate]. intros [= <- <-]. auto 6.
  - intros [= <- <-]. auto.
Qed.

(* what runs in an accepted function: the source body, not to its end, or the inserted return *)
Lemma accepted_runs ue d ret body ss m o :
  elab_func ue d ret body = Accepted ss m -> exec_stmts ss o ->
  (exec_stmts body o /\ o <> Normal) \/ (ret = RetEmpty /\ o = Return false).
Proof.
  intros E H. apply elab_accepted_inv in E. cbv zeta in E.
  assert (D := proj2 dead_mutual body initial_mode initial_found_continue).
  destruct E as [_ [(HN & -> & _)|(_ & -> & -> & _)]].
  - left. apply D in H; [|reflexivity]. split; [exact H|]. intros ->.
    pose proof (proj1 sound_mutual _ _ (X_code _ _ H) (or_introl I)) as S.
    unfold covers in S; simpl in S. congruence.
  - apply exec_app in H. destruct H as [[H Hn]|[_ H]].
    + left. split; [apply D in H; [exact H | reflexivity] | exact Hn].
    + right. split; [reflexivity|].
      inversion H as [|? ? ? Ha _|? ? ? Ha _| |]; inversion Ha; reflexivity.
Qed.

(* In an accepted function no terminating execution of the final body (after the implicit
   return has been inserted) ends by running off its end, nor by a stray break/continue: it
   returns, is defeated, or enters a terminal state.  The mode recorded for the final body
   lacks NONE -- which is what makes the generator omit any fall-through code. *)
Theorem body_never_completes : forall ue d ret body ss m,
  elab_func ue d ret body = Accepted ss m ->
  has F_NONE m = false /\
  (closed_stmts false body = true -> forall o, exec_stmts ss o -> abrupt o).
Proof.
  intros ue d ret body ss m E. split.
  - apply elab_accepted_inv in E. destruct E as [_ [(HN & _ & ->)|(HN & _ & _ & ->)]]; [exact HN|].
    unfold func_fixup_modes. rewrite has_replace, HN. reflexivity.
  - intros C o H. destruct (accepted_runs _ _ _ _ _ _ _ E H) as [[Hb Hn]|[_ ->]]; [|left; eauto].
    destruct (no_escape _ _ C Hb). unfold abrupt. destruct o; try congruence; eauto.
Qed.

(* a value-returning function whose body may complete is never accepted ... *)
Theorem missing_return_rejected : forall ue d body,
  has F_NONE (modes_of (BCode body)) = true ->
  forall ss m, elab_func ue d RetValue body <> Accepted ss m.
Proof.
  intros ue d body HN ss m E. apply elab_accepted_inv in E. cbv zeta in E.
  rewrite modes_of_exits in HN. simpl in HN.
  destruct E as [_ [(HN' & _)|(_ & R & _)]]; [congruence | discriminate].
Qed.

(* ... and, when nothing else is wrong with it, the error is 'Missing return statement' *)
Theorem missing_return_exact : forall ue d body,
  diags ue RetValue (BCode body) = [] ->
  has F_BREAK (modes_of (BCode body)) = false ->
  (has F_DEFEAT (modes_of (BCode body)) = true -> d = true) ->
  has F_NONE (modes_of (BCode body)) = true ->
  elab_func ue d RetValue body = Rejected ErrMissingReturn.
Proof.
  intros ue d body D. rewrite modes_of_exits, elab_func_spec, D. simpl. intros -> HD ->.
  destruct (has F_DEFEAT _); [rewrite HD|]; reflexivity.
Qed.

(* conversely an `empty` function is never rejected for a missing return *)
Lemma diags_no_missing ue ret :
  (forall b, ~ In ErrMissingReturn (diags ue ret b)) /\
  (forall ss m fc, ~ In ErrMissingReturn (diags_stmts ue ret ss m fc)).
Proof.
  apply block_stmts_mutind.
  - intros ss IH. simpl. apply IH.
  - intros c t IHt e IHe. simpl. rewrite in_app_iff. tauto.
  - intros c b IHb k. simpl. exact IHb.
  - intros b IHb k h IHh. simpl. rewrite in_app_iff. tauto.
  - intros b IHb. simpl. exact IHb.
  - intros m fc. simpl. tauto.
  - intros a r IH m fc. simpl. destruct (loop_exit_guard m fc).
    + destruct ue; simpl; intuition discriminate.
    + rewrite in_app_iff. intros [X|X]; [|exact (IH _ _ X)].
      destruct a as [s|[] hh| |], ret; simpl in X; intuition discriminate.
  - intros b IHb r IHr m fc. simpl. destruct (loop_exit_guard m fc).
    + destruct ue; simpl; intuition discriminate.
    + rewrite in_app_iff. intros [X|X]; [exact (IHb X) | exact (IHr _ _ X)].
Qed.

Theorem empty_never_missing_return : forall ue d body,
  elab_func ue d RetEmpty body <> Rejected ErrMissingReturn.
Proof.
  intros ue d body. rewrite elab_func_spec.
  destruct (diags ue RetEmpty (BCode body)) as [|e l] eqn:D.
  - simpl. destruct (_ || _); [discriminate|]. destruct (has F_NONE _); discriminate.
  - intros [= ->]. apply (proj1 (diags_no_missing ue RetEmpty) (BCode body)).
    rewrite D. left. reflexivity.
Qed.

(* "returns with a value, for non-empty functions" *)
Definition ret_ok (ret : ret_kind) (o : outcome) : Prop :=
  match o with Return v => v = negb (ret_is_empty ret) | _ => True end.

Theorem return_kind_mutual :
  (forall b o, exec b o -> forall ue ret, diags ue ret b = [] -> ret_ok ret o) /\
  (forall ss o, exec_stmts ss o -> forall ue ret m fc, loop_exit_guard m fc = false ->
     diags_stmts ue ret ss m fc = [] -> ret_ok ret o).
Proof.
  apply exec_mutind; simpl; try (intros; exact I).
  - intros ss o _ IH ue ret D. apply (IH ue ret initial_mode initial_found_continue eq_refl D).
  - intros c t e o A. destruct (cond_abort_outcomes c o A) as [-> | ->]; intros; exact I.
  - intros c t e o _ _ IH ue ret D. apply app_eq_nil in D. apply (IH ue), D.
  - intros c t e o _ _ IH ue ret D. apply app_eq_nil in D. apply (IH ue), D.
  - intros c body k o A. destruct (cond_abort_outcomes c o A) as [-> | ->]; intros; exact I.
  - intros c body k o _ _ IH _. exact IH.
  - intros c body k o1 o _ _ _ _ K. destruct (exec_cont_outcomes k o K) as [->|[->| ->]]; intros; exact I.
  - intros c body k o1 o _ _ _ _ _ _ IH. exact IH.
  - intros body k h o _ IH _ ue ret D. apply app_eq_nil in D. apply (IH ue), D.
  - intros body k h o _ _ _ IH ue ret D. apply app_eq_nil in D. apply (IH ue), D.
  - intros body o _ IH. exact IH.
  - intros a r o H _ ue ret m fc G D. rewrite G in D. apply app_eq_nil in D. destruct D as [D _].
    destruct H as [s o Hs|v h| | | |]; try exact I.
    + destruct (exec_simple_outcomes s o Hs) as [->|[->| ->]]; exact I.
    + destruct v, ret; try reflexivity; discriminate D.
  - intros a r o H _ IH ue ret m fc G D. rewrite G in D. apply app_eq_nil in D.
    apply (IH ue ret _ _ (atom_next_guard a m fc G H)), D.
  - intros b r o _ IH _ ue ret m fc G D. rewrite G in D. apply app_eq_nil in D. apply (IH ue), D.
  - intros b r o N _ _ IH ue ret m fc G D. rewrite G in D. apply app_eq_nil in D.
    refine (IH ue ret _ _ (block_next_guard m _ fc G _) (proj2 D)).
    rewrite (proj1 analyse_split). apply (proj1 sound_mutual); [exact N | left; exact I].
Qed.

Theorem returns_carry_value : forall ue d ret body ss m v,
  elab_func ue d ret body = Accepted ss m -> exec_stmts ss (Return v) ->
  v = negb (ret_is_empty ret).
Proof.
  intros ue d ret body ss m v E H.
  destruct (accepted_runs _ _ _ _ _ _ _ E H) as [[Hb _]|[-> [= ->]]]; [|reflexivity].
  apply elab_accepted_inv in E.
  apply (proj1 return_kind_mutual _ _ (X_code _ _ Hb) ue ret (proj1 E)).
Qed.

(* In an analysed tree a return / break / continue is always the last statement of its code
   block (gen_stmts stops emitting at the first of them: nothing it skips exists). *)
Definition is_jump (a : atom) : bool :=
  match a with AReturn _ _ | ABreak | AContinue => true | ASimple _ => false end.

Fixpoint jumps_last (b : block) : bool :=
  match b with
  | BCode ss => jumps_last_stmts ss
  | BIf _ t e => jumps_last t && jumps_last e
  | BLoop _ body _ => jumps_last body
  | BTry body _ h => jumps_last body && jumps_last h
  | BPreempt body => jumps_last body
  end
with jumps_last_stmts (ss : stmts) : bool :=
  match ss with
  | SNil => true
  | SAtom a r => (if is_jump a then match r with SNil => true | _ => false end else true) && jumps_last_stmts r
  | SBlock b r => jumps_last b && jumps_last_stmts r
  end.

Lemma trunc_guarded ss m fc : loop_exit_guard m fc = true -> trunc_stmts ss m fc = SNil.
Proof. intros G. destruct ss; simpl; rewrite ?G; reflexivity. Qed.

Lemma jump_closes_guard a m fc :
  is_jump a = true -> loop_exit_guard (atom_update a m) (atom_continue a || fc) = true.
Proof.
  rewrite guard_spec, atom_update_spec, atom_continue_spec.
  destruct a; try discriminate; intros _; rewrite ?has_replace;
    destruct (has F_NONE m); reflexivity.
Qed.

Theorem trunc_jumps_last_mutual :
  (forall b, jumps_last (trunc b) = true) /\
  (forall ss m fc, jumps_last_stmts (trunc_stmts ss m fc) = true).
Proof.
  apply block_stmts_mutind; simpl.
  - intros ss IH. apply IH.
  - intros c t -> e ->. reflexivity.
  - intros c b IHb k. exact IHb.
  - intros b -> k h ->. reflexivity.
  - intros b IHb. exact IHb.
  - reflexivity.
  - intros a r IH m fc. destruct (loop_exit_guard m fc); [reflexivity|].
    simpl. rewrite IH, andb_true_r.
    destruct (is_jump a) eqn:J; [|reflexivity]. rewrite trunc_guarded; [reflexivity|].
    apply jump_closes_guard, J.
  - intros b IHb r IHr m fc. destruct (loop_exit_guard m fc); [reflexivity|].
    simpl. rewrite IHb, IHr. reflexivity.
Qed.

Theorem trunc_jumps_last : forall b b' m, analyse b = (b', m) -> jumps_last b' = true.
Proof.
  intros b b' m E. destruct (analyse_eq _ _ _ E) as [-> _]. apply (proj1 trunc_jumps_last_mutual).
Qed.

Definition sq (l : list (atom + block)) : stmts :=
  fold_right (fun x r => match x with inl a => SAtom a r | inr b => SBlock b r end) SNil l.
Definition code (l : list (atom + block)) : block := BCode (sq l).
Definition A (a : atom) : atom + block := inl a.
Definition B (b : block) : atom + block := inr b.
Definition plain := A (ASimple Plain).
Definition ret_v := A (AReturn true false).
Definition ret_e := A (AReturn false false).

(* README, `int @max(const int[] arr)`:
     try { int max_val = arr[0];
           for (int i = 1; i < arr.length; i += 1) {
             if (arr[i] > max_val) { max_val = arr[i]; preempt { return max_val; } } }
           !is_defeat();
     } undo { return arr[0]; }                                                          *)
Definition max_body : stmts :=
  sq [B (BTry
           (code [plain;
                  B (code [plain;
                           B (BLoop CUnknown
                                (code [B (BIf CUnknown
                                            (code [plain; B (BPreempt (code [ret_v]))])
                                            (code []))])
                                (Some Plain))]);
                  A (ASimple IsDefeat)])
           Undo
           (code [ret_v]))].

Example max_modes : analyse (BCode max_body) = (BCode max_body, RETURN).
Proof. reflexivity. Qed.
Example max_accepted : elab_func true false RetValue max_body = Accepted max_body RETURN.
Proof. reflexivity. Qed.
Example max_closed : closed_stmts false max_body = true.
Proof. reflexivity. Qed.
Example max_visible : visible (BCode max_body) = true.
Proof. reflexivity. Qed.
(* one of its executions: the loop is left at once, the try body is defeated, undo returns *)
Example max_runs : exec_stmts max_body (Return true).
Proof.
  apply X_block_stop; [|discriminate]. apply X_try_handle.
  - constructor. apply X_atom_next; [repeat constructor|].
    apply X_block_next.
    + constructor. apply X_atom_next; [repeat constructor|].
      apply X_block_next; [|constructor]. apply X_loop_exit. exact I.
    + apply X_atom_stop; [repeat constructor | discriminate].
  - constructor. apply X_atom_stop; [constructor | discriminate].
Qed.

(* dropping: { return; x = 1; }  and the found_continue quirk: while (true) { continue; break; } *)
Definition drop1 : block := code [ret_e; plain].
Example drop1_analysis : analyse drop1 = (code [ret_e], RETURN).
Proof. reflexivity. Qed.
Definition drop2 : block := BLoop CTrue (code [A AContinue; A ABreak]) None.
Example drop2_analysis : analyse drop2 = (BLoop CTrue (code [A AContinue]) None, LOOP).
Proof. reflexivity. Qed.
(* without the quirk the `break` would be kept and the loop would have mode NONE *)
Example drop2_contrast : analyse (BLoop CTrue (code [A ABreak]) None) = (BLoop CTrue (code [A ABreak]) None, NONE).
Proof. reflexivity. Qed.
Example drop1_unreachable_option : elab_func true false RetEmpty (sq [ret_e; plain]) = Rejected ErrUnreachable.
Proof. reflexivity. Qed.

(* int f(bool c) { if (c) { return 1; } }  is rejected;  the empty version gets its return *)
Definition half_return : stmts := sq [B (BIf CUnknown (code [ret_v]) (code []))].
Example half_return_modes : modes_of (BCode half_return) = m_or NONE RETURN.
Proof. reflexivity. Qed.
Example half_return_rejected : elab_func false false RetValue half_return = Rejected ErrMissingReturn.
Proof. reflexivity. Qed.
Definition half_return_e : stmts := sq [B (BIf CUnknown (code [ret_e]) (code []))].
Example half_return_empty_accepted :
  elab_func false false RetEmpty half_return_e = Accepted (app_stmts half_return_e (sq [ret_e])) RETURN.
Proof. reflexivity. Qed.
(* int f() { while (true) { } }  is accepted: it never completes *)
Example spin_accepted :
  elab_func true false RetValue (sq [B (BLoop CTrue (code []) None)])
  = Accepted (sq [B (BLoop CTrue (code []) None)]) LOOP.
Proof. reflexivity. Qed.
(* int !f() { for (;; !is_defeat()) { } }  is accepted with mode LOOP although it is defeated *)
Example for_cont_defeat_accepted :
  elab_func true true RetValue (sq [B (code [B for_cont_defeat])])
  = Accepted (sq [B (code [B for_cont_defeat])]) LOOP.
Proof. reflexivity. Qed.

(* the hypotheses of the theorems are satisfiable *)
Example sound_hyps_sat :
  exists b b' m o, analyse b = (b', m) /\ visible b' = true /\ exec b' o /\ core o.
Proof.
  exists (BCode max_body), (BCode max_body), RETURN, (Return true).
  split; [reflexivity|]. split; [reflexivity|]. split; [constructor; exact max_runs | exact I].
Qed.
Example dead_hyps_sat : exists b b' m, analyse b = (b', m) /\ b <> b'.
Proof. exists drop1, (code [ret_e]), RETURN. split; [reflexivity | discriminate]. Qed.
Example accepted_hyps_sat :
  exists ue d ret body ss m o,
    elab_func ue d ret body = Accepted ss m /\ closed_stmts false body = true /\ exec_stmts ss o.
Proof.
  exists true, false, RetValue, max_body, max_body, RETURN, (Return true).
  split; [reflexivity|]. split; [reflexivity | exact max_runs].
Qed.
Example missing_return_hyps_sat : exists body, has F_NONE (modes_of (BCode body)) = true.
Proof. exists half_return. reflexivity. Qed.

(* C18, the option unreachable_error.  The option only adds 'Unreachable statement' diagnostics:
   what is raised without it is what is raised with it, minus those. *)
Definition not_unreachable (e : error) : bool :=
  match e with ErrUnreachable => false | _ => true end.

Lemma atom_diag_keep ret a : filter not_unreachable (atom_diag ret a) = atom_diag ret a.
Proof. destruct a as [s|[] h| |], ret; reflexivity. Qed.

Theorem diags_lint_mutual ret :
  (forall b, diags false ret b = filter not_unreachable (diags true ret b)) /\
  (forall ss m fc, diags_stmts false ret ss m fc = filter not_unreachable (diags_stmts true ret ss m fc)).
Proof.
  apply block_stmts_mutind.
  - intros ss IH. simpl. apply IH.
  - intros c t IHt e IHe. simpl. rewrite filter_app, IHt, IHe. reflexivity.
  - intros c b IHb k. simpl. exact IHb.
  - intros b IHb k h IHh. simpl. rewrite filter_app, IHb, IHh. reflexivity.
  - intros b IHb. simpl. exact IHb.
  - reflexivity.
  - intros a r IH m fc. simpl. destruct (loop_exit_guard m fc); [reflexivity|].
    rewrite filter_app, atom_diag_keep, IH. reflexivity.
  - intros b IHb r IHr m fc. simpl. destruct (loop_exit_guard m fc); [reflexivity|].
    rewrite filter_app, IHb, IHr. reflexivity.
Qed.

(* The only verdict the option can add is 'Unreachable statement': the verdict depends on
   the option through the first diagnostic only *)
Theorem lint_rejects_only_unreachable : forall d ret body v,
  elab_func false d ret body = v ->
  elab_func true d ret body = v \/ elab_func true d ret body = Rejected ErrUnreachable.
Proof.
  intros d ret body v <-. unfold elab_func.
  rewrite (proj1 (diags_lint_mutual ret) (BCode body)).
  destruct (diags true ret (BCode body)) as [|[] l]; simpl; auto.
Qed.

(* If the linting build accepts, the normal build accepts with the same checked body and
   mode -- so the code generated from it is the same *)
Theorem lint_only_rejects : forall d ret body ss m,
  elab_func true d ret body = Accepted ss m -> elab_func false d ret body = Accepted ss m.
Proof.
  intros d ret body ss m E.
  destruct (lint_rejects_only_unreachable d ret body _ eq_refl) as [<- | R];
    [exact E | rewrite R in E; discriminate E].
Qed.

(* `analyse` has no access to the option at all; whatever the option, an accepted body is
   what `analyse` returns for the source body, plus the implicit return when one is inserted *)
Theorem analyse_independent_of_lint : forall ue d ret body ss m,
  elab_func ue d ret body = Accepted ss m ->
  exists ss0 m0, analyse (BCode body) = (BCode ss0, m0) /\
    ((ss = ss0 /\ m = m0) \/
     (ss = app_stmts ss0 (SAtom (AReturn false false) SNil) /\ m = func_fixup_modes m0)).
Proof.
  intros ue d ret body ss m E. apply elab_accepted_inv in E. cbv zeta in E.
  exists (trunc_stmts body initial_mode initial_found_continue),
         (exits_stmts body initial_mode initial_found_continue).
  split; [apply (proj1 analyse_split (BCode body))|].
  destruct E as [_ [(_ & -> & ->)|(_ & _ & -> & ->)]]; [left | right]; split; reflexivity.
Qed.

(* the first case of lint_rejects_only_unreachable occurs here, the second in
   drop1_unreachable_option *)
Example lint_same_verdict : elab_func false false RetValue max_body = elab_func true false RetValue max_body.
Proof. rewrite max_accepted. apply lint_only_rejects, max_accepted. Qed.


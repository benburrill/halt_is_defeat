(* HiD/LexerProofs.v -- theorems about the reference lexer (HiD/Lexer.v).  Component `lexer`, C12.
   Everything holds for every instantiation of the three non-ASCII oracles.

   Tokens are described by a syntax of their own (`stok`: which keyword, which digits with which
   separators, which string items) with a printer `spell` and a meaning `denote`; each reader is
   shown to read back what `spell` prints (`reads`), and a text laid out from such tokens and
   arbitrary gaps lexes to the same tokens wherever the gaps are (layout_independence).  For all
   inputs, rendered or not, `lex_loop_inv` gives that the fuel suffices and that every reported span
   is the text its token was read from. *)
From Coq Require Import ZArith List Bool Lia.
From HidV Require Import GenLexer Lexer.
Import ListNotations.
Local Open Scope Z_scope.

Arguments Z.mul : simpl never.
Arguments Z.add : simpl never.
Arguments Z.sub : simpl never.
Arguments Z.div : simpl never.
Arguments Z.modulo : simpl never.
Arguments Z.pow : simpl never.
Arguments Z.of_nat : simpl never.

Lemma len_nil : len [] = 0.
Proof. reflexivity. Qed.
Lemma len_cons : forall c l, len (c :: l) = 1 + len l.
Proof. intros. unfold len. cbn [length]. lia. Qed.
Lemma len_app : forall a b, len (a ++ b) = len a + len b.
Proof. intros. unfold len. rewrite app_length. lia. Qed.
Lemma len_nonneg : forall l, 0 <= len l.
Proof. intros. unfold len. lia. Qed.

Lemma list_eqb_eq : forall a b, list_eqb a b = true <-> a = b.
Proof.
  induction a as [|x a IH]; destruct b as [|y b]; cbn; split; intro H; try easy.
  - apply andb_true_iff in H. destruct H as [H1 H2]. apply Z.eqb_eq in H1. apply IH in H2. congruence.
  - inversion H; subst. rewrite Z.eqb_refl. cbn. apply IH. reflexivity.
Qed.

Lemma list_eqb_refl : forall a, list_eqb a a = true.
Proof. intros. apply list_eqb_eq. reflexivity. Qed.

Lemma is_prefix_app : forall p s, is_prefix p (p ++ s) = true.
Proof. induction p; intros; cbn; [reflexivity|]. rewrite Z.eqb_refl. cbn. apply IHp. Qed.

Lemma is_prefix_spec : forall p s, is_prefix p s = true <-> exists r, s = p ++ r.
Proof.
  induction p as [|a p IH]; intros s; cbn.
  - split; [intros _; exists s; reflexivity | reflexivity].
  - destruct s as [|b s].
    + split; [discriminate | intros [r H]; discriminate].
    + rewrite andb_true_iff, Z.eqb_eq, IH. split.
      * intros [-> [r ->]]. exists r. reflexivity.
      * intros [r H]. inversion H; subst. split; [reflexivity | exists r; reflexivity].
Qed.

Lemma drop_prefix_app : forall p s, drop_prefix p (p ++ s) = s.
Proof. induction p; intros; cbn; [destruct s; reflexivity|apply IHp]. Qed.

Lemma lookup_In : forall A (k : list Z) (tbl : list (list Z * A)) v,
  lookup k tbl = Some v -> In (k, v) tbl.
Proof.
  induction tbl as [|[s x] tbl IH]; cbn; intros v H; [discriminate|].
  destruct (list_eqb k s) eqn:E.
  - apply list_eqb_eq in E. inversion H; subst. left; reflexivity.
  - right. apply IH. exact H.
Qed.

Lemma lookup_NoDup : forall A (tbl : list (list Z * A)) k v,
  NoDup (map fst tbl) -> In (k, v) tbl -> lookup k tbl = Some v.
Proof.
  induction tbl as [|[s x] tbl IH]; cbn; intros k v ND HI; [easy|].
  inversion ND as [|? ? Hn ND']; subst.
  destruct HI as [HI|HI].
  - inversion HI; subst. rewrite list_eqb_refl. reflexivity.
  - destruct (list_eqb k s) eqn:E.
    + apply list_eqb_eq in E. subst. exfalso. apply Hn.
      apply in_map_iff. exists (s, v). split; [reflexivity|exact HI].
    + apply IH; assumption.
Qed.

Lemma lookup_None : forall A (tbl : list (list Z * A)) k,
  lookup k tbl = None -> forall v, ~ In (k, v) tbl.
Proof.
  induction tbl as [|[s x] tbl IH]; cbn; intros k H v HI; [easy|].
  destruct (list_eqb k s) eqn:E; [discriminate|].
  destruct HI as [HI|HI].
  - inversion HI; subst. rewrite list_eqb_refl in E. discriminate.
  - eapply IH; eauto.
Qed.

Fixpoint nodupb (l : list (list Z)) : bool :=
  match l with
  | [] => true
  | x :: l' => negb (existsb (list_eqb x) l') && nodupb l'
  end.

Lemma nodupb_NoDup : forall l, nodupb l = true -> NoDup l.
Proof.
  induction l as [|x l IH]; cbn; intro H; [constructor|].
  apply andb_true_iff in H. destruct H as [H1 H2]. constructor; [|apply IH; exact H2].
  intro HI. apply negb_true_iff in H1.
  assert (existsb (list_eqb x) l = true); [|congruence].
  apply existsb_exists. exists x. split; [exact HI|apply list_eqb_refl].
Qed.

Lemma enum_spellings_distinct : NoDup (map fst enum_tokens).
Proof. apply nodupb_NoDup. vm_compute. reflexivity. Qed.
Lemma keyword_spellings_distinct : NoDup (map fst keyword_tokens).
Proof. apply nodupb_NoDup. vm_compute. reflexivity. Qed.
Lemma symbol_spellings_distinct : NoDup (map fst symbol_tokens).
Proof. apply nodupb_NoDup. vm_compute. reflexivity. Qed.

(* bd: for each comparison a <=? b, a <? b, a =? b in the goal, the two cases of its
   specification, the fact going to the context; lia dismisses a case whose facts contradict each
   other.  The goal is then a closed boolean expression: bdall evaluates it and leaves linear
   arithmetic over the recorded facts.  It serves where a character class is compared with a range. *)
Ltac bd :=
  repeat match goal with
  | |- context [?a <=? ?b] => destruct (Z.leb_spec a b); try lia
  | |- context [?a <? ?b] => destruct (Z.ltb_spec a b); try lia
  | |- context [?a =? ?b] => destruct (Z.eqb_spec a b); try lia
  end.
Ltac bdall := bd; cbn; try (intros; first [lia | discriminate | reflexivity | tauto]).

Definition cont (b : Z) : bool := (128 <=? b) && (b <? 192).     (* UTF-8 continuation byte 10xxxxxx *)

(* strict decoder of one scalar value: rejects overlong forms, surrogates, > 10FFFF *)
Definition utf8_decode (bs : list Z) : option Z :=
  match bs with
  | [a] => if (0 <=? a) && (a <? 128) then Some a else None
  | [a; b] =>
      if (192 <=? a) && (a <? 224) && cont b then
        let v := (a - 192) * 64 + (b - 128) in
        if 128 <=? v then Some v else None
      else None
  | [a; b; c] =>
      if (224 <=? a) && (a <? 240) && cont b && cont c then
        let v := (a - 224) * 4096 + (b - 128) * 64 + (c - 128) in
        if (2048 <=? v) && negb (is_surrogate v) then Some v else None
      else None
  | [a; b; c; d] =>
      if (240 <=? a) && (a <? 248) && cont b && cont c && cont d then
        let v := (a - 240) * 262144 + (b - 128) * 4096 + (c - 128) * 64 + (d - 128) in
        if (65536 <=? v) && (v <=? 1114111) then Some v else None
      else None
  | _ => None
  end.

Definition is_scalar (c : Z) : Prop := 0 <= c <= 1114111 /\ is_surrogate c = false.

Theorem utf8_roundtrip : forall c, is_scalar c -> utf8_decode (utf8_encode c) = Some c.
Proof.
  intros c [Hr Hs]. unfold is_surrogate in Hs. rewrite andb_false_iff, !Z.leb_gt in Hs.
  unfold utf8_encode.
  destruct (Z.ltb_spec c 128); [|destruct (Z.ltb_spec c 2048); [|destruct (Z.ltb_spec c 65536)]];
    unfold utf8_decode, cont, is_surrogate;
    (* with the quotients and remainders named, every test is linear *)
    Z.to_euclidean_division_equations.
  (* the range tests hold; the surrogate test of the three-byte form is left to a case split *)
  all: rewrite ?(proj2 (Z.leb_le _ _)), ?(proj2 (Z.ltb_lt _ _)) by lia.
  all: bd; cbn [andb negb]; f_equal; lia.
Qed.

Theorem utf8_encode_bytes : forall c, 0 <= c <= 1114111 ->
  Forall (fun b => 0 <= b < 256) (utf8_encode c) /\
  len (utf8_encode c) = (if c <? 128 then 1 else if c <? 2048 then 2 else if c <? 65536 then 3 else 4).
Proof.
  intros c Hr. unfold utf8_encode.
  destruct (Z.ltb_spec c 128); [|destruct (Z.ltb_spec c 2048); [|destruct (Z.ltb_spec c 65536)]];
    (split; [repeat constructor; Z.to_euclidean_division_equations; lia | reflexivity]).
Qed.

Lemma utf8_encode_ascii : forall c, c < 128 -> utf8_encode c = [c].
Proof. intros. unfold utf8_encode. destruct (Z.ltb_spec c 128); [reflexivity|lia]. Qed.

Fixpoint desc_sorted (tbl : list (list Z * tag)) : bool :=
  match tbl with
  | [] => true
  | x :: tbl' =>
      forallb (fun y => Nat.leb (length (fst y)) (length (fst x))) tbl' && desc_sorted tbl'
  end.

(* for ANY table sorted by decreasing length, the first prefix-match is a longest one *)
Lemma find_symbol_longest : forall tbl cur s t,
  desc_sorted tbl = true -> find_symbol tbl cur = Some (s, t) ->
  In (s, t) tbl /\ is_prefix s cur = true /\
  forall s' t', In (s', t') tbl -> is_prefix s' cur = true -> (length s' <= length s)%nat.
Proof.
  induction tbl as [|[s0 t0] tbl IH]; intros cur s t Hs Hf; [discriminate|].
  cbn [desc_sorted] in Hs. apply andb_true_iff in Hs. destruct Hs as [Hall Hs].
  cbn [find_symbol] in Hf. destruct (is_prefix s0 cur) eqn:E.
  - inversion Hf; subst. split; [left; reflexivity|]. split; [exact E|].
    intros s' t' [HI|HI] _.
    + inversion HI; subst. lia.
    + rewrite forallb_forall in Hall. specialize (Hall _ HI). cbn [fst] in Hall.
      apply Nat.leb_le in Hall. exact Hall.
  - destruct (IH cur s t Hs Hf) as (H1 & H2 & H3). split; [right; exact H1|]. split; [exact H2|].
    intros s' t' [HI|HI] Hp.
    + inversion HI; subst. congruence.
    + eapply H3; eauto.
Qed.

Lemma find_symbol_none : forall tbl cur,
  find_symbol tbl cur = None -> forall s t, In (s, t) tbl -> is_prefix s cur = false.
Proof.
  induction tbl as [|[s0 t0] tbl IH]; intros cur Hf s t HI; [destruct HI|].
  cbn [find_symbol] in Hf. destruct (is_prefix s0 cur) eqn:E; [discriminate|].
  destruct HI as [HI|HI]; [inversion HI; subst; exact E|eapply IH; eauto].
Qed.

(* the regenerated symbol table, sorted the way readers.py sorts it, is in decreasing length *)
Lemma symbol_tokens_sorted : desc_sorted symbol_tokens = true.
Proof. vm_compute. reflexivity. Qed.

Lemma insert_by_In : forall le e l x, In x (insert_by le e l) <-> x = e \/ In x l.
Proof.
  induction l as [|y l IH]; intros x; cbn.
  - intuition.
  - destruct (le (length (fst e)) (length (fst y))); cbn; [intuition|].
    rewrite IH. intuition.
Qed.
Lemma sort_by_In : forall le l x, In x (sort_by le l) <-> In x l.
Proof.
  induction l as [|y l IH]; intros x; cbn; [tauto|].
  rewrite insert_by_In, IH. intuition.
Qed.

(* symbol_tokens / keyword_tokens are exactly the two halves of the enum table *)
Theorem symbol_tokens_spec : forall e,
  In e symbol_tokens <-> In e enum_tokens /\ is_ident_ascii (fst e) = false.
Proof.
  intro e. unfold symbol_tokens. destruct symbol_sort_reverse; rewrite sort_by_In, filter_In;
    rewrite negb_true_iff; tauto.
Qed.
Theorem keyword_tokens_spec : forall e,
  In e keyword_tokens <-> In e enum_tokens /\ is_ident_ascii (fst e) = true.
Proof. intro e. unfold keyword_tokens. rewrite filter_In. tauto. Qed.

(* the symbol reader returns the longest symbol of the table that is a prefix of the input,
   and None only if no symbol is a prefix *)
Theorem symbol_longest_match : forall cur s t,
  find_symbol symbol_tokens cur = Some (s, t) ->
  In (s, t) symbol_tokens /\ is_prefix s cur = true /\
  forall s' t', In (s', t') symbol_tokens -> is_prefix s' cur = true ->
                (length s' <= length s)%nat.
Proof. intros. apply find_symbol_longest; [exact symbol_tokens_sorted|assumption]. Qed.

Theorem symbol_none : forall cur,
  find_symbol symbol_tokens cur = None ->
  forall s t, In (s, t) symbol_tokens -> is_prefix s cur = false.
Proof. intros cur H. exact (find_symbol_none _ _ H). Qed.

Lemma prefix_same_length : forall a b s,
  is_prefix a s = true -> is_prefix b s = true -> length a = length b -> a = b.
Proof.
  induction a as [|x a IH]; destruct b as [|y b]; intros s Ha Hb Hl; try discriminate; [reflexivity|].
  destruct s as [|z s]; [discriminate|]. cbn in Ha, Hb.
  apply andb_true_iff in Ha, Hb. destruct Ha as [Ha1 Ha2], Hb as [Hb1 Hb2].
  apply Z.eqb_eq in Ha1, Hb1. subst. f_equal. eapply IH; eauto.
Qed.

(* the reading is unique: the result is determined by the input, not by the (unspecified) order
   of equal-length symbols in the sorted list *)
Theorem read_symbol_exact : forall s t k,
  In (s, t) symbol_tokens ->
  (forall s' t', In (s', t') symbol_tokens -> is_prefix s' (s ++ k) = true ->
                 (length s' <= length s)%nat) ->
  read_symbol (s ++ k) = RTok (TEnum t) k.
Proof.
  intros s t k HI Hmax. unfold read_symbol.
  destruct (find_symbol symbol_tokens (s ++ k)) as [[s1 t1]|] eqn:E.
  - destruct (symbol_longest_match _ _ _ E) as (H1 & H2 & H3).
    assert (Hl : length s1 = length s).
    { apply Nat.le_antisymm; [exact (Hmax _ _ H1 H2)|exact (H3 _ _ HI (is_prefix_app _ _))]. }
    assert (s1 = s) by exact (prefix_same_length _ _ _ H2 (is_prefix_app _ _) Hl). subst s1.
    assert (t1 = t).
    { pose proof (lookup_NoDup _ _ _ _ symbol_spellings_distinct H1) as A.
      pose proof (lookup_NoDup _ _ _ _ symbol_spellings_distinct HI) as B. congruence. }
    subst. rewrite drop_prefix_app. reflexivity.
  - pose proof (symbol_none _ E _ _ HI) as H. rewrite is_prefix_app in H. discriminate.
Qed.

Theorem enum_partition : forall e, In e enum_tokens ->
  (In e keyword_tokens /\ ~ In e symbol_tokens) \/ (In e symbol_tokens /\ ~ In e keyword_tokens).
Proof.
  intros e HI. rewrite keyword_tokens_spec, symbol_tokens_spec.
  destruct (is_ident_ascii (fst e)); [left|right]; split; try tauto; intros [_ H]; discriminate.
Qed.

Theorem keyword_lookup_iff : forall w t,
  lookup w keyword_tokens = Some t <-> In (w, t) keyword_tokens.
Proof.
  intros. split; [apply lookup_In|apply lookup_NoDup; exact keyword_spellings_distinct].
Qed.

Section Oracles.

Variable uni_space : Z -> bool.
Variable uni_word : Z -> bool.
Variable uni_digit : Z -> option Z.

Notation is_space := (is_space uni_space).
Notation is_word := (is_word uni_word).
Notation dec_val := (dec_val uni_digit).
Notation hex_val := (hex_val uni_digit).
Notation digit_val := (digit_val uni_digit).
Notation scan_digits := (scan_digits uni_digit).
Notation scan_hex := (scan_hex uni_digit).
Notation read_prefixed := (read_prefixed uni_digit).
Notation read_dec := (read_dec uni_digit).
Notation read_int := (read_int uni_digit).
Notation read_unicode_escape := (read_unicode_escape uni_digit).
Notation read_escape := (read_escape uni_digit).
Notation read_item := (read_item uni_digit).
Notation str_loop := (str_loop uni_digit).
Notation read_string := (read_string uni_digit).
Notation read_char := (read_char uni_digit).
Notation span_word := (span_word uni_word).
Notation match_ident := (match_ident uni_word).
Notation read_flavoured := (read_flavoured uni_word).
Notation read_ident_kw := (read_ident_kw uni_word).
Notation read_token := (read_token uni_word uni_digit).
Notation skip_spaces := (skip_spaces uni_space).
Notation skip_ignore := (skip_ignore uni_space).
Notation lex_loop := (lex_loop uni_space uni_word uni_digit).
Notation lex_lines := (lex_lines uni_space uni_word uni_digit).
Notation lex_text := (lex_text uni_space uni_word uni_digit).

Definition valid_digit (b : base) (c : Z) : Prop := exists v, digit_val b c = Some v.
Definition dval (b : base) (c : Z) : Z :=
  match digit_val b c with Some v => v | None => 0 end.

(* the documented value: positional notation, most significant digit first *)
Fixpoint horner (b : base) (acc : Z) (ds : list Z) : Z :=
  match ds with
  | [] => acc
  | d :: ds' => horner b (acc * radix b + dval b d) ds'
  end.
Definition int_value (b : base) (ds : list Z) : Z := horner b 0 ds.

Lemma horner_snoc : forall b ds acc d,
  horner b acc (ds ++ [d]) = horner b acc ds * radix b + dval b d.
Proof. induction ds; intros; cbn; [reflexivity|apply IHds]. Qed.

Lemma int_value_nil : forall b, int_value b [] = 0.
Proof. reflexivity. Qed.
Lemma int_value_snoc : forall b ds d,
  int_value b (ds ++ [d]) = int_value b ds * radix b + dval b d.
Proof. intros. apply horner_snoc. Qed.
Lemma int_value_cons : forall b d ds, int_value b (d :: ds) = horner b (dval b d) ds.
Proof. intros. unfold int_value. cbn [horner]. rewrite Z.mul_0_l, Z.add_0_l. reflexivity. Qed.

Lemma dval_some : forall b c v, digit_val b c = Some v -> dval b c = v.
Proof. intros b c v H. unfold dval. rewrite H. reflexivity. Qed.

(* digits d1 d2 ... with an optional single `_` between consecutive digits *)
Fixpoint render_tail (ds : list Z) (seps : list bool) : list Z :=
  match ds with
  | [] => []
  | d :: ds' => (if hd false seps then [95] else []) ++ d :: render_tail ds' (tl seps)
  end.
Definition base_prefix (b : base) : list Z :=
  match b with Hex => [48; 120] | Oct => [48; 111] | Bin => [48; 98] | Dec => [] end.
Definition render_digits (ds : list Z) (seps : list bool) : list Z :=
  match ds with [] => [] | d :: ds' => d :: render_tail ds' seps end.
Definition render_int (b : base) (ds : list Z) (seps : list bool) : list Z :=
  base_prefix b ++ render_digits ds seps.

(* the digit scanner stops in front of k *)
Definition stops (b : base) (k : list Z) : Prop :=
  match k with
  | [] => True
  | c :: k' => digit_val b c = None /\
               (c = 95 -> match k' with d :: _ => digit_val b d = None | [] => True end)
  end.

Lemma digit_val_underscore : forall b, digit_val b 95 = None.
Proof. destruct b; reflexivity. Qed.

Lemma scan_tail : forall b ds seps acc n k,
  Forall (valid_digit b) ds -> stops b k ->
  scan_digits b acc n (render_tail ds seps ++ k) = (horner b acc ds, n + len ds, k).
Proof.
  induction ds as [|d ds IH]; intros seps acc n k Hv Hs.
  - cbn [render_tail app horner]. rewrite len_nil, Z.add_0_r.
    destruct k as [|c k']; [reflexivity|].
    destruct Hs as [H1 H2]. cbn [Lexer.scan_digits]. rewrite H1.
    destruct (Z.eqb_spec c 95) as [->|]; [|reflexivity].
    destruct k' as [|d k'']; [reflexivity|]. rewrite (H2 eq_refl). reflexivity.
  - inversion Hv as [|? ? [v Hd] Hv']; subst.
    cbn [render_tail horner]. rewrite len_cons, (dval_some _ _ _ Hd).
    destruct (hd false seps); cbn [app Lexer.scan_digits].
    + rewrite digit_val_underscore. cbn [Z.eqb Pos.eqb].
      rewrite Hd, IH by assumption. f_equal. f_equal. lia.
    + rewrite Hd, IH by assumption. f_equal. f_equal. lia.
Qed.

Lemma read_prefixed_render : forall b l d ds seps k,
  Forall (valid_digit b) (d :: ds) -> stops b k ->
  read_prefixed b l (48 :: l :: d :: render_tail ds seps ++ k) =
  Some (horner b (dval b d) ds, 1 + len ds, k).
Proof.
  intros b l d ds seps k Hv Hs. inversion Hv as [|? ? [v Hd] Hv']; subst.
  unfold Lexer.read_prefixed. rewrite !Z.eqb_refl, Hd, (dval_some _ _ _ Hd). cbn [andb].
  f_equal. apply scan_tail; assumption.
Qed.

Lemma read_prefixed_other : forall b l z q T, q <> l -> read_prefixed b l (z :: q :: T) = None.
Proof.
  intros b l z q T H. unfold Lexer.read_prefixed. destruct T; [reflexivity|].
  apply Z.eqb_neq in H. rewrite H, andb_false_r. reflexivity.
Qed.

Definition not_letter (k : list Z) : Prop :=
  match k with c :: _ => c <> 120 /\ c <> 111 /\ c <> 98 | [] => True end.

Lemma read_prefixed_none : forall b l d T,
  (l = 120 \/ l = 111 \/ l = 98) -> not_letter T -> read_prefixed b l (d :: T) = None.
Proof.
  intros b l d [|q T] HL HT; [reflexivity|]. apply read_prefixed_other. cbn in HT. lia.
Qed.

Lemma dec_val_not_letter : forall c v T, dec_val c = Some v -> not_letter (c :: T).
Proof. intros c v T H. repeat split; intro; subst; discriminate H. Qed.

(* a decimal literal: the three prefixed forms do not match, the digit count decides *)
Theorem read_int_dec : forall d ds seps k,
  Forall (valid_digit Dec) (d :: ds) -> stops Dec k -> not_letter k ->
  read_int (render_int Dec (d :: ds) seps ++ k) =
  if int_max_str_digits <? len (d :: ds) then RErr EIntTooLarge k
  else RTok (TInt (int_value Dec (d :: ds))) k.
Proof.
  intros d ds seps k Hv Hs Hk. inversion Hv as [|? ? [v Hd] Hv']; subst.
  assert (HT : not_letter (render_tail ds seps ++ k)).
  { destruct Hv' as [|d' ds' [v' Hd'] _]; [exact Hk|]. cbn [render_tail].
    destruct (hd false seps); [cbn; lia|exact (dec_val_not_letter _ _ _ Hd')]. }
  unfold Lexer.read_int, render_int, render_digits. cbn [base_prefix app].
  rewrite !read_prefixed_none by (auto; lia).
  unfold Lexer.read_dec. cbn [Lexer.digit_val] in Hd. rewrite Hd, (scan_tail Dec) by assumption.
  rewrite int_value_cons, (dval_some Dec _ _ Hd), len_cons. reflexivity.
Qed.

Theorem read_int_render : forall b d ds seps k,
  Forall (valid_digit b) (d :: ds) -> stops b k ->
  (b = Dec -> not_letter k /\ len (d :: ds) <= int_max_str_digits) ->
  read_int (render_int b (d :: ds) seps ++ k) = RTok (TInt (int_value b (d :: ds))) k.
Proof.
  intros b d ds seps k Hv Hs Hdec. destruct b.
  (* a prefixed literal: the readers tried before its own see another letter *)
  1-3: rewrite int_value_cons; unfold Lexer.read_int, render_int, render_digits.
  1-3: cbn [base_prefix app]; rewrite ?read_prefixed_other by discriminate.
  1-3: rewrite read_prefixed_render by assumption; reflexivity.
  destruct (Hdec eq_refl) as [Hk Hlen]. rewrite read_int_dec by assumption.
  apply Z.ltb_ge in Hlen. rewrite Hlen. reflexivity.
Qed.

(* beyond CPython's conversion limit a decimal literal is the LexerError 'Integer literal too
   large', raised at the end of the literal; the other three bases have no limit *)
Theorem read_int_too_large : forall d ds seps k,
  Forall (valid_digit Dec) (d :: ds) -> stops Dec k -> not_letter k ->
  int_max_str_digits < len (d :: ds) ->
  read_int (render_int Dec (d :: ds) seps ++ k) = RErr EIntTooLarge k.
Proof.
  intros d ds seps k Hv Hs Hk Hlen. rewrite read_int_dec by assumption.
  apply Z.ltb_lt in Hlen. rewrite Hlen. reflexivity.
Qed.

Definition lex_int (s : list Z) : option Z :=
  match read_int s with RTok (TInt v) [] => Some v | _ => None end.

(* every well-formed integer literal, in each of the four bases, with any placement of
   single `_` separators, denotes its positional value *)
Theorem lex_int_render : forall b ds seps,
  ds <> [] -> Forall (valid_digit b) ds -> (b = Dec -> len ds <= int_max_str_digits) ->
  lex_int (render_int b ds seps) = Some (int_value b ds).
Proof.
  intros b ds seps Hne Hv Hd. destruct ds as [|d ds]; [congruence|].
  unfold lex_int. rewrite <- (app_nil_r (render_int b (d :: ds) seps)).
  rewrite read_int_render; [reflexivity|exact Hv|exact I|].
  intro E. split; [exact I|apply Hd; exact E].
Qed.

Definition hexdigit (upper : bool) (v : Z) : Z :=
  if v <? 10 then 48 + v else if upper then 55 + v else 87 + v.

Lemma hex_val_hexdigit : forall u v, 0 <= v < 16 -> hex_val (hexdigit u v) = Some v.
Proof.
  intros u v Hv. unfold hexdigit, Lexer.hex_val, Lexer.dec_val, ascii_digit.
  destruct (Z.ltb_spec v 10); [|destruct u]; bd; cbn [andb]; f_equal; lia.
Qed.

Lemma read_escape_hex : forall h1 h2 a b k,
  hex_val h1 = Some a -> hex_val h2 = Some b ->
  read_escape (120 :: h1 :: h2 :: k) = EOk [a * 16 + b] k.
Proof. intros. unfold Lexer.read_escape. cbn [Z.eqb Pos.eqb]. rewrite H, H0. reflexivity. Qed.

(* `\xHH` for all 256 byte values, either case of either digit, in front of any text *)
Theorem byte_escape_all : forall b u1 u2 k, 0 <= b < 256 ->
  read_escape (120 :: hexdigit u1 (b / 16) :: hexdigit u2 (b mod 16) :: k) = EOk [b] k.
Proof.
  intros b u1 u2 k Hb.
  rewrite (read_escape_hex _ _ (b / 16) (b mod 16)).
  - f_equal. f_equal. pose proof (Z.div_mod b 16). lia.
  - apply hex_val_hexdigit. split; [apply Z.div_pos; lia|apply Z.div_lt_upper_bound; lia].
  - apply hex_val_hexdigit. apply Z.mod_pos_bound. lia.
Qed.

(* over all 256 bytes and either case of either digit, as a test that evaluates *)
Definition eres_is (r : eres) (bs : list Z) : bool :=
  match r with EOk bs' [] => list_eqb bs' bs | _ => false end.
Lemma byte_escape_exhaustive :
  forallb (fun b => forallb (fun u1 => forallb (fun u2 =>
     eres_is (read_escape [120; hexdigit u1 (b / 16); hexdigit u2 (b mod 16)]) [b])
     [true; false]) [true; false]) (map Z.of_nat (seq 0 256)) = true.
Proof.
  apply forallb_forall. intros b Hb. apply in_map_iff in Hb as [n [<- Hn]]. apply in_seq in Hn.
  cbn [forallb]. rewrite !byte_escape_all by lia. cbn [eres_is]. rewrite list_eqb_refl. reflexivity.
Qed.

(* surrogates are rejected: escaped -> LexerError, raw -> the leaked UnicodeEncodeError *)
Theorem surrogate_rejected : forall cp r, is_surrogate cp = true ->
  encode_escaped cp r = EErr (ESurrogate cp) r /\ encode_raw cp r = ECrash CEncodeRaw.
Proof. intros. unfold encode_escaped, encode_raw. rewrite H. split; reflexivity. Qed.

Definition standard_escapes : list (Z * Z) :=
  [ (97, 7); (98, 8); (102, 12); (110, 10); (114, 13); (116, 9); (48, 0);
    (39, 39); (34, 34); (92, 92) ].      (* a b f n r t 0 quote dquote backslash *)

Theorem escape_codes_standard : escape_codes = standard_escapes.
Proof. reflexivity. Qed.

Definition escape_entry_ok (e : Z * Z) : bool :=
  negb (fst e =? 120) && negb (fst e =? 117) && (0 <=? snd e) && (snd e <? 128)
  && match lookupZ (fst e) escape_codes with Some v => v =? snd e | None => false end.

Lemma escape_table_ok : forallb escape_entry_ok escape_codes = true.
Proof. vm_compute. reflexivity. Qed.

(* what the readers need of the table: no entry is `x` or `u`, the values are ASCII, the keys
   are distinct *)
Lemma escape_entry : forall c v, In (c, v) escape_codes ->
  c <> 120 /\ c <> 117 /\ 0 <= v < 128 /\ lookupZ c escape_codes = Some v.
Proof.
  intros c v HI. pose proof escape_table_ok as H. rewrite forallb_forall in H.
  specialize (H _ HI). unfold escape_entry_ok in H. cbn [fst snd] in H.
  rewrite !andb_true_iff, !negb_true_iff, !Z.eqb_neq, Z.leb_le, Z.ltb_lt in H.
  destruct H as ((((Hx & Hu) & H0) & H128) & Hl).
  destruct (lookupZ c escape_codes) as [v'|]; [|discriminate].
  apply Z.eqb_eq in Hl. subst v'. auto.
Qed.

(* every simple escape of the table denotes exactly its one byte *)
Theorem simple_escape_all : forall c v k, In (c, v) escape_codes ->
  read_escape (c :: k) = EOk [v] k.
Proof.
  intros c v k HI. destruct (escape_entry c v HI) as (Hx & Hu & Hv & Hl).
  apply Z.eqb_neq in Hx, Hu. unfold Lexer.read_escape. rewrite Hx, Hu, Hl.
  unfold encode_escaped, is_surrogate. destruct (Z.leb_spec 55296 v); [lia|]. cbn [andb].
  rewrite utf8_encode_ascii by lia. reflexivity.
Qed.

Definition hex_valid (c : Z) : Prop := exists v, hex_val c = Some v.

Lemma scan_hex_app : forall ds acc k,
  Forall hex_valid ds -> match k with c :: _ => hex_val c = None | [] => True end ->
  scan_hex acc (ds ++ k) = (horner Hex acc ds, k).
Proof.
  induction ds as [|d ds IH]; intros acc k Hv Hk.
  - cbn [app horner]. destruct k as [|c k]; [reflexivity|]. cbn. rewrite Hk. reflexivity.
  - inversion Hv as [|? ? [v Hd] Hv']; subst. cbn [app Lexer.scan_hex horner].
    rewrite Hd, (dval_some Hex _ _ Hd). apply IH; assumption.
Qed.

(* a well-formed `\u{...}`: the value decides between the encoding and the LexerError 'Invalid
   unicode codepoint', raised after the closing brace, however large the value is *)
Lemma read_unicode_escape_render : forall d ds k,
  Forall hex_valid (d :: ds) ->
  read_escape (117 :: 123 :: d :: ds ++ 125 :: k) =
  let cp := int_value Hex (d :: ds) in
  if cp <? 1114112 then encode_escaped cp k else EErr (EBadCodepoint cp) k.
Proof.
  intros d ds k Hv. inversion Hv as [|? ? [v Hd] Hv']; subst.
  unfold Lexer.read_escape, Lexer.read_unicode_escape. cbn [Z.eqb Pos.eqb]. rewrite Hd.
  rewrite scan_hex_app by (assumption || reflexivity).
  rewrite int_value_cons, (dval_some Hex _ _ Hd). reflexivity.
Qed.

Theorem unicode_escape_value : forall d ds k,
  Forall hex_valid (d :: ds) ->
  let cp := int_value Hex (d :: ds) in
  cp < 1114112 -> is_surrogate cp = false ->
  read_escape (117 :: 123 :: d :: ds ++ 125 :: k) = EOk (utf8_encode cp) k.
Proof.
  intros d ds k Hv cp Hlt Hs. rewrite read_unicode_escape_render by assumption.
  cbv zeta. fold cp. apply Z.ltb_lt in Hlt. rewrite Hlt. unfold encode_escaped. rewrite Hs. reflexivity.
Qed.

Theorem unicode_escape_too_large : forall d ds k,
  Forall hex_valid (d :: ds) ->
  let cp := int_value Hex (d :: ds) in
  1114112 <= cp ->
  read_escape (117 :: 123 :: d :: ds ++ 125 :: k) = EErr (EBadCodepoint cp) k.
Proof.
  intros d ds k Hv cp Hge. rewrite read_unicode_escape_render by assumption.
  cbv zeta. fold cp. apply Z.ltb_ge in Hge. rewrite Hge. reflexivity.
Qed.

(* everything that can stand inside quotes *)

Inductive sitem :=
| SRaw (c : Z)                   (* the character itself *)
| SHex (u1 u2 : bool) (b : Z)    (* \xHH (u1 u2: upper-case digit?) *)
| SSimple (c : Z)                (* \c from escape_codes *)
| SUni (ds : list Z).            (* \u{ds} *)

Definition render_item (it : sitem) : list Z :=
  match it with
  | SRaw c => [c]
  | SHex u1 u2 b => [92; 120; hexdigit u1 (b / 16); hexdigit u2 (b mod 16)]
  | SSimple c => [92; c]
  | SUni ds => 92 :: 117 :: 123 :: ds ++ [125]
  end.

Definition item_bytes (it : sitem) : list Z :=
  match it with
  | SRaw c => utf8_encode c
  | SHex _ _ b => [b]
  | SSimple c => match lookupZ c escape_codes with Some v => [v] | None => [] end
  | SUni ds => utf8_encode (int_value Hex ds)
  end.

Definition item_ok (it : sitem) : Prop :=
  match it with
  | SRaw c => c <> 34 /\ c <> 92 /\ is_surrogate c = false
  | SHex _ _ b => 0 <= b < 256
  | SSimple c => exists v, In (c, v) escape_codes
  | SUni ds => ds <> [] /\ Forall hex_valid ds /\ int_value Hex ds < 1114112 /\
               is_surrogate (int_value Hex ds) = false
  end.

Lemma read_item_ok : forall it rest, item_ok it ->
  match render_item it ++ rest with
  | c :: r0 => c <> 34 /\ (c = 39 -> it = SRaw 39) /\ read_item c r0 = EOk (item_bytes it) rest
  | [] => False
  end.
Proof.
  intros it rest Hok. destruct it as [c|u1 u2 b|c|ds]; cbn [render_item app item_bytes].
  - destruct Hok as (H1 & H2 & H3). split; [exact H1|]. split; [congruence|].
    unfold Lexer.read_item. destruct (Z.eqb_spec c 92); [contradiction|].
    unfold encode_raw. rewrite H3. reflexivity.
  - split; [lia|]. split; [lia|]. unfold Lexer.read_item. cbn [Z.eqb Pos.eqb].
    apply byte_escape_all. exact Hok.
  - destruct Hok as [v HI]. split; [lia|]. split; [lia|]. unfold Lexer.read_item.
    cbn [Z.eqb Pos.eqb]. destruct (escape_entry _ _ HI) as (_ & _ & _ & ->).
    apply simple_escape_all. exact HI.
  - destruct Hok as (Hne & Hv & Hlt & Hs). destruct ds as [|d ds]; [congruence|].
    split; [lia|]. split; [lia|]. unfold Lexer.read_item. cbn [Z.eqb Pos.eqb].
    rewrite <- app_assoc. cbn [app]. apply unicode_escape_value; assumption.
Qed.

Definition render_items (items : list sitem) : list Z := concat (map render_item items).
Definition items_bytes (items : list sitem) : list Z := concat (map item_bytes items).

Lemma str_loop_items : forall items fuel acc k,
  Forall item_ok items -> (length items < fuel)%nat ->
  str_loop fuel (render_items items ++ 34 :: k) acc = SOk (acc ++ items_bytes items) k.
Proof.
  induction items as [|it items IH]; intros fuel acc k Hok Hf.
  - destruct fuel; [lia|]. cbn. rewrite app_nil_r. reflexivity.
  - inversion Hok as [|? ? Hit Hok']; subst.
    destruct fuel as [|f]; [cbn in Hf; lia|].
    unfold render_items, items_bytes. cbn [map concat]. rewrite <- app_assoc.
    pose proof (read_item_ok it (concat (map render_item items) ++ 34 :: k) Hit) as H.
    destruct (render_item it ++ concat (map render_item items) ++ 34 :: k) as [|c r0]; [contradiction|].
    destruct H as (Hc & _ & Hr). cbn [Lexer.str_loop].
    destruct (Z.eqb_spec c 34); [contradiction|].
    rewrite Hr.
    fold (render_items items). rewrite IH; [|assumption|cbn in Hf; lia].
    rewrite app_assoc. reflexivity.
Qed.

Lemma render_item_length : forall it, (1 <= length (render_item it))%nat.
Proof. destruct it; cbn; lia. Qed.

Lemma render_items_length : forall items, (length items <= length (render_items items))%nat.
Proof.
  induction items as [|it items IH]; [cbn; lia|].
  unfold render_items in *. cbn [map concat length]. rewrite app_length.
  pose proof (render_item_length it). lia.
Qed.

Definition render_string (items : list sitem) : list Z := 34 :: render_items items ++ [34].

(* every string literal built from raw characters and escapes denotes the concatenation of the
   bytes of its items, whatever follows the closing quote *)
Theorem read_string_render : forall items k, Forall item_ok items ->
  read_string (render_string items ++ k) = RTok (TString (items_bytes items)) k.
Proof.
  intros items k Hok. unfold render_string, Lexer.read_string.
  cbn [app Z.eqb Pos.eqb]. rewrite <- app_assoc. cbn [app].
  rewrite str_loop_items; [reflexivity|assumption|].
  rewrite app_length. pose proof (render_items_length items). cbn [length]. lia.
Qed.

Definition lex_string (s : list Z) : option (list Z) :=
  match read_string s with RTok (TString bs) [] => Some bs | _ => None end.

Definition render_string_hex (bs : list Z) : list Z := render_string (map (SHex false false) bs).

(* every byte string written with \x escapes lexes back to itself *)
Theorem lex_string_hex_roundtrip : forall bs, Forall (fun b => 0 <= b < 256) bs ->
  lex_string (render_string_hex bs) = Some bs.
Proof.
  intros bs Hb. unfold lex_string, render_string_hex.
  rewrite <- (app_nil_r (render_string _)). rewrite read_string_render.
  - f_equal. unfold items_bytes. rewrite map_map. cbn [item_bytes].
    induction bs; [reflexivity|]. cbn. f_equal. apply IHbs. inversion Hb; assumption.
  - apply Forall_forall. intros it HI. apply in_map_iff in HI. destruct HI as [b [<- HI]].
    rewrite Forall_forall in Hb. apply Hb. exact HI.
Qed.

(* every Unicode scalar value written raw in a string denotes its UTF-8 encoding *)
Theorem lex_string_raw_scalars : forall cs,
  Forall (fun c => is_scalar c /\ c <> 34 /\ c <> 92) cs ->
  lex_string (render_string (map SRaw cs)) = Some (concat (map utf8_encode cs)).
Proof.
  intros cs Hc. unfold lex_string.
  rewrite <- (app_nil_r (render_string _)). rewrite read_string_render.
  - f_equal. unfold items_bytes. rewrite map_map. reflexivity.
  - apply Forall_forall. intros it HI. apply in_map_iff in HI. destruct HI as [c [<- HI]].
    rewrite Forall_forall in Hc. destruct (Hc _ HI) as [[_ Hs] [H1 H2]]. cbn. auto.
Qed.

(* character literals: one item that denotes exactly one byte *)
Theorem read_char_render : forall it b k, item_ok it -> item_bytes it = [b] -> it <> SRaw 39 ->
  read_char (39 :: render_item it ++ 39 :: k) = RTok (TChar b) k.
Proof.
  intros it b k Hok Hb Hq. unfold Lexer.read_char. cbn [Z.eqb Pos.eqb].
  pose proof (read_item_ok it (39 :: k) Hok) as H.
  destruct (render_item it ++ 39 :: k) as [|c r0]; [contradiction|].
  destruct H as (_ & Hc & Hr).
  destruct (Z.eqb_spec c 39) as [E|]; [exfalso; auto|].
  rewrite Hr, Hb.
  cbn [Z.eqb Pos.eqb]. reflexivity.
Qed.

(* ident_pattern.fullmatch(w) *)
Definition ident_word (w : list Z) : Prop :=
  match w with
  | c :: w' => ident_start c = true /\ Forall (fun x => is_word x = true) w'
  | [] => False
  end.
(* \w* stops in front of k *)
Definition word_end (k : list Z) : Prop :=
  match k with [] => True | c :: _ => is_word c = false end.

Lemma span_word_app : forall w k, Forall (fun x => is_word x = true) w -> word_end k ->
  span_word (w ++ k) = (w, k).
Proof.
  induction w as [|c w IH]; intros k Hw Hk.
  - cbn [app]. destruct k as [|c k]; [reflexivity|]. cbn in *. rewrite Hk. reflexivity.
  - inversion Hw; subst. cbn [app Lexer.span_word]. rewrite H1.
    rewrite IH by assumption. reflexivity.
Qed.

Lemma match_ident_app : forall w k, ident_word w -> word_end k ->
  match_ident (w ++ k) = Some (w, k).
Proof.
  intros [|c w] k Hw Hk; [destruct Hw|]. destruct Hw as [Hc Hw].
  cbn [app]. unfold Lexer.match_ident. rewrite Hc.
  rewrite span_word_app by assumption. reflexivity.
Qed.

Definition sigil (f : flavor) : list Z :=
  match f with FNone => [] | FYou => [flavor_sigil_you] | FDefeat => [flavor_sigil_defeat] end.

Lemma ident_start_not_sigil : forall c, ident_start c = true ->
  (c =? flavor_sigil_you) = false /\ (c =? flavor_sigil_defeat) = false.
Proof.
  intros c H. unfold ident_start, ascii_alpha, flavor_sigil_you, flavor_sigil_defeat in *.
  split; apply Z.eqb_neq; intro; subst; discriminate H.
Qed.

(* classification is total and exclusive: an identifier-shaped word is a keyword exactly
   when the keyword table spells it, otherwise an identifier with the given flavour; a sigil in
   front of a keyword is an error. *)
Lemma classify : forall f w k, ident_word w -> word_end k ->
  read_ident_kw (sigil f ++ w ++ k) =
  match lookup w keyword_tokens, f with
  | Some t, FNone => RTok (TEnum t) k
  | Some _, _ => RErr (EBadFlavorIdent f) k
  | None, _ => RTok (TIdent f w) k
  end.
Proof.
  intros f w k Hw Hk. pose proof (match_ident_app w k Hw Hk) as Hm.
  destruct f; cbn [sigil app]; unfold Lexer.read_ident_kw.
  - destruct w as [|c w]; [destruct Hw|]. cbn [app] in *.
    destruct (ident_start_not_sigil c (proj1 Hw)) as [-> ->].
    rewrite Hm.
    destruct (lookup (c :: w) keyword_tokens); reflexivity.
  - cbn [Z.eqb Pos.eqb flavor_sigil_you]. unfold Lexer.read_flavoured.
    rewrite Hm.
    destruct (lookup w keyword_tokens); reflexivity.
  - cbn [Z.eqb Pos.eqb flavor_sigil_you flavor_sigil_defeat]. unfold Lexer.read_flavoured.
    rewrite Hm.
    destruct (lookup w keyword_tokens); reflexivity.
Qed.

Theorem classify_plain : forall w k, ident_word w -> word_end k ->
  read_ident_kw (w ++ k) =
  match lookup w keyword_tokens with
  | Some t => RTok (TEnum t) k
  | None => RTok (TIdent FNone w) k
  end.
Proof. intros w k. exact (classify FNone w k). Qed.

Theorem classify_flavoured : forall f w k, f <> FNone -> ident_word w -> word_end k ->
  read_ident_kw (sigil f ++ w ++ k) =
  match lookup w keyword_tokens with
  | Some _ => RErr (EBadFlavorIdent f) k
  | None => RTok (TIdent f w) k
  end.
Proof.
  intros f w k Hf Hw Hk. rewrite classify by assumption. destruct f; [congruence|reflexivity..].
Qed.

Theorem classify_exclusive : forall w k, ident_word w -> word_end k ->
  (exists t, In (w, t) enum_tokens /\ read_ident_kw (w ++ k) = RTok (TEnum t) k /\
             forall f, f <> FNone -> read_ident_kw (sigil f ++ w ++ k) = RErr (EBadFlavorIdent f) k)
  \/
  ((forall t, ~ In (w, t) keyword_tokens) /\
   forall f, read_ident_kw (sigil f ++ w ++ k) = RTok (TIdent f w) k).
Proof.
  intros w k Hw Hk. destruct (lookup w keyword_tokens) as [t|] eqn:E.
  - left. exists t. split; [|split].
    + apply lookup_In in E. apply keyword_tokens_spec in E. tauto.
    + rewrite classify_plain, E by assumption. reflexivity.
    + intros f Hf. rewrite classify_flavoured, E by assumption. reflexivity.
  - right. split; [apply lookup_None; exact E|].
    intros f. rewrite classify, E by assumption. reflexivity.
Qed.

Lemma ident_start_range : forall c, ident_start c = true ->
  65 <= c <= 90 \/ 97 <= c <= 122 \/ c = 95.
Proof. intros c. unfold ident_start, ascii_alpha. bdall. Qed.

Lemma ascii_word_range : forall c, ascii_word c = true -> 48 <= c <= 122.
Proof. intros c. unfold ascii_word, ascii_alpha, ascii_digit. bdall. Qed.

Lemma ident_start_word : forall c, ident_start c = true -> ascii_word c = true.
Proof. intros c H. unfold ascii_word. unfold ident_start in H. destruct (ascii_alpha c); [reflexivity|].
  cbn in *. rewrite H. apply orb_true_r. Qed.

(* the first characters with which no symbol of the regenerated table begins *)
Definition starts_no_symbol (c : Z) : bool :=
  ident_start c || ascii_digit c || (128 <=? c) || (c =? 64) || (c =? 34) || (c =? 39).

(* shape of the symbols of the table, by computation: they begin with a non-blank ASCII
   character that is none of the above, and `!` is not followed by a letter *)
Definition sym_shape (s : list Z) : bool :=
  match s with
  | a :: s' =>
      (0 <=? a) && negb (ascii_space a) && negb (starts_no_symbol a)
      && (negb (a =? 33) || match s' with b :: _ => negb (ident_start b) | [] => false end)
  | [] => false
  end.

Lemma symbol_shapes : forallb (fun e => sym_shape (fst e)) symbol_tokens = true.
Proof. vm_compute. reflexivity. Qed.

Lemma symbol_shape : forall s t, In (s, t) symbol_tokens -> sym_shape s = true.
Proof.
  intros s t HI. pose proof symbol_shapes as H. rewrite forallb_forall in H. exact (H _ HI).
Qed.

Lemma symbol_first : forall s t, In (s, t) symbol_tokens ->
  exists a s', s = a :: s' /\ 0 <= a < 128 /\ ascii_space a = false.
Proof.
  intros [|a s'] t HI; apply symbol_shape in HI; [discriminate|]. exists a, s'.
  cbn [sym_shape] in HI. unfold starts_no_symbol in HI.
  rewrite !andb_true_iff, !negb_true_iff, !orb_false_iff, Z.leb_le, Z.leb_gt in HI. tauto.
Qed.

Lemma no_symbol_first : forall c r,
  starts_no_symbol c = true \/
  (c = 33 /\ match r with d :: _ => ident_start d = true | [] => True end) ->
  read_symbol (c :: r) = RNone.
Proof.
  intros c r Hc. unfold read_symbol.
  destruct (find_symbol symbol_tokens (c :: r)) as [[s t]|] eqn:E; [exfalso|reflexivity].
  destruct (symbol_longest_match _ _ _ E) as (HI & Hp & _). apply symbol_shape in HI.
  destruct s as [|a s']; [discriminate|]. cbn [is_prefix sym_shape] in *.
  rewrite !andb_true_iff, !negb_true_iff in *. destruct Hp as [Ha Hp], HI as [[_ Hn] H33].
  apply Z.eqb_eq in Ha. subst a. destruct Hc as [Hc|[-> Hd]]; [congruence|].
  destruct s' as [|b s'']; [discriminate|]. destruct r as [|d r]; [discriminate|].
  cbn [is_prefix Z.eqb Pos.eqb negb orb] in *. apply andb_true_iff in Hp as [Hb _].
  apply Z.eqb_eq in Hb. subst d. apply negb_true_iff in H33. congruence.
Qed.

(* For EVERY input: what a reader leaves is a suffix of what it was given, and a reader that
   returns a token has consumed a non-empty prefix *)

Definition suffix (r cur : list Z) : Prop := exists p, cur = p ++ r.
Definition ssuffix (r cur : list Z) : Prop := exists p, p <> [] /\ cur = p ++ r.

Lemma suffix_refl : forall l, suffix l l.
Proof. intro l. exists []. reflexivity. Qed.
Lemma suffix_cons : forall r cur c, suffix r cur -> suffix r (c :: cur).
Proof. intros r cur c [p ->]. exists (c :: p). reflexivity. Qed.
Lemma suffix_trans : forall a b c, suffix a b -> suffix b c -> suffix a c.
Proof. intros a b c [p ->] [q ->]. exists (q ++ p). rewrite app_assoc. reflexivity. Qed.
Lemma suffix_ssuffix_cons : forall r cur c, suffix r cur -> ssuffix r (c :: cur).
Proof. intros r cur c [p ->]. exists (c :: p). split; [discriminate|reflexivity]. Qed.
Lemma ssuffix_suffix : forall r cur, ssuffix r cur -> suffix r cur.
Proof. intros r cur [p [_ ->]]. exists p. reflexivity. Qed.
Lemma ssuffix_trans_l : forall a b c, ssuffix a b -> suffix b c -> ssuffix a c.
Proof.
  intros a b c [p [Hp ->]] [q ->]. exists (q ++ p). split; [|rewrite app_assoc; reflexivity].
  destruct q; cbn; [exact Hp|discriminate].
Qed.
Lemma suffix_length : forall r cur, suffix r cur -> (length r <= length cur)%nat.
Proof. intros r cur [p ->]. rewrite app_length. lia. Qed.
Lemma ssuffix_length : forall r cur, ssuffix r cur -> (length r < length cur)%nat.
Proof. intros r cur [p [Hp ->]]. rewrite app_length. destruct p; [congruence|cbn; lia]. Qed.

Lemma read_symbol_suffix : forall cur t r, read_symbol cur = RTok t r -> ssuffix r cur.
Proof.
  intros cur t r H. unfold read_symbol in H.
  destruct (find_symbol symbol_tokens cur) as [[s t']|] eqn:E; [|discriminate].
  inversion H; subst. destruct (symbol_longest_match _ _ _ E) as (HI & Hp & _).
  apply is_prefix_spec in Hp. destruct Hp as [k ->]. rewrite drop_prefix_app.
  exists s. split; [|reflexivity]. apply symbol_shape in HI. destruct s; discriminate.
Qed.

Lemma scan_digits_suffix : forall b n cur acc m, (length cur <= n)%nat ->
  suffix (snd (scan_digits b acc m cur)) cur.
Proof.
  induction n as [|n IH]; intros cur acc m Hl.
  - destruct cur; [cbn; apply suffix_refl|cbn in Hl; lia].
  - destruct cur as [|c cur']; [cbn; apply suffix_refl|]. cbn [Lexer.scan_digits].
    cbn [length] in Hl. destruct (digit_val b c).
    + apply suffix_cons. apply IH. lia.
    + destruct (c =? 95); [|apply suffix_refl].
      destruct cur' as [|d cur'']; [apply suffix_refl|].
      destruct (digit_val b d); [|apply suffix_refl].
      apply suffix_cons, suffix_cons. apply IH. cbn [length] in Hl. lia.
Qed.

Lemma scan_hex_suffix : forall cur acc, suffix (snd (scan_hex acc cur)) cur.
Proof.
  induction cur as [|c cur IH]; intros acc; cbn; [apply suffix_refl|].
  destruct (hex_val c); [apply suffix_cons, IH|apply suffix_refl].
Qed.

Lemma encode_escaped_rest : forall cp r0 bs r, encode_escaped cp r0 = EOk bs r -> r = r0.
Proof. intros. unfold encode_escaped in H. destruct (is_surrogate cp); inversion H; reflexivity. Qed.

Lemma read_unicode_escape_suffix : forall after_u bs r,
  read_unicode_escape after_u = EOk bs r -> suffix r after_u.
Proof.
  intros after_u bs r H. unfold Lexer.read_unicode_escape in H.
  destruct after_u as [|o [|d r0]]; try discriminate.
  destruct (o =? 123); [|discriminate]. destruct (hex_val d); [|discriminate].
  pose proof (scan_hex_suffix r0 z) as Hs.
  destruct (scan_hex z r0) as [cp r'] eqn:E. cbn [snd] in Hs.
  destruct r' as [|cl r'']; [discriminate|]. destruct (cl =? 125); [|discriminate].
  destruct (cp <? 1114112).
  - apply encode_escaped_rest in H. subst r.
    apply suffix_cons, suffix_cons. eapply suffix_trans; [|exact Hs]. apply suffix_cons, suffix_refl.
  - discriminate.
Qed.

Lemma read_escape_suffix : forall after_bs bs r, read_escape after_bs = EOk bs r -> suffix r after_bs.
Proof.
  intros after_bs bs r H. unfold Lexer.read_escape in H.
  destruct after_bs as [|c r0]; [discriminate|].
  destruct (c =? 120).
  - destruct r0 as [|h1 [|h2 r']]; try discriminate.
    destruct (hex_val h1); [|discriminate]. destruct (hex_val h2); [|discriminate].
    inversion H; subst. exists [c; h1; h2]. reflexivity.
  - destruct (c =? 117).
    + apply suffix_cons. eapply read_unicode_escape_suffix. exact H.
    + destruct (lookupZ c escape_codes); [|discriminate].
      apply encode_escaped_rest in H. subst. apply suffix_cons, suffix_refl.
Qed.

Lemma read_item_suffix : forall c r0 bs r, read_item c r0 = EOk bs r -> suffix r r0.
Proof.
  intros c r0 bs r H. unfold Lexer.read_item in H. destruct (c =? 92).
  - eapply read_escape_suffix. exact H.
  - unfold encode_raw in H. destruct (is_surrogate c); inversion H. apply suffix_refl.
Qed.

Lemma str_loop_suffix : forall fuel cur acc bs r,
  str_loop fuel cur acc = SOk bs r -> ssuffix r cur.
Proof.
  induction fuel as [|f IH]; intros cur acc bs r H; [discriminate|].
  cbn [Lexer.str_loop] in H. destruct cur as [|c cur']; [discriminate|].
  destruct (c =? 34).
  - inversion H; subst. exists [c]. split; [discriminate|reflexivity].
  - destruct (read_item c cur') as [bs' r1|e r1|k] eqn:E; try discriminate.
    apply read_item_suffix in E. apply IH in H.
    eapply ssuffix_trans_l; [exact H|]. apply suffix_cons. exact E.
Qed.

(* the fuel given to str_loop by read_string is always enough *)
Lemma str_loop_fuel : forall fuel cur acc, (length cur < fuel)%nat -> str_loop fuel cur acc <> SFuel.
Proof.
  induction fuel as [|f IH]; intros cur acc Hf; [lia|].
  cbn [Lexer.str_loop]. destruct cur as [|c cur']; [discriminate|].
  destruct (c =? 34); [discriminate|].
  destruct (read_item c cur') as [bs' r1|e r1|k] eqn:E; try discriminate.
  apply read_item_suffix, suffix_length in E. apply IH. cbn [length] in Hf. lia.
Qed.

Lemma read_string_suffix : forall cur t r, read_string cur = RTok t r -> ssuffix r cur.
Proof.
  intros cur t r H. unfold Lexer.read_string in H. destruct cur as [|c cur']; [discriminate|].
  destruct (c =? 34); [|discriminate].
  destruct (str_loop (S (length cur')) cur' []) as [bs r1|e r1|k|] eqn:E; try discriminate.
  inversion H; subst. apply str_loop_suffix in E. apply ssuffix_suffix in E.
  apply suffix_ssuffix_cons. exact E.
Qed.

Lemma read_char_suffix : forall cur t r, read_char cur = RTok t r -> ssuffix r cur.
Proof.
  intros cur t r H. unfold Lexer.read_char in H. destruct cur as [|q cur']; [discriminate|].
  destruct (q =? 39); [|discriminate]. destruct cur' as [|c r0]; [discriminate|].
  destruct (c =? 39); [discriminate|].
  destruct (read_item c r0) as [bs r2|e r2|k] eqn:E; try discriminate.
  apply read_item_suffix in E.
  destruct r2 as [|q2 r3]; [discriminate|]. destruct (q2 =? 39); [|discriminate].
  destruct bs as [|b [|b' bs']]; try discriminate. inversion H; subst.
  apply suffix_ssuffix_cons, suffix_cons. eapply suffix_trans; [|exact E]. apply suffix_cons, suffix_refl.
Qed.

Lemma read_prefixed_suffix : forall b letter cur v n r,
  Lexer.read_prefixed uni_digit b letter cur = Some (v, n, r) -> ssuffix r cur.
Proof.
  intros b letter cur v n r H. unfold Lexer.read_prefixed in H.
  destruct cur as [|z [|q [|d cur']]]; try discriminate.
  destruct ((z =? 48) && (q =? letter)); [|discriminate].
  destruct (digit_val b d) as [v0|]; [|discriminate].
  pose proof (scan_digits_suffix b (length cur') cur' v0 1 (le_n _)) as Hs.
  inversion H as [E]. rewrite E in Hs. cbn [snd] in Hs.
  apply suffix_ssuffix_cons, suffix_cons, suffix_cons. exact Hs.
Qed.

Lemma read_int_suffix : forall cur t r, read_int cur = RTok t r -> ssuffix r cur.
Proof.
  intros cur t r H. unfold Lexer.read_int in H.
  destruct (Lexer.read_prefixed uni_digit Hex 120 cur) as [[[v n] r']|] eqn:E1;
    [|destruct (Lexer.read_prefixed uni_digit Oct 111 cur) as [[[v n] r']|] eqn:E2;
      [|destruct (Lexer.read_prefixed uni_digit Bin 98 cur) as [[[v n] r']|] eqn:E3]].
  1-3: inversion H; subst; eapply read_prefixed_suffix; eassumption.
  unfold Lexer.read_dec in H. destruct cur as [|d cur']; [discriminate|].
  destruct (dec_val d) as [v0|]; [|discriminate].
  pose proof (scan_digits_suffix Dec (length cur') cur' v0 1 (le_n _)) as Hs.
  destruct (scan_digits Dec v0 1 cur') as [[v n] r'] eqn:E. cbn [snd] in Hs.
  destruct (int_max_str_digits <? n); [discriminate|]. inversion H; subst.
  apply suffix_ssuffix_cons. exact Hs.
Qed.

Lemma span_word_split : forall cur w r, span_word cur = (w, r) -> cur = w ++ r.
Proof.
  induction cur as [|c cur IH]; intros w r H; cbn in H.
  - inversion H. reflexivity.
  - destruct (is_word c).
    + destruct (span_word cur) as [w' r'] eqn:E. inversion H; subst.
      cbn. f_equal. apply IH. reflexivity.
    + inversion H. reflexivity.
Qed.

Lemma match_ident_split : forall cur w r, match_ident cur = Some (w, r) ->
  cur = w ++ r /\ w <> [].
Proof.
  intros cur w r H. unfold Lexer.match_ident in H. destruct cur as [|c cur']; [discriminate|].
  destruct (ident_start c); [|discriminate].
  destruct (span_word cur') as [w' r'] eqn:E. inversion H; subst.
  apply span_word_split in E. subst. split; [reflexivity|discriminate].
Qed.

Lemma read_flavoured_suffix : forall f cur t r,
  read_flavoured f cur = RTok t r -> suffix r cur.
Proof.
  intros f cur t r H. unfold Lexer.read_flavoured in H.
  destruct (match_ident cur) as [[w r']|] eqn:E; [|discriminate].
  apply match_ident_split in E. destruct E as [-> _].
  destruct (lookup w keyword_tokens); [discriminate|]. inversion H; subst. exists w. reflexivity.
Qed.

Lemma read_ident_kw_suffix : forall cur t r, read_ident_kw cur = RTok t r -> ssuffix r cur.
Proof.
  intros cur t r H. unfold Lexer.read_ident_kw in H. destruct cur as [|c cur']; [discriminate|].
  destruct (c =? flavor_sigil_you); [|destruct (c =? flavor_sigil_defeat)].
  1-2: apply suffix_ssuffix_cons; eapply read_flavoured_suffix; exact H.
  destruct (match_ident (c :: cur')) as [[w r']|] eqn:E; [|discriminate].
  apply match_ident_split in E. destruct E as [E Hw].
  assert (r = r') by (destruct (lookup w keyword_tokens); inversion H; reflexivity). subst r'.
  exists w. split; assumption.
Qed.

Lemma or_else_tok : forall a b cur t r,
  or_else a b cur = RTok t r -> a = RTok t r \/ b cur = RTok t r.
Proof. intros [| | |] *; cbn; auto. Qed.

(* every token reader consumes a non-empty prefix of the line *)
Theorem read_token_suffix : forall cur t r, read_token cur = RTok t r -> ssuffix r cur.
Proof.
  (* unfolded in the goal, not in a hypothesis: the kernel then meets `read_token` as the
     expected type and unfolds it; the other way round it unfolds `or_else` first, and its
     scrutinee drags in the sorting of `symbol_tokens` *)
  intros cur t r. unfold Lexer.read_token. intros H.
  apply or_else_tok in H as [H|H]; [|exact (read_char_suffix _ _ _ H)].
  apply or_else_tok in H as [H|H]; [|exact (read_string_suffix _ _ _ H)].
  apply or_else_tok in H as [H|H]; [|exact (read_int_suffix _ _ _ H)].
  apply or_else_tok in H as [H|H]; [exact (read_symbol_suffix _ _ _ H)|exact (read_ident_kw_suffix _ _ _ H)].
Qed.

(* a token together with one way of writing it *)

Inductive stok :=
| KEnum (s : list Z) (t : tag)                            (* keyword / symbol *)
| KIdent (f : flavor) (w : list Z)
| KInt (b : base) (d : Z) (ds : list Z) (seps : list bool)
| KStr (items : list sitem)
| KChr (it : sitem).

Definition spell (t : stok) : list Z :=
  match t with
  | KEnum s _ => s
  | KIdent f w => sigil f ++ w
  | KInt b d ds seps => render_int b (d :: ds) seps
  | KStr items => render_string items
  | KChr it => 39 :: render_item it ++ [39]
  end.

Definition denote (t : stok) : token :=
  match t with
  | KEnum _ t => TEnum t
  | KIdent f w => TIdent f w
  | KInt b d ds _ => TInt (int_value b (d :: ds))
  | KStr items => TString (items_bytes items)
  | KChr it => TChar (hd 0 (item_bytes it))
  end.

Definition tok_ok (t : stok) : Prop :=
  match t with
  | KEnum s t => In (s, t) enum_tokens
  | KIdent f w => ident_word w /\ lookup w keyword_tokens = None
  | KInt b d ds _ =>
      Forall (valid_digit b) (d :: ds) /\
      (b = Dec -> len (d :: ds) <= int_max_str_digits /\ is_space d = false)
  | KStr items => Forall item_ok items
  | KChr it => item_ok it /\ (exists b, item_bytes it = [b]) /\ it <> SRaw 39
  end.

(* what may follow a token directly (k = the rest of the line) *)
Definition word_end_b (k : list Z) : bool :=
  match k with [] => true | c :: _ => negb (is_word c) end.
Definition none_b (o : option Z) : bool := match o with None => true | Some _ => false end.
Definition stops_b (b : base) (k : list Z) : bool :=
  match k with
  | [] => true
  | c :: k' => none_b (digit_val b c) &&
               (negb (c =? 95) || match k' with d :: _ => none_b (digit_val b d) | [] => true end)
  end.
Definition not_letter_b (k : list Z) : bool :=
  match k with c :: _ => negb (c =? 120) && negb (c =? 111) && negb (c =? 98) | [] => true end.
Definition sym_follow_b (s k : list Z) : bool :=
  forallb (fun e => negb (is_prefix (fst e) (s ++ k)) || Nat.leb (length (fst e)) (length s))
          symbol_tokens
  && negb (starts_comment (s ++ k)).

Definition follow_ok (t : stok) (k : list Z) : bool :=
  match t with
  | KEnum s _ => if is_ident_ascii s then word_end_b k else sym_follow_b s k
  | KIdent _ _ => word_end_b k
  | KInt b _ _ _ => stops_b b k && match b with Dec => not_letter_b k | _ => true end
  | KStr _ => true
  | KChr _ => true
  end.

Lemma word_end_b_spec : forall k, word_end_b k = true -> word_end k.
Proof. intros [|c k] H; cbn in *; [exact I|]. apply negb_true_iff in H. exact H. Qed.

Lemma none_b_spec : forall o, none_b o = true -> o = None.
Proof. intros [x|] H; [discriminate|reflexivity]. Qed.

Lemma stops_b_spec : forall b k, stops_b b k = true -> stops b k.
Proof.
  intros b [|c k'] H; cbn in *; [exact I|]. apply andb_true_iff in H. destruct H as [H1 H2].
  split; [apply none_b_spec; exact H1|]. intros ->. cbn in H2.
  destruct k' as [|d k'']; [exact I|]. apply none_b_spec. exact H2.
Qed.

Lemma not_letter_b_spec : forall k, not_letter_b k = true -> not_letter k.
Proof.
  intros [|c k] H; cbn in *; [exact I|].
  repeat (apply andb_true_iff in H; destruct H as [H ?]).
  apply negb_true_iff in H, H0, H1. apply Z.eqb_neq in H, H0, H1. auto.
Qed.

Lemma is_space_ascii : forall c, 0 <= c < 128 -> ascii_space c = false -> is_space c = false.
Proof. intros c Hc H. unfold Lexer.is_space. destruct (Z.ltb_spec c 128); [exact H|lia]. Qed.

Lemma ident_start_not_space : forall c, ident_start c = true -> is_space c = false.
Proof.
  intros c H. apply ident_start_range in H. apply is_space_ascii; [lia|].
  unfold ascii_space. bdall.
Qed.

Lemma ident_start_is_word : forall c, ident_start c = true -> is_word c = true.
Proof using uni_space uni_word uni_digit.
  intros c H. pose proof (ident_start_range c H). unfold Lexer.is_word.
  destruct (Z.ltb_spec c 128); [apply ident_start_word; exact H|lia].
Qed.

Lemma ascii_word_is_word : forall c, ascii_word c = true -> is_word c = true.
Proof.
  intros c H. pose proof (ascii_word_range c H). unfold Lexer.is_word.
  destruct (Z.ltb_spec c 128); [exact H|lia].
Qed.

Lemma is_ident_ascii_word : forall s, is_ident_ascii s = true -> ident_word s.
Proof.
  intros [|c s] H; [discriminate|]. cbn in H. apply andb_true_iff in H. destruct H as [H1 H2].
  split; [exact H1|]. rewrite forallb_forall in H2. apply Forall_forall. intros x HI.
  apply ascii_word_is_word. apply H2. exact HI.
Qed.

Lemma dec_val_cases : forall d v, dec_val d = Some v -> 48 <= d <= 57 \/ 128 <= d.
Proof.
  intros d v H. unfold Lexer.dec_val in H. destruct (Z.ltb_spec d 128); [|lia].
  unfold ascii_digit in H. revert H. bdall.
Qed.

(* the first character of a number: no other reader takes it *)
Lemma digit_first : forall d, 48 <= d <= 57 \/ 128 <= d ->
  ident_start d = false /\ d <> 64 /\ d <> 33 /\ d <> 47 /\ starts_no_symbol d = true.
Proof.
  intros d Hd. repeat split; try lia; unfold starts_no_symbol, ident_start, ascii_alpha, ascii_digit;
    bdall.
Qed.

Lemma read_ident_kw_none : forall c r, ident_start c = false -> c <> 64 -> c <> 33 ->
  read_ident_kw (c :: r) = RNone.
Proof.
  intros c r H1 H2 H3. unfold Lexer.read_ident_kw, flavor_sigil_you, flavor_sigil_defeat.
  destruct (Z.eqb_spec c 64); [lia|]. destruct (Z.eqb_spec c 33); [lia|].
  unfold Lexer.match_ident. rewrite H1. reflexivity.
Qed.

Lemma read_int_none : forall c r, c <> 48 -> dec_val c = None -> read_int (c :: r) = RNone.
Proof.
  intros c r H1 H2. unfold Lexer.read_int, Lexer.read_prefixed, Lexer.read_dec.
  destruct (Z.eqb_spec c 48); [lia|]. cbn [andb]. rewrite H2.
  destruct r as [|q [|d r']]; reflexivity.
Qed.

Lemma skip_spaces_stop : forall c r col, is_space c = false ->
  skip_spaces (c :: r) col = (c :: r, col).
Proof. intros. cbn. rewrite H. reflexivity. Qed.

Lemma skip_ignore_stop : forall c r col, is_space c = false -> starts_comment (c :: r) = false ->
  skip_ignore (c :: r) col = (c :: r, col).
Proof. intros. unfold Lexer.skip_ignore. rewrite skip_spaces_stop by assumption. rewrite H0. reflexivity. Qed.

Lemma starts_comment_first : forall c r, c <> 47 -> starts_comment (c :: r) = false.
Proof. intros. destruct r as [|b r]; [reflexivity|]. cbn. destruct (Z.eqb_spec c 47); [lia|reflexivity]. Qed.

(* the main loop stops skipping in front of l (the first half of `reads`) *)
Definition token_front (l : list Z) : Prop :=
  exists c r, l = c :: r /\ is_space c = false /\ starts_comment (c :: r) = false.

Lemma token_start : forall c r, is_space c = false -> c <> 47 -> token_front (c :: r).
Proof. intros c r H1 H2. exists c, r. auto using starts_comment_first. Qed.

(* what the main loop needs to know about a token in front of the text k *)
Definition reads (t : stok) (k : list Z) : Prop :=
  (exists c r, spell t ++ k = c :: r /\ is_space c = false /\ starts_comment (c :: r) = false) /\
  read_token (spell t ++ k) = RTok (denote t) k.

Lemma enum_symbol_reads : forall s t k, In (s, t) enum_tokens -> is_ident_ascii s = false ->
  sym_follow_b s k = true -> reads (KEnum s t) k.
Proof.
  intros s t k HI Hid Hf. assert (HS : In (s, t) symbol_tokens) by (apply symbol_tokens_spec; auto).
  unfold sym_follow_b in Hf. apply andb_true_iff in Hf. destruct Hf as [Hmax Hcom].
  apply negb_true_iff in Hcom.
  destruct (symbol_first s t HS) as (a & s' & -> & Ha & Hsp).
  split; cbn [spell].
  - exists a, (s' ++ k). split; [reflexivity|]. split; [apply is_space_ascii; assumption|exact Hcom].
  - unfold Lexer.read_token. rewrite (read_symbol_exact (a :: s') t k HS); [reflexivity|].
    intros s1 t1 HI1 Hp. rewrite forallb_forall in Hmax. specialize (Hmax _ HI1). cbn [fst] in Hmax.
    rewrite Hp in Hmax. cbn in Hmax. apply Nat.leb_le in Hmax. exact Hmax.
Qed.

Lemma ident_first : forall f w k, ident_word w -> token_front (sigil f ++ w ++ k).
Proof.
  intros f [|c w] k Hw; [destruct Hw|]. destruct Hw as [Hc _].
  destruct f; cbn [sigil app]; apply token_start; try (reflexivity || discriminate).
  - exact (ident_start_not_space c Hc).
  - apply ident_start_range in Hc. lia.
Qed.

(* a word, with or without sigil, is left to the identifier reader *)
Lemma read_token_ident : forall f w k, ident_word w -> word_end k ->
  read_token (sigil f ++ w ++ k) = read_ident_kw (sigil f ++ w ++ k).
Proof.
  intros f w k Hw Hk.
  assert (Hs : read_symbol (sigil f ++ w ++ k) = RNone).
  { destruct w as [|c w]; [destruct Hw|]. destruct Hw as [Hc _].
    destruct f; cbn [sigil app]; apply no_symbol_first; [left|left|right; split]; try reflexivity.
    - unfold starts_no_symbol. rewrite Hc. reflexivity.
    - exact Hc. }
  unfold Lexer.read_token. rewrite Hs. cbn [or_else].
  rewrite (classify f w k Hw Hk). destruct (lookup w keyword_tokens), f; reflexivity.
Qed.

Lemma enum_keyword_reads : forall s t k, In (s, t) enum_tokens -> is_ident_ascii s = true ->
  word_end_b k = true -> reads (KEnum s t) k.
Proof.
  intros s t k HI Hid Hk. apply word_end_b_spec in Hk.
  assert (HK : In (s, t) keyword_tokens) by (apply keyword_tokens_spec; auto).
  pose proof (is_ident_ascii_word s Hid) as Hw.
  split; [exact (ident_first FNone s k Hw)|]. cbn [spell denote].
  change (s ++ k) with (sigil FNone ++ s ++ k).
  rewrite read_token_ident, (classify FNone s k Hw Hk) by assumption.
  apply keyword_lookup_iff in HK. rewrite HK. reflexivity.
Qed.

Lemma ident_reads : forall f w k, ident_word w -> lookup w keyword_tokens = None ->
  word_end_b k = true -> reads (KIdent f w) k.
Proof.
  intros f w k Hw Hl Hk. apply word_end_b_spec in Hk. unfold reads. cbn [spell denote].
  rewrite <- app_assoc. split; [exact (ident_first f w k Hw)|].
  rewrite read_token_ident, (classify f w k Hw Hk), Hl by assumption. reflexivity.
Qed.

Lemma read_token_number : forall c r, 48 <= c <= 57 \/ 128 <= c -> read_int (c :: r) <> RNone ->
  read_token (c :: r) = read_int (c :: r).
Proof.
  intros c r Hc Hn. destruct (digit_first c Hc) as (H1 & H2 & H3 & _ & H5).
  unfold Lexer.read_token. rewrite no_symbol_first by (left; exact H5).
  cbn [or_else]. rewrite read_ident_kw_none by assumption. cbn [or_else].
  destruct (read_int (c :: r)); [contradiction|reflexivity..].
Qed.

Lemma int_reads : forall b d ds seps k,
  Forall (valid_digit b) (d :: ds) ->
  (b = Dec -> len (d :: ds) <= int_max_str_digits /\ is_space d = false) ->
  stops_b b k = true -> (b = Dec -> not_letter_b k = true) -> reads (KInt b d ds seps) k.
Proof.
  intros b d ds seps k Hv Hdec Hs Hnl. apply stops_b_spec in Hs.
  assert (Hread : read_int (render_int b (d :: ds) seps ++ k) = RTok (TInt (int_value b (d :: ds))) k).
  { apply read_int_render; [exact Hv|exact Hs|].
    intros E. destruct (Hdec E) as [H1 _]. split; [apply not_letter_b_spec; auto|exact H1]. }
  assert (Hfirst : exists c r, render_int b (d :: ds) seps ++ k = c :: r /\
                               (48 <= c <= 57 \/ 128 <= c) /\ is_space c = false).
  { destruct b; cbn [render_int base_prefix render_digits app].
    1-3: eexists _, _; split; [reflexivity|]; split; [lia|reflexivity].
    eexists _, _. split; [reflexivity|]. inversion Hv as [|? ? [v Hd] _]; subst.
    split; [eapply dec_val_cases; exact Hd|apply Hdec; reflexivity]. }
  destruct Hfirst as (c & r & E & Hc & Hsp). unfold reads. cbn [spell denote]. rewrite E in *.
  split; [apply token_start; [exact Hsp|apply (digit_first c Hc)]|].
  rewrite read_token_number by (exact Hc || rewrite Hread; discriminate). exact Hread.
Qed.

(* a quote is left to the two literal readers *)
Lemma read_token_quote : forall c r, c = 34 \/ c = 39 ->
  read_token (c :: r) = or_else (read_string (c :: r)) read_char (c :: r).
Proof.
  intros c r Hc. unfold Lexer.read_token. destruct Hc as [-> | ->].
  all: rewrite no_symbol_first by (left; reflexivity); cbn [or_else].
  all: rewrite read_ident_kw_none by (reflexivity || discriminate); cbn [or_else].
  all: rewrite read_int_none by (reflexivity || discriminate); reflexivity.
Qed.

Lemma str_reads : forall items k, Forall item_ok items -> reads (KStr items) k.
Proof.
  intros items k Hok. unfold reads. cbn [spell denote].
  pose proof (read_string_render items k Hok) as E.
  unfold render_string in *. cbn [app] in *.
  split; [apply token_start; [reflexivity|discriminate]|].
  rewrite read_token_quote, E by auto. reflexivity.
Qed.

Lemma chr_reads : forall it k, item_ok it -> (exists b, item_bytes it = [b]) -> it <> SRaw 39 ->
  reads (KChr it) k.
Proof.
  intros it k Hok [b Hb] Hq. unfold reads. cbn [spell denote]. rewrite Hb. cbn [hd app].
  rewrite <- app_assoc. cbn [app]. split; [apply token_start; [reflexivity|discriminate]|].
  rewrite read_token_quote by auto. unfold Lexer.read_string. cbn [Z.eqb Pos.eqb or_else].
  exact (read_char_render it b k Hok Hb Hq).
Qed.

Theorem token_reads : forall t k, tok_ok t -> follow_ok t k = true -> reads t k.
Proof.
  intros [s t|f w|b d ds seps|items|it] k Hok Hf; cbn [tok_ok follow_ok] in *.
  - destruct (is_ident_ascii s) eqn:E; [apply enum_keyword_reads|apply enum_symbol_reads]; assumption.
  - destruct Hok. apply ident_reads; assumption.
  - destruct Hok as [Hv Hd]. apply andb_true_iff in Hf. destruct Hf as [Hs Hn].
    apply int_reads; try assumption. intros ->. exact Hn.
  - apply str_reads; assumption.
  - destruct Hok as (H1 & H2 & H3). apply chr_reads; assumption.
Qed.

(* what may stand between tokens *)

Inductive gap_item :=
| GWs (c : Z)                    (* one whitespace character (any \s that is not a line feed) *)
| GNewline                       (* a line break *)
| GComment (body : list Z).      (* `//body` up to and including the line break *)

(* a text under construction: the current line and the lines after it *)
Definition text : Type := (list Z * list (list Z))%type.
Definition push (a : list Z) (t : text) : text := (a ++ fst t, snd t).
Definition newline (t : text) : text := ([], fst t :: snd t).
Definition to_lines (t : text) : list (list Z) := fst t :: snd t.

Fixpoint render_gap (g : list gap_item) (t : text) : text :=
  match g with
  | [] => t
  | GWs c :: g' => push [c] (render_gap g' t)
  | GNewline :: g' => newline (render_gap g' t)
  | GComment body :: g' => push (47 :: 47 :: body) (newline (render_gap g' t))
  end.

(* tokens, each preceded by its gap; `final` is what comes after the last token *)
Fixpoint render (l : list (list gap_item * stok)) (final : text) : text :=
  match l with
  | [] => final
  | (g, t) :: l' => render_gap g (push (spell t) (render l' final))
  end.

(* trailing layout: a gap, then optionally an unterminated `//` comment on the last line *)
Definition final_text (g : list gap_item) (tail : option (list Z)) : text :=
  render_gap g (match tail with Some body => 47 :: 47 :: body | None => [] end, []).

Definition gap_ok (i : gap_item) : Prop :=
  match i with GWs c => is_space c = true | _ => True end.

(* positions, counted forward exactly as the text is written *)
Fixpoint gap_pos (g : list gap_item) (ln col : Z) : Z * Z :=
  match g with
  | [] => (ln, col)
  | GWs _ :: g' => gap_pos g' ln (col + 1)
  | GNewline :: g' => gap_pos g' (ln + 1) 0
  | GComment _ :: g' => gap_pos g' (ln + 1) 0
  end.

Fixpoint lexemes (l : list (list gap_item * stok)) (ln col : Z) : list lexeme :=
  match l with
  | [] => []
  | (g, t) :: l' =>
      let (ln1, col1) := gap_pos g ln col in
      let col2 := col1 + len (spell t) in
      (denote t, (ln1, col1, col2)) :: lexemes l' ln1 col2
  end.

Fixpoint last_pos (l : list (list gap_item * stok)) (ln col : Z) (last : Z * Z) : Z * Z :=
  match l with
  | [] => last
  | (g, t) :: l' =>
      let (ln1, col1) := gap_pos g ln col in
      let col2 := col1 + len (spell t) in
      last_pos l' ln1 col2 (ln1, col2)
  end.

(* every gap is made of whitespace/comments, every token is well formed, and what directly
   follows each token on its line (the next token's text, a comment, whitespace or nothing)
   does not merge with it *)
Fixpoint separable (l : list (list gap_item * stok)) (final : text) : Prop :=
  match l with
  | [] => True
  | (g, t) :: l' =>
      Forall gap_ok g /\ tok_ok t /\ follow_ok t (fst (render l' final)) = true /\
      separable l' final
  end.

(* the same in three parts: the gaps, the tokens, and (a closed boolean for a concrete text) what
   follows each token *)
Fixpoint follows_b (l : list (list gap_item * stok)) (final : text) : bool :=
  match l with
  | [] => true
  | (g, t) :: l' => follow_ok t (fst (render l' final)) && follows_b l' final
  end.

Lemma separable_parts : forall l final,
  Forall (Forall gap_ok) (map fst l) -> Forall tok_ok (map snd l) -> follows_b l final = true ->
  separable l final.
Proof.
  induction l as [|[g t] l IH]; intros final Hg Ht Hf; [exact I|].
  cbn [map fst snd follows_b separable] in *.
  inversion Hg; inversion Ht; subst. apply andb_true_iff in Hf as [Hf1 Hf2]. auto.
Qed.

Definition tmeasure (t : text) : nat := measure (fst t) (snd t).

Lemma tmeasure_push : forall a t, tmeasure (push a t) = (length a + tmeasure t)%nat.
Proof. intros a [l ls]. unfold tmeasure, push, measure. cbn [fst snd]. rewrite app_length. lia. Qed.
Lemma tmeasure_newline : forall t, tmeasure (newline t) = S (tmeasure t).
Proof. intros [l ls]. unfold tmeasure, newline, measure. cbn [fst snd fold_right length]. lia. Qed.

Lemma lex_loop_space : forall f c cur rest ln col last, is_space c = true ->
  lex_loop (S f) (c :: cur) rest ln col last = lex_loop (S f) cur rest ln (col + 1) last.
Proof.
  intros. cbn [Lexer.lex_loop]. unfold Lexer.skip_ignore. cbn [Lexer.skip_spaces]. rewrite H.
  reflexivity.
Qed.

Lemma lex_loop_newline : forall f l ls ln col last,
  lex_loop (S f) [] (l :: ls) ln col last = lex_loop f l ls (ln + 1) 0 last.
Proof. intros. reflexivity. Qed.

Lemma lex_loop_comment : forall f body l ls ln col last,
  lex_loop (S f) (47 :: 47 :: body) (l :: ls) ln col last = lex_loop f l ls (ln + 1) 0 last.
Proof. intros. reflexivity. Qed.

Lemma lex_loop_end : forall f ln col last, lex_loop (S f) [] [] ln col last = ([], ODone last).
Proof. intros. reflexivity. Qed.

Lemma lex_loop_end_comment : forall f body ln col last,
  lex_loop (S f) (47 :: 47 :: body) [] ln col last = ([], ODone last).
Proof. intros. reflexivity. Qed.

Lemma lex_loop_token : forall f t cur rest ln col last, reads t cur ->
  lex_loop (S f) (spell t ++ cur) rest ln col last =
  cons_lex (denote t, (ln, col, col + len (spell t)))
           (lex_loop f cur rest ln (col + len (spell t)) (ln, col + len (spell t))).
Proof.
  intros f t cur rest ln col last [(c & r & E & Hsp & Hcom) Hread].
  cbn [Lexer.lex_loop]. rewrite E in *. rewrite skip_ignore_stop by assumption.
  rewrite Hread.
  rewrite <- E. rewrite len_app.
  replace (len (spell t) + len cur - len cur) with (len (spell t)) by lia. reflexivity.
Qed.

Lemma lex_gap : forall g T last (F : Z -> Z -> result),
  Forall gap_ok g ->
  (forall fuel ln col, (tmeasure T < fuel)%nat ->
     lex_loop fuel (fst T) (snd T) ln col last = F ln col) ->
  forall fuel ln col, (tmeasure (render_gap g T) < fuel)%nat ->
    lex_loop fuel (fst (render_gap g T)) (snd (render_gap g T)) ln col last =
    F (fst (gap_pos g ln col)) (snd (gap_pos g ln col)).
Proof.
  induction g as [|i g IH]; intros T last F Hok HT fuel ln col Hf.
  - cbn [render_gap gap_pos fst snd] in *. apply HT. exact Hf.
  - inversion Hok as [|? ? Hi Hok']; subst. destruct i as [c| |body]; cbn [render_gap gap_pos] in *.
    + rewrite tmeasure_push in Hf. cbn [length] in Hf.
      destruct fuel as [|f]; [lia|]. unfold push. cbn [fst snd app].
      rewrite lex_loop_space by exact Hi. apply IH; [assumption|assumption|lia].
    + rewrite tmeasure_newline in Hf. destruct fuel as [|f]; [lia|].
      unfold newline. cbn [fst snd]. rewrite lex_loop_newline. apply IH; [assumption|assumption|lia].
    + rewrite tmeasure_push, tmeasure_newline in Hf. cbn [length] in Hf.
      destruct fuel as [|f]; [lia|]. unfold push, newline. cbn [fst snd app].
      rewrite lex_loop_comment. apply IH; [assumption|assumption|lia].
Qed.

Lemma final_done : forall g tail last, Forall gap_ok g ->
  forall fuel ln col, (tmeasure (final_text g tail) < fuel)%nat ->
    lex_loop fuel (fst (final_text g tail)) (snd (final_text g tail)) ln col last = ([], ODone last).
Proof.
  intros g tail last Hok fuel ln col Hf. unfold final_text in *.
  rewrite (lex_gap g _ last (fun _ _ => ([], ODone last))); [reflexivity|exact Hok| |exact Hf].
  intros fuel' ln' col' Hf'. destruct fuel' as [|f]; [lia|].
  destruct tail; cbn [fst snd]; [apply lex_loop_end_comment|apply lex_loop_end].
Qed.

Lemma reads_nonempty : forall t k, reads t k -> (0 < length (spell t))%nat.
Proof.
  intros t k [_ H]. apply read_token_suffix in H as [p [Hp E]]. apply app_inv_tail in E.
  rewrite E. destruct p; [congruence|cbn; lia].
Qed.

Lemma lex_render : forall l final,
  (forall last fuel ln col, (tmeasure final < fuel)%nat ->
     lex_loop fuel (fst final) (snd final) ln col last = ([], ODone last)) ->
  separable l final ->
  forall last fuel ln col, (tmeasure (render l final) < fuel)%nat ->
    lex_loop fuel (fst (render l final)) (snd (render l final)) ln col last =
    (lexemes l ln col, ODone (last_pos l ln col last)).
Proof.
  induction l as [|[g t] l IH]; intros final Hfin Hsep last fuel ln col Hf.
  - cbn [render lexemes last_pos] in *. apply Hfin. exact Hf.
  - destruct Hsep as (Hg & Hok & Hfol & Hsep). cbn [render lexemes last_pos] in *.
    pose proof (token_reads t _ Hok Hfol) as Hreads.
    rewrite (lex_gap g _ last
      (fun ln1 col1 =>
         ((denote t, (ln1, col1, col1 + len (spell t)))
            :: lexemes l ln1 (col1 + len (spell t)),
          ODone (last_pos l ln1 (col1 + len (spell t)) (ln1, col1 + len (spell t))))));
      [destruct (gap_pos g ln col); reflexivity|exact Hg| |exact Hf].
    intros fuel' ln' col' Hf'. rewrite tmeasure_push in Hf'.
    pose proof (reads_nonempty t _ Hreads) as Hne.
    destruct fuel' as [|f]; [lia|]. unfold push. cbn [fst snd].
    rewrite lex_loop_token by exact Hreads.
    rewrite (IH final Hfin Hsep) by lia. reflexivity.
Qed.

(* LAYOUT INDEPENDENCE, on lines.  Whatever whitespace, line breaks and comments are put
   between (before, after) the tokens, the lexer returns exactly the tokens that were written,
   each with the span of the text it was written at, and finishes normally. *)
Theorem layout_independence_lines : forall l g tail,
  separable l (final_text g tail) -> Forall gap_ok g ->
  lex_lines (to_lines (render l (final_text g tail))) =
  (lexemes l 0 0, ODone (last_pos l 0 0 (0, 0))).
Proof.
  intros l g tail Hsep Hg. unfold to_lines, Lexer.lex_lines.
  apply lex_render; [|exact Hsep|unfold tmeasure; lia].
  intros last fuel ln col Hf. apply final_done; assumption.
Qed.

Lemma lexemes_tokens : forall l ln col, map fst (lexemes l ln col) = map (fun gt => denote (snd gt)) l.
Proof.
  induction l as [|[g t] l IH]; intros; cbn [lexemes map]; [reflexivity|].
  destruct (gap_pos g ln col). cbn [map fst snd]. f_equal. apply IH.
Qed.

(* the same on flat text (code points with 10 = line feed), as SourceCode.from_string *)

Definition flatten (t : text) : list Z := fst t ++ concat (map (fun l => 10 :: l) (snd t)).
Definition no_lf (l : list Z) : Prop := Forall (fun c => c <> 10) l.

Lemma split_lines_app : forall a s, no_lf a ->
  split_lines (a ++ s) = (a ++ fst (split_lines s), snd (split_lines s)).
Proof.
  induction a as [|c a IH]; intros s Ha.
  - cbn [app]. destruct (split_lines s); reflexivity.
  - inversion Ha; subst. cbn [app split_lines]. rewrite IH by assumption. cbn [fst snd].
    destruct (Z.eqb_spec c 10); [contradiction|]. reflexivity.
Qed.

Lemma split_flatten : forall l ls, Forall no_lf (l :: ls) -> split_lines (flatten (l, ls)) = (l, ls).
Proof.
  intros l ls. revert l. induction ls as [|l' ls IH]; intros l H; unfold flatten in *; cbn [fst snd] in *.
  - cbn [map concat]. inversion H; subst. rewrite split_lines_app by assumption.
    cbn. rewrite app_nil_r. reflexivity.
  - inversion H; subst. cbn [map concat]. rewrite split_lines_app by assumption.
    cbn [app split_lines]. rewrite (IH l') by assumption. cbn. rewrite app_nil_r. reflexivity.
Qed.

Theorem layout_independence : forall l g tail,
  separable l (final_text g tail) -> Forall gap_ok g ->
  Forall no_lf (to_lines (render l (final_text g tail))) ->
  lex_text (flatten (render l (final_text g tail))) =
  (lexemes l 0 0, ODone (last_pos l 0 0 (0, 0))).
Proof.
  intros l g tail Hsep Hg Hlf. unfold Lexer.lex_text.
  destruct (render l (final_text g tail)) as [ln ls] eqn:E.
  rewrite split_flatten by exact Hlf.
  pose proof (layout_independence_lines l g tail Hsep Hg) as H. rewrite E in H. exact H.
Qed.

Lemma split_lines_line : forall a, no_lf a -> split_lines a = (a, []).
Proof.
  intros a Ha. rewrite <- (app_nil_r a) at 1. rewrite split_lines_app by exact Ha.
  cbn [split_lines fst snd]. rewrite app_nil_r. reflexivity.
Qed.

Lemma render_tail_nil : forall ds, render_tail ds [] = ds.
Proof. induction ds as [|d ds IH]; [reflexivity|]. cbn. rewrite IH. reflexivity. Qed.

(* a text that is one decimal literal: the number of digits alone decides between the token and
   the LexerError at the end of the literal *)
Theorem lex_decimal_line : forall d ds,
  Forall (valid_digit Dec) (d :: ds) -> is_space d = false ->
  lex_text (d :: ds) =
  if int_max_str_digits <? len (d :: ds) then ([], OErr EIntTooLarge 0 (len (d :: ds)))
  else ([(TInt (int_value Dec (d :: ds)), (0, 0, len (d :: ds)))], ODone (0, len (d :: ds))).
Proof.
  intros d ds Hv Hsp.
  assert (Hc : 48 <= d <= 57 \/ 128 <= d).
  { inversion Hv as [|? ? [v Hd] _]. exact (dec_val_cases _ _ Hd). }
  assert (Hlf : no_lf (d :: ds)).
  { eapply Forall_impl; [|exact Hv]. intros c [v Hd] ->. discriminate Hd. }
  pose proof (read_int_dec d ds [] [] Hv I I) as Hread.
  unfold render_int, render_digits in Hread. cbn [base_prefix app] in Hread.
  rewrite render_tail_nil, app_nil_r in Hread.
  unfold Lexer.lex_text. rewrite split_lines_line by exact Hlf.
  unfold Lexer.lex_lines. cbn [Lexer.lex_loop].
  rewrite skip_ignore_stop by (exact Hsp || apply starts_comment_first, (digit_first d Hc)).
  rewrite read_token_number, Hread by (exact Hc || rewrite Hread; destruct (_ <? _); discriminate).
  destruct (int_max_str_digits <? len (d :: ds)); rewrite len_nil, Z.sub_0_r, Z.add_0_l;
    [reflexivity|].
  unfold measure. cbn [length Nat.add]. rewrite lex_loop_end. reflexivity.
Qed.

(* the token sequence alone: it does not depend on the layout at all *)
Corollary layout_independence_tokens : forall toks gaps g tail,
  length gaps = length toks ->
  separable (combine gaps toks) (final_text g tail) -> Forall gap_ok g ->
  map fst (fst (lex_lines (to_lines (render (combine gaps toks) (final_text g tail))))) =
  map denote toks.
Proof.
  intros toks gaps g tail Hlen Hsep Hg. rewrite layout_independence_lines by assumption.
  cbn [fst]. rewrite lexemes_tokens. clear Hsep.
  revert gaps Hlen. induction toks as [|t toks IH]; intros [|g0 gaps] Hlen; try discriminate; [reflexivity|].
  cbn [combine map snd]. f_equal. apply IH. cbn in Hlen. lia.
Qed.

Lemma skip_spaces_spec : forall cur col,
  exists ws, cur = ws ++ fst (skip_spaces cur col) /\ snd (skip_spaces cur col) = col + len ws.
Proof.
  induction cur as [|c cur IH]; intros col; [exists []; split; [reflexivity|unfold len; cbn; lia]|].
  cbn [Lexer.skip_spaces]. destruct (is_space c); [|exists []; split; [reflexivity|unfold len; cbn; lia]].
  destruct (IH (col + 1)) as (ws & E1 & E2). exists (c :: ws).
  split; [cbn; f_equal; exact E1|rewrite E2, len_cons; lia].
Qed.

Lemma skip_ignore_spec : forall cur col,
  exists ws, cur = ws ++ fst (skip_ignore cur col) /\ snd (skip_ignore cur col) = col + len ws.
Proof.
  intros cur col. unfold Lexer.skip_ignore. destruct (skip_spaces_spec cur col) as (ws & E1 & E2).
  destruct (skip_spaces cur col) as [cur1 col1]. cbn [fst snd] in *.
  destruct (starts_comment cur1); [|exists ws; auto].
  exists cur. cbn [fst snd]. rewrite app_nil_r. split; [reflexivity|].
  rewrite E1, len_app. lia.
Qed.

Lemma fst_cons_lex : forall x r, fst (cons_lex x r) = x :: fst r.
Proof. reflexivity. Qed.

Lemma skipn_len_app : forall a b : list Z, skipn (Z.to_nat (len a)) (a ++ b) = b.
Proof.
  intros. unfold len. rewrite Nat2Z.id, skipn_app, skipn_all, Nat.sub_diag. reflexivity.
Qed.

(* the lexeme (tok, (ln, c0, c1)) is exactly what the readers produce when started at column
   c0 of line ln, and they stop at column c1 *)
Definition span_exact (lines : list (list Z)) (x : lexeme) : Prop :=
  let '(tok, (ln, c0, c1)) := x in
  exists l, nth_error lines (Z.to_nat ln) = Some l /\ 0 <= ln /\ 0 <= c0 /\ c0 < c1 <= len l /\
            read_token (skipn (Z.to_nat c0) l) = RTok tok (skipn (Z.to_nat c1) l).

(* the invariant of the main loop.  Started behind the prefix `pre` of a line of `lines`, at its
   column, with fuel for what is left, it does not run out of fuel and every lexeme it produces
   is exact: a reader consumes a non-empty piece p of the line, and the loop goes on behind it *)
Lemma lex_loop_inv : forall fuel lines done pre cur rest ln col last,
  (measure cur rest < fuel)%nat ->
  lines = done ++ (pre ++ cur) :: rest -> ln = Z.of_nat (length done) -> col = len pre ->
  snd (lex_loop fuel cur rest ln col last) <> OFuel /\
  Forall (span_exact lines) (fst (lex_loop fuel cur rest ln col last)).
Proof.
  induction fuel as [|f IH]; intros lines done pre cur rest ln col last Hf Hl Hln Hcol; [lia|].
  cbn [Lexer.lex_loop]. destruct (skip_ignore_spec cur col) as (ws & E1 & E2).
  destruct (skip_ignore cur col) as [cur1 col1]. cbn [fst snd] in E1, E2.
  assert (Hcol1 : col1 = len (pre ++ ws)) by (rewrite len_app; lia). clear E2.
  subst cur. rewrite app_assoc in Hl. unfold measure in Hf. rewrite app_length in Hf.
  destruct cur1 as [|c cur1].
  - destruct rest as [|nxt rest']; [split; [discriminate|constructor]|].
    apply (IH lines (done ++ [(pre ++ ws) ++ []]) [] nxt).
    + cbn [fold_right] in Hf. unfold measure. lia.
    + rewrite <- app_assoc. exact Hl.
    + rewrite app_length. cbn [length]. lia.
    + reflexivity.
  - destruct (read_token (c :: cur1)) as [|t r|e r|k] eqn:Er;
      [split; [discriminate|constructor]| |split; [discriminate|constructor]..].
    destruct (read_token_suffix _ _ _ Er) as [p [Hp Ep]]. rewrite Ep in *.
    replace (len (p ++ r) - len r) with (len p) by (rewrite len_app; lia).
    assert (Hpp : (0 < length p)%nat) by (destruct p; [congruence|cbn; lia]).
    rewrite app_length in Hf. rewrite app_assoc in Hl.
    destruct (IH lines done ((pre ++ ws) ++ p) r rest ln (col1 + len p) (ln, col1 + len p))
      as [IH1 IH2]; [unfold measure; lia|exact Hl|exact Hln|rewrite len_app; lia|].
    subst col1. split; [exact IH1|]. constructor; [|exact IH2].
    exists (((pre ++ ws) ++ p) ++ r). split; [|split; [lia|]].
    { subst lines ln. rewrite Nat2Z.id, nth_error_app2, Nat.sub_diag by lia. reflexivity. }
    split; [apply len_nonneg|]. split; [rewrite !len_app; unfold len in *; lia|].
    rewrite <- len_app, skipn_len_app, <- app_assoc, skipn_len_app. exact Er.
Qed.

Lemma lex_lines_inv : forall lines,
  snd (lex_lines lines) <> OFuel /\ Forall (span_exact lines) (fst (lex_lines lines)).
Proof.
  intros [|l ls]; [split; [discriminate|constructor]|]. unfold Lexer.lex_lines.
  apply (lex_loop_inv _ (l :: ls) [] [] l ls); (lia || reflexivity).
Qed.

(* the model is total: its fuel is never exhausted, on any input *)
Theorem lex_lines_fuel : forall lines, snd (lex_lines lines) <> OFuel.
Proof. intros lines. apply lex_lines_inv. Qed.

(* for EVERY input: each token's reported span is exactly the text it was read from *)
Lemma lex_lines_spans : forall lines, Forall (span_exact lines) (fst (lex_lines lines)).
Proof. intros lines. apply lex_lines_inv. Qed.

Theorem lex_spans_exact : forall lines, lines <> [] ->
  Forall (span_exact lines) (fst (lex_lines lines)).
Proof. intros lines _. apply lex_lines_spans. Qed.

(* `separable` asks nothing where there is whitespace: after ANY well-formed token, the end
   of the line or an ASCII whitespace character is always an admissible continuation *)

(* a prefix of s ++ k that is longer than s contains the first character of k *)
Lemma is_prefix_app_cases : forall s e k, is_prefix e (s ++ k) = true ->
  (length e <= length s)%nat \/ exists c k', k = c :: k' /\ In c e.
Proof.
  induction s as [|b s IH]; intros [|a e] k H; try (left; cbn; lia).
  - destruct k as [|c k']; [discriminate|]. cbn in H. apply andb_true_iff in H as [H _].
    apply Z.eqb_eq in H. subst. right. exists c, k'. split; [reflexivity|left; reflexivity].
  - cbn in H. apply andb_true_iff in H as [_ H].
    apply IH in H as [H|(c & k' & -> & H)]; [left; cbn; lia|right; exists c, k'; cbn; auto].
Qed.

Lemma symbols_no_space_no_comment :
  forallb (fun e => forallb (fun a => negb (ascii_space a)) (fst e) && negb (starts_comment (fst e)))
          symbol_tokens = true.
Proof. vm_compute. reflexivity. Qed.

Lemma ascii_space_range : forall c, ascii_space c = true -> 9 <= c <= 13 \/ 28 <= c <= 32.
Proof. intros c. unfold ascii_space. bdall. Qed.

Lemma space_not_word : forall c, ascii_space c = true -> is_word c = false.
Proof.
  intros c H. apply ascii_space_range in H. unfold Lexer.is_word.
  (* the blanks lie below '0' *)
  destruct (Z.ltb_spec c 128); [|lia]. unfold ascii_word, ascii_alpha, ascii_digit. bdall.
Qed.

Lemma space_not_digit : forall b c, ascii_space c = true -> digit_val b c = None.
Proof.
  intros b c H. apply ascii_space_range in H. (* below '0', again *)
  destruct b; unfold Lexer.digit_val, Lexer.hex_val, Lexer.oct_val, Lexer.bin_val, Lexer.dec_val, ascii_digit;
    bdall.
Qed.

Lemma sym_follow_space : forall s t k,
  In (s, t) symbol_tokens ->
  match k with [] => True | c :: _ => ascii_space c = true end ->
  sym_follow_b s k = true.
Proof.
  intros s t k HI Hk. unfold sym_follow_b.
  pose proof symbols_no_space_no_comment as F. rewrite forallb_forall in F.
  apply andb_true_iff. split.
  - apply forallb_forall. intros [e te] HIe. cbn [fst].
    destruct (is_prefix e (s ++ k)) eqn:Ep; [|reflexivity]. cbn [negb orb]. apply Nat.leb_le.
    apply is_prefix_app_cases in Ep as [Ep|(c & k' & -> & Ep)]; [exact Ep|exfalso].
    specialize (F _ HIe). cbn [fst] in F. apply andb_true_iff in F as [F _].
    rewrite forallb_forall in F. specialize (F _ Ep). rewrite Hk in F. discriminate.
  - specialize (F _ HI). cbn [fst] in F. apply andb_true_iff in F. destruct F as [_ F].
    apply negb_true_iff in F. apply negb_true_iff.
    apply symbol_shape in HI. destruct s as [|a [|b s']]; [discriminate| |exact F].
    destruct k as [|c k']; [reflexivity|]. cbn [app starts_comment].
    apply ascii_space_range in Hk. destruct (Z.eqb_spec c 47); [lia|]. apply andb_false_r.
Qed.

Theorem follow_ok_blank : forall t k,
  tok_ok t ->
  match k with [] => True | c :: _ => ascii_space c = true end ->
  follow_ok t k = true.
Proof.
  intros t k Hok Hk.
  assert (Hw : word_end_b k = true).
  { destruct k as [|c k']; [reflexivity|]. cbn. rewrite space_not_word by exact Hk. reflexivity. }
  destruct t as [s t|f w|b d ds seps|items|it]; cbn [follow_ok tok_ok] in *; try reflexivity.
  - destruct (is_ident_ascii s) eqn:E; [exact Hw|].
    eapply sym_follow_space; [|exact Hk]. apply symbol_tokens_spec. split; [exact Hok|exact E].
  - exact Hw.
  - destruct k as [|c k']; [destruct b; reflexivity|].
    pose proof (ascii_space_range c Hk) as Hc.
    cbn [stops_b not_letter_b]. rewrite space_not_digit by exact Hk.
    (* a blank is neither '_' nor one of the base letters x, o, b *)
    destruct b; bdall.
Qed.

End Oracles.

(* The hypotheses of layout independence are satisfiable: a concrete program text
     // c
      if(@x1<=<TAB>0x1_F)
      <dq>H\n\xfF\u{1F4A9}<dq>/ <q>\0<q> //      (dq = double quote, q = quote)
     42 //!                                                                           *)

Definition no_space (_ : Z) : bool := false.
Definition no_word (_ : Z) : bool := false.
Definition no_digit (_ : Z) : option Z := None.

Definition etok (s : list Z) : stok :=
  KEnum s (match lookup s enum_tokens with Some t => t | None => (String.EmptyString, String.EmptyString) end).

Definition ex_laid : list (list gap_item * stok) :=
  [ ([GComment [32;99]; GWs 32], etok [105;102]);
    ([], etok [40]);
    ([], KIdent FYou [120;49]);
    ([], etok [60;61]);
    ([GWs 9], KInt Hex 49 [70] [true]);
    ([], etok [41]);
    ([GNewline; GWs 32], KStr [SRaw 72; SSimple 110; SHex false true 255; SUni [49;70;52;65;57]]);
    ([], etok [47]);
    ([GWs 32], KChr (SSimple 48));
    ([GWs 32; GComment []], KInt Dec 52 [50] []) ].
Definition ex_final : text := final_text [GWs 32] (Some [33]).

Lemma etok_ok : forall s, lookup s enum_tokens <> None ->
  tok_ok no_space no_word no_digit (etok s).
Proof.
  intros s H. unfold etok. destruct (lookup s enum_tokens) as [t|] eqn:E; [|congruence].
  exact (lookup_In _ _ _ _ E).
Qed.

Lemma ex_separable : separable no_space no_word no_digit ex_laid ex_final.
Proof.
  apply separable_parts.
  - repeat constructor.
  - unfold ex_laid. cbn [map snd].
    apply Forall_cons; [apply etok_ok; discriminate|].
    apply Forall_cons; [apply etok_ok; discriminate|].
    apply Forall_cons; [split; [split; [|repeat constructor]|]; reflexivity|].
    apply Forall_cons; [apply etok_ok; discriminate|].
    apply Forall_cons.
    { split; [|discriminate]. repeat (apply Forall_cons; [eexists; reflexivity|]). apply Forall_nil. }
    apply Forall_cons; [apply etok_ok; discriminate|].
    apply Forall_cons.
    { apply Forall_cons; [repeat split; discriminate|].
      apply Forall_cons; [exists 10; do 3 right; left; reflexivity|].
      apply Forall_cons; [cbn; lia|].
      apply Forall_cons; [|apply Forall_nil].
      split; [discriminate|]. split; [|split; reflexivity].
      repeat (apply Forall_cons; [eexists; reflexivity|]). apply Forall_nil. }
    apply Forall_cons; [apply etok_ok; discriminate|].
    apply Forall_cons.
    { split; [exists 0; do 6 right; left; reflexivity|].
      split; [exists 0; reflexivity|discriminate]. }
    apply Forall_cons; [|apply Forall_nil].
    split; [|intros _; split; [discriminate|reflexivity]].
    repeat (apply Forall_cons; [eexists; reflexivity|]). apply Forall_nil.
  - vm_compute. reflexivity.
Qed.

Lemma ex_no_lf : Forall no_lf (to_lines (render ex_laid ex_final)).
Proof. vm_compute. repeat (constructor; try discriminate). Qed.

Example ex_lexes :
  lex_text no_space no_word no_digit (flatten (render ex_laid ex_final)) =
  (lexemes no_digit ex_laid 0 0, ODone (last_pos ex_laid 0 0 (0, 0))).
Proof.
  apply layout_independence; [exact ex_separable|repeat constructor|exact ex_no_lf].
Qed.

(* Error discipline.  Two former leaks are LexerErrors now (/repo 4ec1d5f, 0d6dc46): concrete
   inputs with kind and position.  One leak is left (a lone surrogate in the source str). *)

(* "\u{80000000}"  ->  'Invalid unicode codepoint: 80000000' at 1:14 (0-based column 13) *)
Example huge_codepoint_is_lexer_error :
  lex_text no_space no_word no_digit
    [34; 92; 117; 123; 56; 48; 48; 48; 48; 48; 48; 48; 125; 34]
  = ([], OErr (EBadCodepoint 2147483648) 0 13).
Proof. vm_compute. reflexivity. Qed.

Lemma lex_text_ones : forall n, (0 < n)%nat ->
  lex_text no_space no_word no_digit (repeat 49 n) =
  if int_max_str_digits <? Z.of_nat n then ([], OErr EIntTooLarge 0 (Z.of_nat n))
  else ([(TInt (int_value no_digit Dec (repeat 49 n)), (0, 0, Z.of_nat n))], ODone (0, Z.of_nat n)).
Proof.
  intros [|n] Hn; [lia|]. cbn [repeat]. rewrite lex_decimal_line; [|..|reflexivity].
  - rewrite len_cons. unfold len. rewrite repeat_length.
    replace (1 + Z.of_nat n) with (Z.of_nat (S n)) by lia. reflexivity.
  - apply Forall_forall. intros c Hc. apply (repeat_spec (S n)) in Hc. subst c.
    exists 1. reflexivity.
Qed.

(* a decimal literal of 4301 digits -> 'Integer literal too large' at the end of the literal;
   4300 digits are still a token.  The digit count stays a binary number throughout. *)
Example long_decimal_is_lexer_error :
  lex_text no_space no_word no_digit (repeat 49 (Z.to_nat 4301)) = ([], OErr EIntTooLarge 0 4301)
  /\ snd (lex_text no_space no_word no_digit (repeat 49 (Z.to_nat 4300))) = ODone (0, 4300).
Proof. split; rewrite lex_text_ones, !Z2Nat.id by lia; reflexivity. Qed.

(* a raw surrogate code point (U+D800) inside a string literal -> UnicodeEncodeError (leaked) *)
Example leak_raw_surrogate_witness :
  snd (lex_text no_space no_word no_digit [34; 55296; 34]) = OCrash CEncodeRaw.
Proof. vm_compute. reflexivity. Qed.

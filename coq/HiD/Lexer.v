(* HiD/Lexer.v -- hand-written reference model of hidc's lexer (hidc/lexer/{__init__,readers,
   scanner,tokens}.py).  Component `lexer`, property C12.

   The alphabet is Unicode code points (Z).  The regex classes \s \w \d are exact on ASCII and,
   beyond ASCII, given by three oracles (Section variables): every theorem holds for every
   oracle.  At extraction the oracles are instantiated by tables computed with Python's `re`.

   The model is a model of the code that exists: it reproduces hidc's behaviour on every input
   `SourceCode.from_string` can produce, including the one place left where hidc leaves the
   LexerError discipline (see `crash`).

   Shape of the implementation that is mirrored:
     lex():            skip_whitespace; stop at end of input; mark; try the readers in
                       `reader_order`; the first that returns a token wins; none -> 'Invalid syntax'
     skip_whitespace:  repeat { match `ignore` ; linebreak } until linebreak fails
     scanner:          a cursor (line, col) into a list of lines; nothing ever matches across a
                       line end; spans are (line, col_start, col_end) with col counted in code points
   Recursion is structural except the two loops that consume a variable amount of input per
   iteration (`str_loop`, `lex_loop`), which take fuel; `SFuel` / `OFuel` are the distinct
   out-of-fuel results and `lex_lines` provably never returns them (LexerProofs.lex_lines_fuel). *)
From Coq Require Import ZArith List Bool String Lia.
From HidV Require Import GenLexer.
Import ListNotations.
Local Open Scope Z_scope.
Notation length := List.length (only parsing).

(* What the hand model was written against: copies of the regenerated items (DESIGN.md 2.2, tie
   (T)).  An edit of one of them in the source changes Gen/GenLexer.v, and the lemma `*_pinned`
   that compares it with its copy fails. *)

Definition pinned_regex_texts : list (string * string) :=
  [ ("ignore", "\s*//.*|\s+");
    ("byte_escape", "\\x([\da-fA-F]{2})");
    ("unicode_escape", "\\u\{([\da-fA-F]+)\}");
    ("string_text", "[^\\""]+");
    ("hex_literal", "0x(?:[\da-fA-F]_?)*[\da-fA-F]");
    ("oct_literal", "0o(?:[0-7]_?)*[0-7]");
    ("bin_literal", "0b(?:[01]_?)*[01]");
    ("dec_literal", "(?:\d_?)*\d");
    ("ident_pattern", "[a-zA-Z_]\w*") ]%string.

Definition pinned_reader_order : list string :=
  [ "read_symbol_token"; "read_ident_or_keyword_token"; "read_int_token";
    "read_string_token"; "read_char_token" ]%string.

Definition pinned_int_reader_cases : list (string * Z) :=
  [ ("hex_literal", 16); ("oct_literal", 8); ("bin_literal", 2); ("dec_literal", 10) ]%string.

Definition pinned_int_reader_guards : list (string * string) :=
  [ ("hex_literal", ""); ("oct_literal", ""); ("bin_literal", "");
    ("dec_literal", "ValueError") ]%string.

Definition pinned_chr_excepts : list string := [ "ValueError"; "OverflowError" ]%string.

Definition pinned_flavors : list (string * list Z) :=
  [ ("NONE", []); ("YOU", [64]); ("DEFEAT", [33]) ]%string.

Definition pinned_reader_uses : list (string * list (string * string)) :=
  [ ("skip_whitespace", [("M", "ignore"); ("L", "")]);
    ("read_byte_escape", [("M", "byte_escape"); ("E", "\x")]);
    ("read_char_escape", [("M", "unicode_escape"); ("E", "\u"); ("E", "\"); ("R", "1")]);
    ("read_escape_bytes", []);
    ("read_char_token", [("E", "'"); ("E", "'"); ("R", "1"); ("E", "'")]);
    ("read_string_token", [("E", """"); ("M", "string_text"); ("E", """")]);
    ("read_int_token", [("M", "hex_literal"); ("M", "oct_literal"); ("M", "bin_literal");
                        ("M", "dec_literal")]);
    ("read_ident_or_keyword_token", [("E", "@"); ("E", "!"); ("M", "ident_pattern");
                                     ("M", "ident_pattern")]);
    ("read_symbol_token", [("S", "symbol_tokens")]) ]%string.

(* the language's token table as documented (README: operators, keywords, types, brackets) *)
Definition documented_tokens : list (list Z * tag) :=
  [
   ([43], ("OpToken", "ADD"));
   ([45], ("OpToken", "SUB"));
   ([42], ("OpToken", "MUL"));
   ([47], ("OpToken", "DIV"));
   ([37], ("OpToken", "MOD"));
   ([61; 61], ("OpToken", "EQ"));
   ([33; 61], ("OpToken", "NE"));
   ([60], ("OpToken", "LT"));
   ([62], ("OpToken", "GT"));
   ([60; 61], ("OpToken", "LE"));
   ([62; 61], ("OpToken", "GE"));
   ([111; 114], ("OpToken", "OR"));
   ([97; 110; 100], ("OpToken", "AND"));
   ([110; 111; 116], ("OpToken", "NOT"));
   ([105; 115], ("OpToken", "IS"));
   ([63; 63], ("OpToken", "SPECULATION"));
   ([43; 61], ("IncAssignToken", "IADD"));
   ([45; 61], ("IncAssignToken", "ISUB"));
   ([42; 61], ("IncAssignToken", "IMUL"));
   ([47; 61], ("IncAssignToken", "IDIV"));
   ([37; 61], ("IncAssignToken", "IMOD"));
   ([61], ("StmtToken", "ASSIGN"));
   ([98; 114; 101; 97; 107], ("StmtToken", "BREAK"));
   ([99; 111; 110; 116; 105; 110; 117; 101], ("StmtToken", "CONTINUE"));
   ([114; 101; 116; 117; 114; 110], ("StmtToken", "RETURN"));
   ([99; 111; 110; 115; 116], ("StmtToken", "CONST"));
   ([59], ("SepToken", "SEMICOLON"));
   ([44], ("SepToken", "COMMA"));
   ([46], ("SepToken", "DOT"));
   ([40], ("BracToken", "LPAREN"));
   ([41], ("BracToken", "RPAREN"));
   ([123], ("BracToken", "LCURLY"));
   ([125], ("BracToken", "RCURLY"));
   ([91], ("BracToken", "LSQUARE"));
   ([93], ("BracToken", "RSQUARE"));
   ([105; 102], ("BlockToken", "IF"));
   ([101; 108; 115; 101], ("BlockToken", "ELSE"));
   ([119; 104; 105; 108; 101], ("BlockToken", "WHILE"));
   ([102; 111; 114], ("BlockToken", "FOR"));
   ([116; 114; 121], ("BlockToken", "TRY"));
   ([117; 110; 100; 111], ("BlockToken", "UNDO"));
   ([115; 116; 111; 112], ("BlockToken", "STOP"));
   ([112; 114; 101; 101; 109; 112; 116], ("BlockToken", "PREEMPT"));
   ([105; 110; 116], ("DataType", "INT"));
   ([98; 111; 111; 108], ("DataType", "BOOL"));
   ([98; 121; 116; 101], ("DataType", "BYTE"));
   ([115; 116; 114; 105; 110; 103], ("DataType", "STRING"));
   ([101; 109; 112; 116; 121], ("DataType", "EMPTY"));
   ([116; 114; 117; 101], ("BoolToken", "TRUE"));
   ([102; 97; 108; 115; 101], ("BoolToken", "FALSE"))
  ]%string.

Lemma enum_tokens_documented : enum_tokens = documented_tokens.
Proof. reflexivity. Qed.

Lemma regex_texts_pinned : regex_texts = pinned_regex_texts.
Proof. reflexivity. Qed.
Lemma reader_order_pinned : reader_order = pinned_reader_order.
Proof. reflexivity. Qed.
Lemma int_reader_cases_pinned : int_reader_cases = pinned_int_reader_cases.
Proof. reflexivity. Qed.
Lemma int_reader_guards_pinned : int_reader_guards = pinned_int_reader_guards.
Proof. reflexivity. Qed.
Lemma chr_excepts_pinned : chr_excepts = pinned_chr_excepts.
Proof. reflexivity. Qed.
Lemma flavors_pinned : flavors = pinned_flavors.
Proof. reflexivity. Qed.
Lemma reader_uses_pinned : reader_uses = pinned_reader_uses.
Proof. reflexivity. Qed.
(* The model *uses* the regenerated `escape_codes`, `enum_tokens` and `symbol_sort_reverse` (so
   it follows the implementation if they are edited, and the correspondence stays meaningful);
   the theorems that depend on their content are proved by computation on them.  The documented
   values are pinned separately: `enum_tokens_documented` above, `escape_codes_standard` and
   `symbol_tokens_sorted` in LexerProofs.v. *)


Inductive flavor := FNone | FYou | FDefeat.

Inductive token :=
| TEnum (t : tag)                          (* keyword / symbol: (class, member) *)
| TIdent (f : flavor) (name : list Z)      (* base name without the sigil *)
| TInt (v : Z)
| TChar (b : Z)
| TString (bs : list Z).                   (* bytes *)

(* LexerError kinds (message classes of readers.py / __init__.py) *)
Inductive errkind :=
| EInvalidSyntax                 (* LexerError.unhelpful *)
| EExpectedCharacter             (* expected(need='character') *)
| EExpectedQuote                 (* expected(need="'") *)
| EBadByteEscape                 (* 'Invalid byte escape sequence' *)
| EBadCodepoint (cp : Z)         (* 'Invalid unicode codepoint: {cp:X}' *)
| EBadUnicodeEscape              (* 'Invalid unicode escape sequence' *)
| EBadEscape (c : Z)             (* 'Invalid escape sequence: \{c}' *)
| ESurrogate (cp : Z)            (* str(UnicodeEncodeError) for an escaped surrogate *)
| EUnclosedChar
| EUnclosedString
| EUnicodeInChar                 (* 'Unicode is not allowed in character literals, ...' *)
| EBadFlavorIdent (f : flavor)   (* 'Invalid {flavor.name} identifier' *)
| EIntTooLarge.                  (* 'Integer literal too large': decimal literal with more than
                                    4300 digits (CPython's int-string conversion limit; the
                                    ValueError of int() is caught since /repo 0d6dc46) *)

(* Exceptions that are *not* LexerErrors (hidc leaks them; they carry no position).  Only one is
   left: it needs a str with a lone surrogate, which SourceCode.from_file cannot produce. *)
Inductive crash :=
| CEncodeRaw.                    (* a raw surrogate code point in a literal: UnicodeEncodeError *)

Definition int_max_str_digits : Z := 4300.

(* result of one token reader on the rest of the current line *)
Inductive rres :=
| RNone                                     (* reader returned None *)
| RTok (t : token) (rest : list Z)
| RErr (e : errkind) (rest : list Z)        (* raised at the cursor where `rest` begins *)
| RCrash (c : crash).

(* result of reading one escape *)
Inductive eres :=
| EOk (bs : list Z) (rest : list Z)
| EErr (e : errkind) (rest : list Z)
| ECrash (c : crash).

Inductive sres :=
| SOk (bs : list Z) (rest : list Z)
| SErr (e : errkind) (rest : list Z)
| SCrash (c : crash)
| SFuel.

Definition span : Type := (Z * Z * Z)%type.           (* line, start col, end col (0-based) *)
Definition lexeme : Type := (token * span)%type.

Inductive outcome :=
| ODone (last : Z * Z)                      (* generator return value: marker.cursor *)
| OErr (e : errkind) (line col : Z)
| OCrash (c : crash)
| OFuel.

Definition result : Type := (list lexeme * outcome)%type.

Definition cons_lex (x : lexeme) (r : result) : result := (x :: fst r, snd r).


Definition len (l : list Z) : Z := Z.of_nat (length l).

Fixpoint is_prefix (p s : list Z) : bool :=
  match p, s with
  | [], _ => true
  | a :: p', b :: s' => (a =? b) && is_prefix p' s'
  | _ :: _, [] => false
  end.

Fixpoint list_eqb (a b : list Z) : bool :=
  match a, b with
  | [], [] => true
  | x :: a', y :: b' => (x =? y) && list_eqb a' b'
  | _, _ => false
  end.

Fixpoint lookup {A} (k : list Z) (tbl : list (list Z * A)) : option A :=
  match tbl with
  | [] => None
  | (s, v) :: tbl' => if list_eqb k s then Some v else lookup k tbl'
  end.

Fixpoint lookupZ (k : Z) (tbl : list (Z * Z)) : option Z :=
  match tbl with
  | [] => None
  | (a, v) :: tbl' => if k =? a then Some v else lookupZ k tbl'
  end.


(* Python 3 str patterns: \s on ASCII = [\t\n\v\f\r\x1c-\x1f ] *)
Definition ascii_space (c : Z) : bool :=
  ((9 <=? c) && (c <=? 13)) || ((28 <=? c) && (c <=? 32)).
Definition ascii_digit (c : Z) : bool := (48 <=? c) && (c <=? 57).
Definition ascii_alpha (c : Z) : bool :=
  ((65 <=? c) && (c <=? 90)) || ((97 <=? c) && (c <=? 122)).
Definition ident_start (c : Z) : bool := ascii_alpha c || (c =? 95).       (* [a-zA-Z_] *)
Definition ascii_word (c : Z) : bool := ascii_alpha c || ascii_digit c || (c =? 95).
Definition is_surrogate (c : Z) : bool := (55296 <=? c) && (c <=? 57343).   (* D800..DFFF *)

Definition is_ident_ascii (s : list Z) : bool :=       (* ident_pattern.fullmatch on ASCII text *)
  match s with
  | c :: s' => ident_start c && forallb ascii_word s'
  | [] => false
  end.

(* readers.py: keyword_tokens and symbol_tokens, derived from the regenerated enum_tokens *)

Definition keyword_tokens : list (list Z * tag) :=
  filter (fun e => is_ident_ascii (fst e)) enum_tokens.

(* sorted(..., key=len) is a stable sort; reverse=True keeps stability (descending) *)
Fixpoint insert_by (le : nat -> nat -> bool) (e : list Z * tag) (l : list (list Z * tag)) :=
  match l with
  | [] => [e]
  | x :: l' => if le (length (fst e)) (length (fst x)) then e :: l else x :: insert_by le e l'
  end.
(* stable: an element is placed after all earlier elements that compare equal -> process from the
   right, inserting in front of the first element that is not strictly better. *)
Definition sort_by (le : nat -> nat -> bool) (l : list (list Z * tag)) :=
  fold_right (insert_by le) [] l.

Definition symbol_tokens : list (list Z * tag) :=
  let syms := filter (fun e => negb (is_ident_ascii (fst e))) enum_tokens in
  if symbol_sort_reverse
  then sort_by (fun a b => Nat.leb b a) syms        (* longest first *)
  else sort_by (fun a b => Nat.leb a b) syms.

Definition flavor_sigil_you : Z := 64.     (* '@' and '!': the values in pinned_flavors, written again *)
Definition flavor_sigil_defeat : Z := 33.

Section WithOracles.

(* \s, \w, \d beyond ASCII.  uni_digit gives the digit's value (what int() makes of it). *)
Variable uni_space : Z -> bool.
Variable uni_word : Z -> bool.
Variable uni_digit : Z -> option Z.

Definition is_space (c : Z) : bool := if c <? 128 then ascii_space c else uni_space c.
Definition is_word (c : Z) : bool := if c <? 128 then ascii_word c else uni_word c.
Definition dec_val (c : Z) : option Z :=
  if c <? 128 then (if ascii_digit c then Some (c - 48) else None) else uni_digit c.

Definition hex_val (c : Z) : option Z :=              (* [\da-fA-F] *)
  match dec_val c with
  | Some v => Some v
  | None => if (97 <=? c) && (c <=? 102) then Some (c - 87)
            else if (65 <=? c) && (c <=? 70) then Some (c - 55) else None
  end.
Definition oct_val (c : Z) : option Z := if (48 <=? c) && (c <=? 55) then Some (c - 48) else None.
Definition bin_val (c : Z) : option Z := if (48 <=? c) && (c <=? 49) then Some (c - 48) else None.

Inductive base := Hex | Oct | Bin | Dec.
Definition radix (b : base) : Z := match b with Hex => 16 | Oct => 8 | Bin => 2 | Dec => 10 end.
Definition digit_val (b : base) (c : Z) : option Z :=
  match b with Hex => hex_val c | Oct => oct_val c | Bin => bin_val c | Dec => dec_val c end.
Definition base_letter (b : base) : option Z :=
  match b with Hex => Some 120 | Oct => Some 111 | Bin => Some 98 | Dec => None end.

(* skip_whitespace: one match of `ignore` = \s*//.*|\s+ *)

Fixpoint skip_spaces (cur : list Z) (col : Z) : list Z * Z :=
  match cur with
  | c :: cur' => if is_space c then skip_spaces cur' (col + 1) else (cur, col)
  | [] => ([], col)
  end.

Definition starts_comment (cur : list Z) : bool :=
  match cur with
  | a :: b :: _ => (a =? 47) && (b =? 47)
  | _ => false
  end.

Definition skip_ignore (cur : list Z) (col : Z) : list Z * Z :=
  let (cur1, col1) := skip_spaces cur col in
  if starts_comment cur1 then ([], col1 + len cur1) else (cur1, col1).

(* read_symbol_token *)

Fixpoint drop_prefix (p s : list Z) : list Z :=       (* s without the prefix p *)
  match p, s with
  | _ :: p', _ :: s' => drop_prefix p' s'
  | _, _ => s
  end.

Fixpoint find_symbol (tbl : list (list Z * tag)) (cur : list Z) : option (list Z * tag) :=
  match tbl with
  | [] => None
  | (s, t) :: tbl' => if is_prefix s cur then Some (s, t) else find_symbol tbl' cur
  end.

Definition read_symbol (cur : list Z) : rres :=
  match find_symbol symbol_tokens cur with
  | Some (s, t) => RTok (TEnum t) (drop_prefix s cur)
  | None => RNone
  end.

(* read_ident_or_keyword_token *)

Fixpoint span_word (cur : list Z) : list Z * list Z :=
  match cur with
  | c :: cur' => if is_word c then let (w, r) := span_word cur' in (c :: w, r) else ([], cur)
  | [] => ([], [])
  end.

Definition match_ident (cur : list Z) : option (list Z * list Z) :=      (* [a-zA-Z_]\w* *)
  match cur with
  | c :: cur' => if ident_start c then let (w, r) := span_word cur' in Some (c :: w, r) else None
  | [] => None
  end.

Definition read_flavoured (f : flavor) (cur : list Z) : rres :=
  match match_ident cur with
  | Some (w, r) =>
      match lookup w keyword_tokens with
      | None => RTok (TIdent f w) r
      | Some _ => RErr (EBadFlavorIdent f) r
      end
  | None => RErr (EBadFlavorIdent f) cur
  end.

Definition read_ident_kw (cur : list Z) : rres :=
  match cur with
  | c :: cur' =>
      if c =? flavor_sigil_you then read_flavoured FYou cur'
      else if c =? flavor_sigil_defeat then read_flavoured FDefeat cur'
      else match match_ident cur with
           | Some (w, r) =>
               match lookup w keyword_tokens with
               | Some t => RTok (TEnum t) r
               | None => RTok (TIdent FNone w) r
               end
           | None => RNone
           end
  | [] => RNone
  end.

(* read_int_token *)

(* (?:D_?)*D after the first D: returns value, number of digits, rest *)
Fixpoint scan_digits (b : base) (acc n : Z) (cur : list Z) : Z * Z * list Z :=
  match cur with
  | c :: cur' =>
      match digit_val b c with
      | Some v => scan_digits b (acc * radix b + v) (n + 1) cur'
      | None =>
          if c =? 95 then
            match cur' with
            | d :: cur'' =>
                match digit_val b d with
                | Some v => scan_digits b (acc * radix b + v) (n + 1) cur''
                | None => (acc, n, cur)
                end
            | [] => (acc, n, cur)
            end
          else (acc, n, cur)
      end
  | [] => (acc, n, [])
  end.

Definition read_prefixed (b : base) (letter : Z) (cur : list Z) : option (Z * Z * list Z) :=
  match cur with
  | z :: q :: d :: cur' =>
      if (z =? 48) && (q =? letter) then
        match digit_val b d with
        | Some v => Some (scan_digits b v 1 cur')
        | None => None
        end
      else None
  | _ => None
  end.

Definition read_dec (cur : list Z) : option (Z * Z * list Z) :=
  match cur with
  | d :: cur' =>
      match dec_val d with
      | Some v => Some (scan_digits Dec v 1 cur')
      | None => None
      end
  | [] => None
  end.

Definition read_int (cur : list Z) : rres :=
  match read_prefixed Hex 120 cur with
  | Some (v, _, r) => RTok (TInt v) r
  | None =>
  match read_prefixed Oct 111 cur with
  | Some (v, _, r) => RTok (TInt v) r
  | None =>
  match read_prefixed Bin 98 cur with
  | Some (v, _, r) => RTok (TInt v) r
  | None =>
  match read_dec cur with
  | Some (v, n, r) => if int_max_str_digits <? n then RErr EIntTooLarge r else RTok (TInt v) r
  | None => RNone
  end end end end.


Definition utf8_encode (c : Z) : list Z :=
  if c <? 128 then [c]
  else if c <? 2048 then [192 + c / 64; 128 + c mod 64]
  else if c <? 65536 then [224 + c / 4096; 128 + (c / 64) mod 64; 128 + c mod 64]
  else [240 + c / 262144; 128 + (c / 4096) mod 64; 128 + (c / 64) mod 64; 128 + c mod 64].

(* str.encode('utf-8') of the one-character string chr(cp), inside read_escape_bytes *)
Definition encode_escaped (cp : Z) (rest : list Z) : eres :=
  if is_surrogate cp then EErr (ESurrogate cp) rest else EOk (utf8_encode cp) rest.

Fixpoint scan_hex (acc : Z) (cur : list Z) : Z * list Z :=
  match cur with
  | c :: cur' =>
      match hex_val c with
      | Some v => scan_hex (acc * 16 + v) cur'
      | None => (acc, cur)
      end
  | [] => (acc, [])
  end.

(* `after_u` = the text after "\u" *)
Definition read_unicode_escape (after_u : list Z) : eres :=
  match after_u with
  | o :: d :: r =>
      if o =? 123 then
        match hex_val d with
        | Some v =>
            let (cp, r') := scan_hex v r in
            match r' with
            | cl :: r'' =>
                if cl =? 125 then
                  (* chr(cp): ValueError / OverflowError are both caught (/repo 4ec1d5f) *)
                  if cp <? 1114112 then encode_escaped cp r''
                  else EErr (EBadCodepoint cp) r''
                else EErr EBadUnicodeEscape after_u
            | [] => EErr EBadUnicodeEscape after_u
            end
        | None => EErr EBadUnicodeEscape after_u
        end
      else EErr EBadUnicodeEscape after_u
  | _ => EErr EBadUnicodeEscape after_u
  end.

(* read_escape_bytes on text that begins with a backslash; `after_bs` = the text after it *)
Definition read_escape (after_bs : list Z) : eres :=
  match after_bs with
  | [] => EErr EInvalidSyntax []
  | c :: r =>
      if c =? 120 then                                   (* \x *)
        match r with
        | h1 :: h2 :: r' =>
            match hex_val h1, hex_val h2 with
            | Some a, Some b => EOk [a * 16 + b] r'
            | _, _ => EErr EBadByteEscape r
            end
        | _ => EErr EBadByteEscape r
        end
      else if c =? 117 then read_unicode_escape r        (* \u *)
      else match lookupZ c escape_codes with
           | Some v => encode_escaped v r
           | None => EErr (EBadEscape c) r
           end
  end.

(* one raw character of a literal, encoded as UTF-8 (outside any try: a surrogate crashes) *)
Definition encode_raw (c : Z) (rest : list Z) : eres :=
  if is_surrogate c then ECrash CEncodeRaw else EOk (utf8_encode c) rest.

(* one element of a string / character literal that starts with `c` (not a closing quote):
   read_escape_bytes if it is a backslash, else the raw character *)
Definition read_item (c : Z) (r : list Z) : eres :=
  if c =? 92 then read_escape r else encode_raw c r.

(* read_string_token, read_char_token *)

Fixpoint str_loop (fuel : nat) (cur : list Z) (acc : list Z) : sres :=
  match fuel with
  | O => SFuel
  | S f =>
      match cur with
      | [] => SErr EUnclosedString []
      | c :: cur' =>
          if c =? 34 then SOk acc cur'
          else
            match read_item c cur' with
            | EOk bs r => str_loop f r (acc ++ bs)
            | EErr e r => SErr e r
            | ECrash k => SCrash k
            end
      end
  end.

Definition read_string (cur : list Z) : rres :=
  match cur with
  | c :: cur' =>
      if c =? 34 then
        match str_loop (S (length cur')) cur' [] with
        | SOk bs r => RTok (TString bs) r
        | SErr e r => RErr e r
        | SCrash k => RCrash k
        | SFuel => RNone      (* unreachable: LexerProofs.str_loop_fuel *)
        end
      else RNone
  | [] => RNone
  end.

Definition read_char (cur : list Z) : rres :=
  match cur with
  | q :: cur' =>
      if q =? 39 then
        match cur' with
        | [] => RErr EUnclosedChar []
        | c :: r =>
            if c =? 39 then RErr EExpectedCharacter r
            else
              match read_item c r with
              | EOk bs r2 =>
                  match r2 with
                  | q2 :: r3 =>
                      if q2 =? 39 then
                        match bs with
                        | [b] => RTok (TChar b) r3
                        | _ => RErr EUnicodeInChar r3
                        end
                      else RErr EExpectedQuote r2
                  | [] => RErr EExpectedQuote []
                  end
              | EErr e r2 => RErr e r2
              | ECrash k => RCrash k
              end
        end
      else RNone
  | [] => RNone
  end.

(* lex(): the readers in order, then the generator's loop *)

Definition or_else (a : rres) (b : list Z -> rres) (cur : list Z) : rres :=
  match a with RNone => b cur | _ => a end.

(* the readers in `reader_order` (reader_order_pinned) *)
Definition read_token (cur : list Z) : rres :=
  or_else (or_else (or_else (or_else (read_symbol cur) read_ident_kw cur) read_int cur)
                   read_string cur) read_char cur.

Fixpoint lex_loop (fuel : nat) (cur : list Z) (rest : list (list Z)) (ln col : Z)
                  (last : Z * Z) : result :=
  match fuel with
  | O => ([], OFuel)
  | S f =>
      let (cur1, col1) := skip_ignore cur col in
      match cur1 with
      | [] =>
          match rest with
          | nxt :: rest' => lex_loop f nxt rest' (ln + 1) 0 last        (* linebreak *)
          | [] => ([], ODone last)                                      (* `not scan` *)
          end
      | _ :: _ =>
          match read_token cur1 with
          | RTok t r =>
              let col2 := col1 + (len cur1 - len r) in
              cons_lex (t, (ln, col1, col2)) (lex_loop f r rest ln col2 (ln, col2))
          | RErr e r => ([], OErr e ln (col1 + (len cur1 - len r)))
          | RCrash k => ([], OCrash k)
          | RNone => ([], OErr EInvalidSyntax ln col1)
          end
      end
  end.

(* Fuel for lex_loop: each iteration consumes at least one code point or passes a line break, so
   the code points left plus one per line still to come are enough (LexerProofs.lex_lines_fuel). *)
Definition measure (cur : list Z) (rest : list (list Z)) : nat :=
  (length cur + fold_right (fun l n => S (length l) + n) 0 rest)%nat.

(* lex(SourceCode(filename, lines)); SourceCode with no lines behaves like a single empty line,
   which one iteration finishes (`not scan`) *)
Definition lex_lines (lines : list (list Z)) : result :=
  match lines with
  | [] => lex_loop 1 [] [] 0 0 (0, 0)
  | l :: ls => lex_loop (S (measure l ls)) l ls 0 0 (0, 0)
  end.

(* SourceCode.from_string: string.split('\n') *)
Fixpoint split_lines (s : list Z) : list Z * list (list Z) :=
  match s with
  | [] => ([], [])
  | c :: s' =>
      let (l, ls) := split_lines s' in
      if c =? 10 then ([], l :: ls) else (c :: l, ls)
  end.

Definition lex_text (s : list Z) : result :=
  let (l, ls) := split_lines s in lex_lines (l :: ls).

End WithOracles.

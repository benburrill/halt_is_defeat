(* Component `context` (property C06): flavour and context rules.

   - abstract syntax sufficient for the context rules;
   - [check_program] / [accepts]: executable model of how hidc/parser/grammar.py threads
     [BlockContext] through the parser.  Every context value and every test comes from the
     REGENERATED site functions of Gen/GenContext.v; nothing about flags is written here;
   - [Rules.well_contexted]: the rules of the property text / README table, written with an
     explicit abstract context and no bit-vectors;
   - [context_model_iff_rules], [defeat_only_in_try]. *)
From Coq Require Import NArith List Bool.
From HidV Require Import GenContext.
Import ListNotations.

Set Implicit Arguments.

Inductive flavour : Set := Ordinary | You | Defeat.

Inductive expr : Set :=
| ELeaf                                            (* literal or variable *)
| ECall (fl : flavour) (args : list expr)          (* f(..)  @f(..)  !f(..) *)
| ESpec (l r : expr)                               (* l ?? r *)
| ENode (subs : list expr).                        (* operator, index, array literal, parentheses *)

Inductive plain : Set :=                           (* ps_plain_stmt *)
| PExpr (e : expr)
| PAssign (target value : expr)                    (* =  +=  -= ... *)
| PDecl (init : expr).                             (* T x = init;   T x[init]; *)

Inductive stmt : Set :=                            (* ps_stmt *)
| SPlain (p : plain)
| SBreak
| SContinue
| SReturn (e : option expr).

Inductive hkind : Set := Undo | Stop.

Inductive block : Set :=                           (* ps_block *)
| BCode (items : list item)
| BIf (cond : expr) (thn els : block)              (* no else = [BCode []] *)
| BWhile (cond : expr) (body : block)
| BFor (init : option plain) (cond : option expr) (cont : option plain) (body : block)
| BTry (body : block) (k : hkind) (handler : block)
| BPreempt (body : block)
with item : Set :=                                 (* entries of a code block *)
| IStmt (s : stmt)
| IBlock (b : block).

Inductive top : Set :=
| TGlobal (init : expr)                            (* global declaration: its initialiser *)
| TFunc (fl : flavour) (body : list item).         (* function declaration: flavour of the name *)

Definition program : Set := list top.

Section ExprInd.
  Variable P : expr -> Prop.
  Hypothesis HLeaf : P ELeaf.
  Hypothesis HCall : forall fl args, Forall P args -> P (ECall fl args).
  Hypothesis HSpec : forall l r, P l -> P r -> P (ESpec l r).
  Hypothesis HNode : forall subs, Forall P subs -> P (ENode subs).

  Fixpoint expr_ind' (e : expr) : P e :=
    let all := fix all (l : list expr) : Forall P l :=
      match l with
      | [] => Forall_nil P
      | x :: l' => Forall_cons x (expr_ind' x) (all l')
      end in
    match e with
    | ELeaf => HLeaf
    | ECall fl args => HCall fl (all args)
    | ESpec l r => HSpec (expr_ind' l) (expr_ind' r)
    | ENode subs => HNode (all subs)
    end.
End ExprInd.

Section BlockInd.
  Variable P : block -> Prop.
  Variable Q : item -> Prop.
  Hypothesis HCode : forall items, Forall Q items -> P (BCode items).
  Hypothesis HIf : forall c t e, P t -> P e -> P (BIf c t e).
  Hypothesis HWhile : forall c b, P b -> P (BWhile c b).
  Hypothesis HFor : forall i c k b, P b -> P (BFor i c k b).
  Hypothesis HTry : forall b k h, P b -> P h -> P (BTry b k h).
  Hypothesis HPreempt : forall b, P b -> P (BPreempt b).
  Hypothesis HStmt : forall s, Q (IStmt s).
  Hypothesis HBlock : forall b, P b -> Q (IBlock b).

  Fixpoint block_ind' (b : block) : P b :=
    match b with
    | BCode items =>
        HCode ((fix all (l : list item) : Forall Q l :=
                  match l with
                  | [] => Forall_nil Q
                  | x :: l' => Forall_cons x (item_ind' x) (all l')
                  end) items)
    | BIf c t e => HIf c (block_ind' t) (block_ind' e)
    | BWhile c body => HWhile c (block_ind' body)
    | BFor i c k body => HFor i c k (block_ind' body)
    | BTry body k h => HTry k (block_ind' body) (block_ind' h)
    | BPreempt body => HPreempt (block_ind' body)
    end
  with item_ind' (it : item) : Q it :=
    match it with
    | IStmt s => HStmt s
    | IBlock b => HBlock (block_ind' b)
    end.

  Definition block_item_ind' : (forall b, P b) /\ (forall it, Q it) := conj block_ind' item_ind'.
End BlockInd.

(* The executable model of grammar.py. *)

(* Kinds of ParserError (the first one raised, in parse order). *)
Inductive err : Set :=
| ErrIdent        (* ps_ident: "Improper use of identifier" *)
| ErrSyntax       (* call syntax where ps_func_call is skipped: "Expected ..., got unexpected token: (" *)
| ErrSpec         (* "speculation outside of you" *)
| ErrBreak        (* "break outside of loop" *)
| ErrContinue     (* "continue outside of loop" *)
| ErrTry          (* "try outside of you context" *)
| ErrPreempt.     (* "preempt outside of defeat context" *)

Definition verdict : Set := option err.         (* None: parsed *)

Definition andthen (a b : verdict) : verdict :=
  match a with None => b | Some _ => a end.

Section ChkList.
  Variable A : Type.
  Variable f : A -> verdict.
  Fixpoint chk_list (l : list A) : verdict :=
    match l with
    | [] => None
    | x :: l' => andthen (f x) (chk_list l')
    end.
End ChkList.

Definition chk_opt (A : Type) (f : A -> verdict) (o : option A) : verdict :=
  match o with None => None | Some x => f x end.

(* the token flavour of an identifier *)
Definition gfl (fl : flavour) : flavor :=
  match fl with Ordinary => Flavor_NONE | You => Flavor_YOU | Defeat => Flavor_DEFEAT end.

(* ps_expr, ps_expr8 .. ps_expr0, ps_func_call.
   A call is first offered to ps_func_call (unless skipped), whose ps_ident raises on a flavour
   outside [call_flavors ctx]; when ps_func_call is skipped the name is read by the variable
   alternative (raises on a flavour outside [var_flavors]) and the following "(" is a syntax
   error.  For l ?? r the left operand is first parsed in [spec_first_ctx ctx], then the test,
   then BOTH operands are parsed again in their own contexts. *)
Fixpoint chk_expr (ctx : N) (e : expr) : verdict :=
  match e with
  | ELeaf => None
  | ECall fl args =>
      if call_skip ctx then
        (if allowed var_flavors (gfl fl) then Some ErrSyntax else Some ErrIdent)
      else if allowed (call_flavors ctx) (gfl fl) then
        chk_list (chk_expr (call_arg_ctx ctx)) args
      else Some ErrIdent
  | ESpec l r =>
      andthen (chk_expr (spec_first_ctx ctx) l)
        (if spec_reject ctx then Some ErrSpec
         else andthen (chk_expr (spec_left_ctx ctx) l) (chk_expr (spec_right_ctx ctx) r))
  | ENode subs => chk_list (chk_expr ctx) subs
  end.

(* ps_plain_stmt / ps_assignment / ps_vdecl forward ctx unchanged (checked by the translator) *)
Definition chk_plain (ctx : N) (p : plain) : verdict :=
  match p with
  | PExpr e => chk_expr ctx e
  | PAssign t v => andthen (chk_expr ctx t) (chk_expr ctx v)
  | PDecl i => chk_expr ctx i
  end.

(* ps_stmt *)
Definition chk_stmt (ctx : N) (s : stmt) : verdict :=
  match s with
  | SBreak => if break_reject ctx then Some ErrBreak else None
  | SContinue => if continue_reject ctx then Some ErrContinue else None
  | SReturn e => chk_opt (chk_expr (return_ctx ctx)) e
  | SPlain p => chk_plain (plain_ctx ctx) p
  end.

(* ps_block / ps_code_block *)
Fixpoint chk_block (ctx : N) (b : block) : verdict :=
  match b with
  | BCode items => chk_list (chk_item (code_ctx ctx)) items
  | BIf c t e =>
      andthen (chk_expr (if_cond_ctx ctx) c)
        (andthen (chk_block (if_then_ctx ctx) t) (chk_block (if_else_ctx ctx) e))
  | BWhile c body =>
      andthen (chk_expr (while_cond_ctx ctx) c) (chk_block (while_body_ctx ctx) body)
  | BFor i c k body =>
      andthen (chk_opt (chk_plain (for_init_ctx ctx)) i)
        (andthen (chk_opt (chk_expr (for_cond_ctx ctx)) c)
           (andthen (chk_opt (chk_plain (for_cont_ctx ctx)) k)
              (chk_block (for_body_ctx ctx) body)))
  | BTry body _ h =>
      if try_reject ctx then Some ErrTry
      else andthen (chk_block (try_body_ctx ctx) body) (chk_block (handler_ctx ctx) h)
  | BPreempt body =>
      if preempt_reject ctx then Some ErrPreempt
      else chk_block (preempt_body_ctx ctx) body
  end
with chk_item (ctx : N) (it : item) : verdict :=
  match it with
  | IStmt s => chk_stmt ctx s
  | IBlock b => chk_block ctx b
  end.

(* ps_func / ps_program *)
Definition chk_top (t : top) : verdict :=
  match t with
  | TGlobal init => chk_expr global_ctx init
  | TFunc fl body => chk_list (chk_item (func_body_ctx (func_ctx (gfl fl)))) body
  end.

Definition check_program (p : program) : verdict := chk_list chk_top p.

Definition accepts (p : program) : bool :=
  match check_program p with None => true | Some _ => false end.

(* unfolding equations (the nested fixpoints do not reduce nicely under cbn) *)
Lemma chk_expr_call ctx fl args :
  chk_expr ctx (ECall fl args) =
    if call_skip ctx then
      (if allowed var_flavors (gfl fl) then Some ErrSyntax else Some ErrIdent)
    else if allowed (call_flavors ctx) (gfl fl) then
      chk_list (chk_expr (call_arg_ctx ctx)) args
    else Some ErrIdent.
Proof. reflexivity. Qed.

Lemma chk_expr_spec ctx l r :
  chk_expr ctx (ESpec l r) =
    andthen (chk_expr (spec_first_ctx ctx) l)
      (if spec_reject ctx then Some ErrSpec
       else andthen (chk_expr (spec_left_ctx ctx) l) (chk_expr (spec_right_ctx ctx) r)).
Proof. reflexivity. Qed.

Lemma chk_expr_node ctx subs : chk_expr ctx (ENode subs) = chk_list (chk_expr ctx) subs.
Proof. reflexivity. Qed.

Lemma chk_block_code ctx items :
  chk_block ctx (BCode items) = chk_list (chk_item (code_ctx ctx)) items.
Proof. reflexivity. Qed.

(* The rules (specification) *)

Module Rules.

  (* Where a piece of program text stands. *)
  Inductive kind : Set :=
  | KGlobal          (* initialiser of a global declaration *)
  | KOrdinary        (* ordinary function *)
  | KYou             (* you-function, outside every try body (handlers included) *)
  | KDefeatFn        (* defeat function *)
  | KTryBody         (* body of a try block *)
  | KSpecOperand.    (* operand of ?? *)

  Record actx : Set := { kind_of : kind; in_loop : bool }.

  Definition defeat_context (k : kind) : Prop := k = KDefeatFn \/ k = KTryBody.

  (* README, "Summary of what's allowed in different blocks": which functions may be called *)
  Definition may_call (k : kind) (fl : flavour) : Prop :=
    match fl with
    | Ordinary => k <> KGlobal                (* anywhere but in a global initialiser *)
    | You => k = KYou                         (* only directly from you, not in try, not in ?? *)
    | Defeat => defeat_context k              (* only in try bodies and defeat functions *)
    end.

  Definition operand (c : actx) : actx := {| kind_of := KSpecOperand; in_loop := in_loop c |}.
  Definition loop_body (c : actx) : actx := {| kind_of := kind_of c; in_loop := true |}.
  Definition try_body (c : actx) : actx := {| kind_of := KTryBody; in_loop := in_loop c |}.

  Definition opt (A : Type) (P : A -> Prop) (o : option A) : Prop :=
    match o with None => True | Some x => P x end.

  Inductive wc_expr : actx -> expr -> Prop :=
  | WLeaf c : wc_expr c ELeaf
  | WNode c subs : Forall (wc_expr c) subs -> wc_expr c (ENode subs)
  | WCall c fl args :
      may_call (kind_of c) fl -> Forall (wc_expr c) args -> wc_expr c (ECall fl args)
  | WSpec c l r :
      (* only by you, outside try bodies and outside operands of another ?? ... *)
      kind_of c = KYou ->
      (* ... and both operands are ordinary expressions *)
      wc_expr (operand c) l -> wc_expr (operand c) r -> wc_expr c (ESpec l r).

  Inductive wc_plain : actx -> plain -> Prop :=
  | WPExpr c e : wc_expr c e -> wc_plain c (PExpr e)
  | WPAssign c t v : wc_expr c t -> wc_expr c v -> wc_plain c (PAssign t v)
  | WPDecl c i : wc_expr c i -> wc_plain c (PDecl i).

  Inductive wc_stmt : actx -> stmt -> Prop :=
  | WSPlain c p : wc_plain c p -> wc_stmt c (SPlain p)
  | WSBreak c : in_loop c = true -> wc_stmt c SBreak
  | WSContinue c : in_loop c = true -> wc_stmt c SContinue
  | WSReturn c e : opt (wc_expr c) e -> wc_stmt c (SReturn e).

  Inductive wc_block : actx -> block -> Prop :=
  | WCode c items : Forall (wc_item c) items -> wc_block c (BCode items)
  | WIf c cond t e : wc_expr c cond -> wc_block c t -> wc_block c e -> wc_block c (BIf cond t e)
  | WWhile c cond body :
      wc_expr c cond -> wc_block (loop_body c) body -> wc_block c (BWhile cond body)
  | WFor c i cond k body :
      opt (wc_plain c) i -> opt (wc_expr c) cond -> opt (wc_plain c) k ->
      wc_block (loop_body c) body -> wc_block c (BFor i cond k body)
  | WTry c body k h :
      kind_of c = KYou ->                       (* only in you, never inside a try body *)
      wc_block (try_body c) body ->             (* the body is a defeat context; loops stay loops *)
      wc_block c h ->                           (* the handler stands where the try stands *)
      wc_block c (BTry body k h)
  | WPreempt c body :
      defeat_context (kind_of c) -> wc_block c body -> wc_block c (BPreempt body)
  with wc_item : actx -> item -> Prop :=
  | WIStmt c s : wc_stmt c s -> wc_item c (IStmt s)
  | WIBlock c b : wc_block c b -> wc_item c (IBlock b).

  Definition function_ctx (fl : flavour) : actx :=
    {| kind_of := match fl with Ordinary => KOrdinary | You => KYou | Defeat => KDefeatFn end;
       in_loop := false |}.
  Definition global_actx : actx := {| kind_of := KGlobal; in_loop := false |}.

  Inductive wc_top : top -> Prop :=
  | WGlobal init : wc_expr global_actx init -> wc_top (TGlobal init)
  | WFunc fl body : Forall (wc_item (function_ctx fl)) body -> wc_top (TFunc fl body).

  Inductive well_contexted : program -> Prop :=
  | WProgram p : Forall wc_top p -> well_contexted p.

End Rules.
Import Rules.

(* The bit-vector of an abstract context, and what every site does to it.  The operand of ?? and
   the body of an ordinary function are both FUNC: no rule tells them apart either (a premise that
   looks at the kind asks for KYou, for a defeat context, or for anything but KGlobal). *)
Definition kind_bits (k : kind) : N :=
  match k with
  | KGlobal => BC_NONE
  | KOrdinary => BC_FUNC
  | KYou => BC_YOU
  | KDefeatFn => BC_DEFEAT
  | KTryBody => BC_TRY
  | KSpecOperand => BC_FUNC
  end.

Definition bits (c : actx) : N :=
  N.lor (kind_bits (kind_of c)) (if in_loop c then BC_LOOP else 0%N).

Definition may_callb (k : kind) (fl : flavour) : bool :=
  match fl, k with
  | Ordinary, KGlobal => false
  | Ordinary, _ => true
  | You, KYou => true
  | Defeat, KDefeatFn => true
  | Defeat, KTryBody => true
  | _, _ => false
  end.

Definition is_global (k : kind) : bool := match k with KGlobal => true | _ => false end.
Definition is_you (k : kind) : bool := match k with KYou => true | _ => false end.
Definition is_defeat_context (k : kind) : bool :=
  match k with KDefeatFn | KTryBody => true | _ => false end.

Ltac by_cases c := destruct c as [[] []]; reflexivity.

(* One lemma per site of the regenerated grammar (Gen/GenContext.v): what the site tests of the
   context, or the context it hands down.  Only the bodies of while and for (loop_body), the two
   operands of ?? (operand), the body of try (try_body) and the body of a function change it; every
   other site hands it down as it is, by reflexivity.  All of these are re-proved against the
   regenerated definitions on every build. *)
Lemma site_call_skip c : call_skip (bits c) = is_global (kind_of c).
Proof. by_cases c. Qed.
Lemma site_call_allowed c fl :
  is_global (kind_of c) = false ->
  allowed (call_flavors (bits c)) (gfl fl) = may_callb (kind_of c) fl.
Proof. destruct c as [[] []], fl; intros H; try discriminate H; reflexivity. Qed.
Lemma site_call_arg ctx : call_arg_ctx ctx = ctx.
Proof. reflexivity. Qed.
Lemma site_spec_first ctx : spec_first_ctx ctx = ctx.
Proof. reflexivity. Qed.
Lemma site_spec_reject c : spec_reject (bits c) = negb (is_you (kind_of c)).
Proof. by_cases c. Qed.
Lemma site_spec_left c : kind_of c = KYou -> spec_left_ctx (bits c) = bits (operand c).
Proof. destruct c as [[] []]; intros H; try discriminate H; reflexivity. Qed.
Lemma site_spec_right c : kind_of c = KYou -> spec_right_ctx (bits c) = bits (operand c).
Proof. destruct c as [[] []]; intros H; try discriminate H; reflexivity. Qed.
Lemma site_break c : break_reject (bits c) = negb (in_loop c).
Proof. by_cases c. Qed.
Lemma site_continue c : continue_reject (bits c) = negb (in_loop c).
Proof. by_cases c. Qed.
Lemma site_return ctx : return_ctx ctx = ctx.
Proof. reflexivity. Qed.
Lemma site_plain ctx : plain_ctx ctx = ctx.
Proof. reflexivity. Qed.
Lemma site_code ctx : code_ctx ctx = ctx.
Proof. reflexivity. Qed.
Lemma site_if_cond ctx : if_cond_ctx ctx = ctx.
Proof. reflexivity. Qed.
Lemma site_if_then ctx : if_then_ctx ctx = ctx.
Proof. reflexivity. Qed.
Lemma site_if_else ctx : if_else_ctx ctx = ctx.
Proof. reflexivity. Qed.
Lemma site_while_cond ctx : while_cond_ctx ctx = ctx.
Proof. reflexivity. Qed.
Lemma site_while_body c : while_body_ctx (bits c) = bits (loop_body c).
Proof. by_cases c. Qed.
Lemma site_for_init ctx : for_init_ctx ctx = ctx.
Proof. reflexivity. Qed.
Lemma site_for_cond ctx : for_cond_ctx ctx = ctx.
Proof. reflexivity. Qed.
Lemma site_for_cont ctx : for_cont_ctx ctx = ctx.
Proof. reflexivity. Qed.
Lemma site_for_body c : for_body_ctx (bits c) = bits (loop_body c).
Proof. by_cases c. Qed.
Lemma site_try_reject c : try_reject (bits c) = negb (is_you (kind_of c)).
Proof. by_cases c. Qed.
Lemma site_try_body c : kind_of c = KYou -> try_body_ctx (bits c) = bits (try_body c).
Proof. destruct c as [[] []]; intros H; try discriminate H; reflexivity. Qed.
Lemma site_handler ctx : handler_ctx ctx = ctx.
Proof. reflexivity. Qed.
Lemma site_preempt_reject c : preempt_reject (bits c) = negb (is_defeat_context (kind_of c)).
Proof. by_cases c. Qed.
Lemma site_preempt_body ctx : preempt_body_ctx ctx = ctx.
Proof. reflexivity. Qed.
Lemma site_func fl : func_body_ctx (func_ctx (gfl fl)) = bits (function_ctx fl).
Proof. destruct fl; reflexivity. Qed.
Lemma site_global : global_ctx = bits global_actx.
Proof. reflexivity. Qed.
Lemma site_var_flavors fl :
  allowed var_flavors (gfl fl) = match fl with Ordinary => true | _ => false end.
Proof. destruct fl; reflexivity. Qed.

(* No context the parser can construct trips BlockContext._missing_ (ValueError). *)
Lemma bits_valid c : invalid_ctx (bits c) = false.
Proof. by_cases c. Qed.

Lemma may_callb_iff k fl : may_callb k fl = true <-> may_call k fl.
Proof.
  unfold may_call, defeat_context.
  destruct fl, k; simpl; split; intros H;
    try reflexivity; try discriminate H; try congruence; auto;
    try (destruct H as [H | H]; discriminate H).
Qed.
Lemma is_you_iff k : is_you k = true <-> k = KYou.
Proof. destruct k; simpl; split; intros H; try reflexivity; try discriminate H. Qed.
Lemma is_defeat_context_iff k : is_defeat_context k = true <-> defeat_context k.
Proof.
  unfold defeat_context.
  destruct k; simpl; split; intros H; try reflexivity; try discriminate H; auto;
    destruct H as [H | H]; discriminate H.
Qed.

Lemma andthen_none a b : andthen a b = None <-> a = None /\ b = None.
Proof. destruct a; simpl; [split; [|intros [H _]]; discriminate | tauto]. Qed.

Lemma reject_none (b : bool) (e : err) (v : verdict) :
  (if b then Some e else v) = None <-> b = false /\ v = None.
Proof. destruct b; [split; [discriminate | intros [H _]; discriminate H] | tauto]. Qed.

Lemma chk_list_iff (A : Type) (f : A -> verdict) (P : A -> Prop) (l : list A) :
  Forall (fun x => f x = None <-> P x) l -> (chk_list f l = None <-> Forall P l).
Proof.
  induction 1 as [| x l Hx _ IH]; simpl.
  - split; constructor.
  - rewrite andthen_none, Hx, IH. symmetry. apply Forall_cons_iff.
Qed.

Lemma chk_opt_iff (A : Type) (f : A -> verdict) (P : A -> Prop) (o : option A) :
  (forall x, f x = None <-> P x) -> (chk_opt f o = None <-> opt P o).
Proof. intros H. destruct o; simpl; [apply H | tauto]. Qed.

(* An ordinary expression (operand of ??) may stand anywhere a you-expression may.  ps_expr parses
   the left operand first in the context of the ?? itself (spec_first_ctx) and then again as an
   operand; the rules ask for the second only, and this gives the first. *)
Lemma wc_operand_weaken : forall e c,
  kind_of c = KYou -> wc_expr (operand c) e -> wc_expr c e.
Proof.
  induction e as [| fl args IH | l r IHl IHr | subs IH] using expr_ind'; intros c Hc H.
  - constructor.
  - inversion H as [| | c' fl' args' Hcall Hargs |]; subst. constructor.
    + destruct fl; simpl in *.
      * rewrite Hc. discriminate.
      * discriminate Hcall.
      * destruct Hcall as [Hk | Hk]; discriminate Hk.
    + rewrite Forall_forall in *. intros x Hx. apply (IH x Hx c Hc). apply Hargs, Hx.
  - inversion H as [| | | c' l' r' Hk _ _]; subst. simpl in Hk. discriminate Hk.
  - inversion H as [| c' subs' Hsubs | |]; subst. constructor.
    rewrite Forall_forall in *. intros x Hx. apply (IH x Hx c Hc). apply Hsubs, Hx.
Qed.

Lemma chk_expr_iff : forall e c, chk_expr (bits c) e = None <-> wc_expr c e.
Proof.
  induction e as [| fl args IH | l r IHl IHr | subs IH] using expr_ind'; intros c.
  - simpl. split; [constructor | reflexivity].
  - rewrite chk_expr_call, site_call_skip, site_var_flavors, site_call_arg.
    destruct (is_global (kind_of c)) eqn:Hg.
    + split.
      * destruct fl; intros H; discriminate H.
      * intros H. inversion H as [| | c' fl' args' Hcall _ |]; subst. exfalso.
        apply may_callb_iff in Hcall.
        destruct (kind_of c); try discriminate Hg. destruct fl; discriminate Hcall.
    + rewrite (site_call_allowed c fl Hg).
      assert (Hargs : chk_list (chk_expr (bits c)) args = None <-> Forall (wc_expr c) args).
      { apply chk_list_iff. revert IH. apply Forall_impl. auto. }
      split.
      * destruct (may_callb (kind_of c) fl) eqn:Hm; [| intros H; discriminate H].
        intros H. constructor; [apply may_callb_iff, Hm | apply Hargs, H].
      * intros H. inversion H as [| | c' fl' args' Hcall Ha |]; subst.
        apply may_callb_iff in Hcall. rewrite Hcall. apply Hargs, Ha.
  - rewrite chk_expr_spec, site_spec_first, site_spec_reject, andthen_none, reject_none,
      negb_false_iff, is_you_iff. split.
    + intros (_ & Hy & H).
      rewrite (site_spec_left c Hy), (site_spec_right c Hy), andthen_none, IHl, IHr in H.
      constructor; tauto.
    + inversion 1 as [| | | c' l' r' Hy Hl Hr]; subst.
      rewrite (site_spec_left c Hy), (site_spec_right c Hy), andthen_none, !IHl, IHr.
      auto using wc_operand_weaken.
  - rewrite chk_expr_node, (chk_list_iff _ (wc_expr c)).
    + split; [constructor; assumption | inversion 1; assumption].
    + revert IH. apply Forall_impl. auto.
Qed.

Lemma chk_plain_iff : forall p c, chk_plain (bits c) p = None <-> wc_plain c p.
Proof.
  intros [e | t v | i] c; simpl; rewrite ?andthen_none, !chk_expr_iff;
    (split; [constructor; tauto | inversion 1; auto]).
Qed.

Lemma chk_stmt_iff : forall s c, chk_stmt (bits c) s = None <-> wc_stmt c s.
Proof.
  intros [p | | | e] c; simpl.
  - rewrite site_plain, chk_plain_iff. split; [constructor; assumption | inversion 1; assumption].
  - rewrite site_break, reject_none, negb_false_iff.
    split; [intros [H _]; constructor; exact H | inversion 1; auto].
  - rewrite site_continue, reject_none, negb_false_iff.
    split; [intros [H _]; constructor; exact H | inversion 1; auto].
  - rewrite site_return, (chk_opt_iff _ _ e (fun x => chk_expr_iff x c)).
    split; [constructor; assumption | inversion 1; assumption].
Qed.

Lemma chk_block_item_iff :
  (forall b c, chk_block (bits c) b = None <-> wc_block c b) /\
  (forall it c, chk_item (bits c) it = None <-> wc_item c it).
Proof.
  apply block_item_ind'.
  - intros items IH c.
    rewrite chk_block_code, site_code, (chk_list_iff _ (wc_item c)).
    + split; [constructor; assumption | inversion 1; assumption].
    + revert IH. apply Forall_impl. auto.
  - intros cond t e IHt IHe c. simpl.
    rewrite site_if_cond, site_if_then, site_if_else, !andthen_none, chk_expr_iff, IHt, IHe.
    split; [constructor; tauto | inversion 1; auto].
  - intros cond body IHb c. simpl.
    rewrite site_while_cond, site_while_body, andthen_none, chk_expr_iff, IHb.
    split; [constructor; tauto | inversion 1; auto].
  - intros i cond k body IHb c. simpl.
    rewrite site_for_init, site_for_cond, site_for_cont, site_for_body, !andthen_none, IHb,
      !(chk_opt_iff _ _ _ (fun x => chk_plain_iff x c)),
      (chk_opt_iff _ _ _ (fun x => chk_expr_iff x c)).
    split; [constructor; tauto | inversion 1; auto].
  - intros body k h IHb IHh c. simpl.
    rewrite site_try_reject, site_handler, reject_none, negb_false_iff, is_you_iff. split.
    + intros [Hy H]. rewrite (site_try_body c Hy), andthen_none, IHb, IHh in H.
      constructor; tauto.
    + inversion 1 as [| | | | c' b' k' h' Hy Hb Hh |]; subst.
      rewrite (site_try_body c Hy), andthen_none, IHb, IHh. auto.
  - intros body IHb c. simpl.
    rewrite site_preempt_reject, site_preempt_body, reject_none, negb_false_iff,
      is_defeat_context_iff, IHb.
    split; [intros []; constructor; assumption | inversion 1; auto].
  - intros s c. simpl. rewrite chk_stmt_iff.
    split; [constructor; assumption | inversion 1; assumption].
  - intros b IHb c. simpl. rewrite IHb.
    split; [constructor; assumption | inversion 1; assumption].
Qed.

Lemma chk_top_iff : forall t, chk_top t = None <-> wc_top t.
Proof.
  intros [init | fl body]; simpl.
  - rewrite site_global, chk_expr_iff. split; [constructor; assumption | inversion 1; assumption].
  - rewrite site_func, (chk_list_iff _ (wc_item (function_ctx fl))).
    + split; [constructor; assumption | inversion 1; assumption].
    + apply Forall_forall. intros x _. apply chk_block_item_iff.
Qed.

Theorem context_model_iff_rules : forall p : program,
  accepts p = true <-> well_contexted p.
Proof.
  intros p. unfold accepts, check_program.
  assert (Hs : chk_list chk_top p = None <-> Forall wc_top p).
  { apply chk_list_iff, Forall_forall. intros x _. apply chk_top_iff. }
  destruct (chk_list chk_top p).
  - split; [discriminate | inversion 1 as [p' Hp]; apply Hs in Hp; discriminate Hp].
  - split; [constructor; apply Hs; reflexivity | reflexivity].
Qed.

(* Lexical positions; defeat is only used under a try body or in a defeat function *)

Inductive frame : Set :=
| FGlobal (i : nat)                    (* initialiser of the i-th top-level declaration *)
| FFunc (i : nat) (fl : flavour)       (* body of the i-th top-level declaration, a function *)
| FItem (i : nat)                      (* i-th entry of a code block *)
| FIfCond | FThen | FElse
| FWhileCond | FWhileBody
| FForInit | FForCond | FForCont | FForBody
| FTryBody | FHandler (k : hkind)
| FPreemptBody
| FStmtExpr | FAssignTarget | FAssignValue | FDeclInit | FReturnValue
| FArg (i : nat) | FSpecLeft | FSpecRight | FSub (i : nat).

Inductive node : Set :=
| NE (e : expr)
| NS (s : stmt)
| NB (b : block).

(* [child n f n']: n' is the immediate constituent of n at position f *)
Inductive child : node -> frame -> node -> Prop :=
| c_arg fl args i a : nth_error args i = Some a -> child (NE (ECall fl args)) (FArg i) (NE a)
| c_spec_l l r : child (NE (ESpec l r)) FSpecLeft (NE l)
| c_spec_r l r : child (NE (ESpec l r)) FSpecRight (NE r)
| c_sub subs i a : nth_error subs i = Some a -> child (NE (ENode subs)) (FSub i) (NE a)
| c_stmt_expr e : child (NS (SPlain (PExpr e))) FStmtExpr (NE e)
| c_assign_t t v : child (NS (SPlain (PAssign t v))) FAssignTarget (NE t)
| c_assign_v t v : child (NS (SPlain (PAssign t v))) FAssignValue (NE v)
| c_decl i : child (NS (SPlain (PDecl i))) FDeclInit (NE i)
| c_return e : child (NS (SReturn (Some e))) FReturnValue (NE e)
| c_item_s items i s : nth_error items i = Some (IStmt s) -> child (NB (BCode items)) (FItem i) (NS s)
| c_item_b items i b : nth_error items i = Some (IBlock b) -> child (NB (BCode items)) (FItem i) (NB b)
| c_if_c c t e : child (NB (BIf c t e)) FIfCond (NE c)
| c_if_t c t e : child (NB (BIf c t e)) FThen (NB t)
| c_if_e c t e : child (NB (BIf c t e)) FElse (NB e)
| c_while_c c b : child (NB (BWhile c b)) FWhileCond (NE c)
| c_while_b c b : child (NB (BWhile c b)) FWhileBody (NB b)
| c_for_i p c k b : child (NB (BFor (Some p) c k b)) FForInit (NS (SPlain p))
| c_for_c i e k b : child (NB (BFor i (Some e) k b)) FForCond (NE e)
| c_for_k i c p b : child (NB (BFor i c (Some p) b)) FForCont (NS (SPlain p))
| c_for_b i c k b : child (NB (BFor i c k b)) FForBody (NB b)
| c_try_b b k h : child (NB (BTry b k h)) FTryBody (NB b)
| c_try_h b k h : child (NB (BTry b k h)) (FHandler k) (NB h)
| c_preempt b : child (NB (BPreempt b)) FPreemptBody (NB b).

Inductive descends : node -> list frame -> node -> Prop :=
| d_here n : descends n [] n
| d_down n f n' path n'' : child n f n' -> descends n' path n'' -> descends n (f :: path) n''.

(* [occurs p path n]: n occurs in program p at the lexical position path (outermost first) *)
Inductive occurs : program -> list frame -> node -> Prop :=
| o_global p i init path n :
    nth_error p i = Some (TGlobal init) -> descends (NE init) path n ->
    occurs p (FGlobal i :: path) n
| o_func p i fl body path n :
    nth_error p i = Some (TFunc fl body) -> descends (NB (BCode body)) path n ->
    occurs p (FFunc i fl :: path) n.

(* a use of defeat: a call of a defeat function, or a preempt block *)
Inductive uses_defeat : node -> Prop :=
| u_call args : uses_defeat (NE (ECall Defeat args))
| u_preempt body : uses_defeat (NB (BPreempt body)).

(* the position lies lexically inside a try body or inside (the body of) a defeat function *)
Definition inside_try_or_defeat_function (path : list frame) : Prop :=
  In FTryBody path \/ exists i, In (FFunc i Defeat) path.

Definition wc_node (c : actx) (n : node) : Prop :=
  match n with
  | NE e => wc_expr c e
  | NS s => wc_stmt c s
  | NB b => wc_block c b
  end.

(* The rules give the constituent at each position its own context, a function of the position;
   only a try body turns a context into a defeat context. *)
Definition child_ctx (f : frame) (c : actx) : actx :=
  match f with
  | FSpecLeft | FSpecRight => operand c
  | FWhileBody | FForBody => loop_body c
  | FTryBody => try_body c
  | _ => c
  end.

Lemma child_ctx_defeat f c :
  defeat_context (kind_of (child_ctx f c)) -> defeat_context (kind_of c) \/ f = FTryBody.
Proof. destruct f; simpl; auto; intros [D | D]; discriminate D. Qed.

Lemma Forall_nth (A : Type) (P : A -> Prop) (l : list A) i x :
  Forall P l -> nth_error l i = Some x -> P x.
Proof. intros H E. rewrite Forall_forall in H. apply H. eapply nth_error_In, E. Qed.

Lemma child_wc n f n' c : child n f n' -> wc_node c n -> wc_node (child_ctx f c) n'.
Proof.
  intros Hc. destruct Hc; simpl; intros W; inversion W; subst; try assumption.
  1, 2: eapply Forall_nth; eassumption.
  (* the four constituents of a plain statement *)
  1-4: match goal with Hp : wc_plain _ _ |- _ => inversion Hp; assumption end.
  - assert (Hx : wc_item c (IStmt s)) by (eapply Forall_nth; eassumption).
    inversion Hx; assumption.
  - assert (Hx : wc_item c (IBlock b)) by (eapply Forall_nth; eassumption).
    inversion Hx; assumption.
  - constructor. assumption.
  - constructor. assumption.
Qed.

Definition path_ctx (path : list frame) (c : actx) : actx :=
  fold_left (fun c f => child_ctx f c) path c.

Lemma descends_wc n path n' :
  descends n path n' -> forall c, wc_node c n -> wc_node (path_ctx path c) n'.
Proof.
  induction 1 as [n | n f n1 path n2 Hch _ IH]; intros c H; [exact H |].
  apply IH, (child_wc c Hch H).
Qed.

Lemma path_ctx_defeat path : forall c,
  defeat_context (kind_of (path_ctx path c)) -> defeat_context (kind_of c) \/ In FTryBody path.
Proof.
  induction path as [| f path IH]; intros c D; simpl in *; [auto |].
  destruct (IH _ D) as [D' | D']; [| auto].
  destruct (child_ctx_defeat _ _ D') as [D'' | ->]; auto.
Qed.

(* A use of defeat below a well-contexted node: the node stands in a defeat context already, or
   the way down passes a try body. *)
Lemma defeat_needs_context n path n' c :
  descends n path n' -> wc_node c n -> uses_defeat n' ->
  defeat_context (kind_of c) \/ In FTryBody path.
Proof.
  intros Hd H U. apply path_ctx_defeat.
  pose proof (descends_wc Hd c H) as H'.
  destruct U; inversion H'; subst; assumption.
Qed.

Theorem defeat_only_in_try : forall p : program,
  accepts p = true ->
  forall path n, occurs p path n -> uses_defeat n -> inside_try_or_defeat_function path.
Proof.
  intros p Hacc path n Hocc U.
  apply context_model_iff_rules in Hacc. inversion Hacc as [p' Htops]; subst.
  unfold inside_try_or_defeat_function.
  destruct Hocc as [p i init path n Hnth Hd | p i fl body path n Hnth Hd].
  - assert (Ht : wc_top (TGlobal init)) by (eapply Forall_nth; eassumption).
    inversion Ht as [init' Hi |]; subst.
    destruct (defeat_needs_context global_actx Hd Hi U) as [[D | D] | D];
      [discriminate D | discriminate D | left; right; exact D].
  - assert (Ht : wc_top (TFunc fl body)) by (eapply Forall_nth; eassumption).
    inversion Ht as [| fl' body' Hb]; subst.
    destruct (defeat_needs_context (function_ctx fl) Hd (WCode Hb) U) as [D | D];
      [| left; right; exact D].
    right. exists i. left.
    destruct fl; destruct D as [D | D]; try discriminate D; reflexivity.
Qed.

Definition call0 (fl : flavour) : expr := ECall fl [].
Definition estmt (e : expr) : item := IStmt (SPlain (PExpr e)).

(* int g = 1;
   int f() { return 1; }
   empty !d() { preempt { !d(); } f(); }
   empty @is_you() {
     while (c) {
       try { !d(); f(); preempt { break; } while (c) { continue; } }
       undo { @is_you(); x = f() ?? g(f()); try { } stop { continue; } }
     }
   } *)
Definition ex_accepted : program :=
  [ TGlobal ELeaf;
    TFunc Ordinary [IStmt (SReturn (Some ELeaf))];
    TFunc Defeat [IBlock (BPreempt (BCode [estmt (call0 Defeat)])); estmt (call0 Ordinary)];
    TFunc You
      [IBlock (BWhile ELeaf (BCode
         [IBlock (BTry
            (BCode [estmt (call0 Defeat); estmt (call0 Ordinary);
                    IBlock (BPreempt (BCode [IStmt SBreak]));
                    IBlock (BWhile ELeaf (BCode [IStmt SContinue]))])
            Undo
            (BCode [estmt (call0 You);
                    IStmt (SPlain (PAssign ELeaf
                      (ESpec (call0 Ordinary) (ECall Ordinary [call0 Ordinary]))));
                    IBlock (BTry (BCode []) Stop (BCode [IStmt SContinue]))]))]))] ].

Example ex_accepted_ok : accepts ex_accepted = true.
Proof. reflexivity. Qed.
Example ex_accepted_rules : well_contexted ex_accepted.
Proof. apply context_model_iff_rules. reflexivity. Qed.

(* rejected programs, one per rule, with the error hidc reports *)
Definition in_fn (fl : flavour) (its : list item) : program := [TFunc fl its].
Definition tryb (body handler : list item) : item := IBlock (BTry (BCode body) Undo (BCode handler)).

Example ex_global_call : check_program [TGlobal (call0 Ordinary)] = Some ErrSyntax.
Proof. reflexivity. Qed.
Example ex_global_you_call : check_program [TGlobal (call0 You)] = Some ErrIdent.
Proof. reflexivity. Qed.
Example ex_global_spec : check_program [TGlobal (ESpec ELeaf ELeaf)] = Some ErrSpec.
Proof. reflexivity. Qed.
Example ex_defeat_in_you : check_program (in_fn You [estmt (call0 Defeat)]) = Some ErrIdent.
Proof. reflexivity. Qed.
Example ex_defeat_in_handler :
  check_program (in_fn You [tryb [] [estmt (call0 Defeat)]]) = Some ErrIdent.
Proof. reflexivity. Qed.
Example ex_you_in_try : check_program (in_fn You [tryb [estmt (call0 You)] []]) = Some ErrIdent.
Proof. reflexivity. Qed.
Example ex_nested_try : check_program (in_fn You [tryb [tryb [] []] []]) = Some ErrTry.
Proof. reflexivity. Qed.
Example ex_try_in_ordinary : check_program (in_fn Ordinary [tryb [] []]) = Some ErrTry.
Proof. reflexivity. Qed.
Example ex_try_in_defeat : check_program (in_fn Defeat [tryb [] []]) = Some ErrTry.
Proof. reflexivity. Qed.
Example ex_spec_in_try :
  check_program (in_fn You [tryb [estmt (ESpec ELeaf ELeaf)] []]) = Some ErrSpec.
Proof. reflexivity. Qed.
Example ex_spec_in_spec :
  check_program (in_fn You [estmt (ESpec (ENode [ESpec ELeaf ELeaf]) ELeaf)]) = Some ErrSpec.
Proof. reflexivity. Qed.
Example ex_you_in_spec_right :
  check_program (in_fn You [estmt (ESpec ELeaf (ECall Ordinary [call0 You]))]) = Some ErrIdent.
Proof. reflexivity. Qed.
Example ex_defeat_in_spec_in_ordinary :    (* the right operand is never parsed in ctx *)
  check_program (in_fn Ordinary [estmt (ESpec ELeaf (call0 Defeat))]) = Some ErrSpec.
Proof. reflexivity. Qed.
Example ex_preempt_in_you : check_program (in_fn You [IBlock (BPreempt (BCode []))]) = Some ErrPreempt.
Proof. reflexivity. Qed.
Example ex_preempt_in_handler :
  check_program (in_fn You [tryb [] [IBlock (BPreempt (BCode []))]]) = Some ErrPreempt.
Proof. reflexivity. Qed.
Example ex_break_outside : check_program (in_fn Ordinary [IStmt SBreak]) = Some ErrBreak.
Proof. reflexivity. Qed.
Example ex_break_after_loop :
  check_program (in_fn You [tryb [IBlock (BWhile ELeaf (BCode [])); IStmt SContinue] []])
  = Some ErrContinue.
Proof. reflexivity. Qed.
Example ex_break_in_for_header_is_not_in_loop :   (* for-header positions are outside the loop *)
  check_program (in_fn You
    [IBlock (BFor None (Some (ESpec ELeaf ELeaf)) None (BCode [tryb [IStmt SBreak] []]))]) = None.
Proof. reflexivity. Qed.
Example ex_rejected_rules : ~ well_contexted (in_fn You [tryb [tryb [] []] []]).
Proof. intros H. apply context_model_iff_rules in H. discriminate H. Qed.

(* the corollary is not vacuous: an accepted program with a defeat call and a preempt, and the
   positions at which they occur *)
Example ex_positions :
  occurs ex_accepted [FFunc 3 You; FItem 0; FWhileBody; FItem 0; FTryBody; FItem 0; FStmtExpr]
         (NE (call0 Defeat))
  /\ occurs ex_accepted [FFunc 2 Defeat; FItem 0] (NB (BPreempt (BCode [estmt (call0 Defeat)]))).
Proof.
  split.
  - eapply o_func; [reflexivity |].
    eapply d_down; [apply c_item_b; reflexivity |].
    eapply d_down; [apply c_while_b |].
    eapply d_down; [apply c_item_b; reflexivity |].
    eapply d_down; [apply c_try_b |].
    eapply d_down; [apply c_item_s; reflexivity |].
    eapply d_down; [apply c_stmt_expr |].
    apply d_here.
  - eapply o_func; [reflexivity |].
    eapply d_down; [apply c_item_b; reflexivity |].
    apply d_here.
Qed.

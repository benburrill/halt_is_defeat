(* Component `parser` (property C11): tokens and untyped expression trees.

   Scope.  The token datatype is restricted to what the expression ladder
   ps_expr0 .. ps_expr8 / ps_expr of hidc/parser/grammar.py consumes when no function call, array
   literal, string literal or character literal is present:

     IntToken n            -> TInt n          (n : Z; the lexer only produces n >= 0)
     BoolToken.TRUE/FALSE  -> TBool b
     Ident(name, NONE)     -> TId i           (i : nat; i = 0 is the identifier `length`,
                                               i > 0 is the plain variable `v<i>`)
     OpToken.*             -> TOp o
     DataType.*            -> TType t         (including `empty`, which ps_data_type rejects)
     ( ) [ ] . ,           -> TLParen TRParen TLSquare TRSquare TDot TComma

   LEFT OUT of the model (said explicitly, see ExprParser.v: such inputs give `PUnsup`):
     function calls  `f(...)`   (ps_func_call; depends on identifier flavours = property C06),
     array literals  `[a, b]`   (comma_list),
     string / char literals.
   Everything else of the expression grammar is modelled, including the context flag YOU that
   `??` needs and loses for its operands. *)
From Coq Require Import List ZArith.
Import ListNotations.

(* hidc.lexer.tokens.OpToken, member for member. *)
Inductive optok : Type :=
| ADD | SUB | MUL | DIV | MOD | EQ | NE | LT | GT | LE | GE | OR | AND | NOT | IS | SPECULATION.

(* hidc.lexer.tokens.DataType, member for member. *)
Inductive dtype : Type := DInt | DBool | DByte | DString | DEmpty.

Inductive token : Type :=
| TInt (n : Z)
| TBool (b : bool)
| TId (i : nat)
| TOp (o : optok)
| TType (t : dtype)
| TLParen | TRParen | TLSquare | TRSquare | TDot | TComma.

(* The identifier that `.length` expects: Exact(Ident('length')). *)
Definition length_id : nat := 0.

(* Constructor tags = class names of hidc/ast/operators.py. *)
Inductive unop : Type := Pos | Neg | Not.
Inductive binop : Type :=
| Mul | Div | Mod | Add | Sub | Lt | Le | Gt | Ge | Eq | Ne | And | Or.

Inductive expr : Type :=
| EInt (n : Z)                                  (* IntValue(n)                          *)
| EBool (b : bool)                              (* BoolValue(b)                         *)
| EVar (i : nat)                                (* VariableLookup(UnresolvedName(name)) *)
| EUn (u : unop) (e : expr)                     (* Pos / Neg / Not (op_span, arg)       *)
| EIs (e : expr) (t : dtype) (is_array : bool)  (* Is(span, expr, t | ArrayType(t, const=True)) *)
| EBin (b : binop) (l r : expr)                 (* Mul .. Or (op_span, left, right)     *)
| ESpec (l r : expr)                            (* Speculation(op_span, left, right)    *)
| ELen (e : expr)                               (* LengthLookup(source, end)            *)
| EIdx (e i : expr).                            (* ArrayLookup(source, index, end)      *)

(* Decidable equalities (boolean, for table lookups that must compute): compare constructor
   indices.  An index function with a left inverse is injective. *)
Lemma idx_eqb_eq : forall (A : Type) (idx : A -> nat) (of_idx : nat -> A),
  (forall x, of_idx (idx x) = x) -> forall a b, Nat.eqb (idx a) (idx b) = true <-> a = b.
Proof.
  intros A idx of_idx R a b. rewrite Nat.eqb_eq. split.
  - intro H. rewrite <- (R a), <- (R b), H. reflexivity.
  - intros ->. reflexivity.
Qed.

Definition optok_idx (x : optok) : nat := match x with | ADD => 0 | SUB => 1 | MUL => 2 | DIV => 3 | MOD => 4 | EQ => 5 | NE => 6 | LT => 7 | GT => 8 | LE => 9 | GE => 10 | OR => 11 | AND => 12 | NOT => 13 | IS => 14 | SPECULATION => 15 end.
Definition optok_of_idx (n : nat) : optok := match n with | 0 => ADD | 1 => SUB | 2 => MUL | 3 => DIV | 4 => MOD | 5 => EQ | 6 => NE | 7 => LT | 8 => GT | 9 => LE | 10 => GE | 11 => OR | 12 => AND | 13 => NOT | 14 => IS | _ => SPECULATION end.
Lemma optok_of_idx_idx : forall x, optok_of_idx (optok_idx x) = x.
Proof. destruct x; reflexivity. Qed.
Definition optok_eqb (a b : optok) : bool := Nat.eqb (optok_idx a) (optok_idx b).
Lemma optok_eqb_eq : forall a b, optok_eqb a b = true <-> a = b.
Proof. exact (idx_eqb_eq _ optok_idx optok_of_idx optok_of_idx_idx). Qed.
Lemma optok_eqb_refl : forall a, optok_eqb a a = true.
Proof. intro a; apply optok_eqb_eq; reflexivity. Qed.
Definition binop_idx (x : binop) : nat := match x with | Mul => 0 | Div => 1 | Mod => 2 | Add => 3 | Sub => 4 | Lt => 5 | Le => 6 | Gt => 7 | Ge => 8 | Eq => 9 | Ne => 10 | And => 11 | Or => 12 end.
Definition binop_of_idx (n : nat) : binop := match n with | 0 => Mul | 1 => Div | 2 => Mod | 3 => Add | 4 => Sub | 5 => Lt | 6 => Le | 7 => Gt | 8 => Ge | 9 => Eq | 10 => Ne | 11 => And | _ => Or end.
Lemma binop_of_idx_idx : forall x, binop_of_idx (binop_idx x) = x.
Proof. destruct x; reflexivity. Qed.
Definition binop_eqb (a b : binop) : bool := Nat.eqb (binop_idx a) (binop_idx b).
Lemma binop_eqb_eq : forall a b, binop_eqb a b = true <-> a = b.
Proof. exact (idx_eqb_eq _ binop_idx binop_of_idx binop_of_idx_idx). Qed.
Definition unop_idx (x : unop) : nat := match x with | Pos => 0 | Neg => 1 | Not => 2 end.
Definition unop_of_idx (n : nat) : unop := match n with | 0 => Pos | 1 => Neg | _ => Not end.
Lemma unop_of_idx_idx : forall x, unop_of_idx (unop_idx x) = x.
Proof. destruct x; reflexivity. Qed.
Definition unop_eqb (a b : unop) : bool := Nat.eqb (unop_idx a) (unop_idx b).
Lemma unop_eqb_eq : forall a b, unop_eqb a b = true <-> a = b.
Proof. exact (idx_eqb_eq _ unop_idx unop_of_idx unop_of_idx_idx). Qed.

Definition all_binops : list binop :=
  [Mul; Div; Mod; Add; Sub; Lt; Le; Gt; Ge; Eq; Ne; And; Or].
Definition all_unops : list unop := [Pos; Neg; Not].

Lemma all_binops_complete : forall b, In b all_binops.
Proof. destruct b; simpl; tauto. Qed.
Lemma all_unops_complete : forall u, In u all_unops.
Proof. destruct u; simpl; tauto. Qed.

(* The shape of the ladder, as data the translator fills in. *)

(* A grammar rule of the expression ladder: `R n` is ps_expr<n>, `RTop` is ps_expr. *)
Inductive rule_id : Type := R (n : nat) | RTop.

Inductive postfix_form : Type := PfLength | PfIndex.
Inductive assoc : Type := AssocLeft | AssocRight.

(* One level of binary operators: operator token -> constructor tag, in dict order. *)
Definition level : Type := list (optok * binop).

Record ladder_shape : Type := {
  sh_paren_inner      : rule_id;            (* ps_expr0: `(` <this rule> `)`                    *)
  sh_postfix_rule     : nat;                (* the rule holding the postfix loop (ps_expr1)    *)
  sh_postfix_base     : rule_id;            (* what it parses first (ps_expr0)                 *)
  sh_postfix_forms    : list postfix_form;  (* `.length`, `[index]`, in source order           *)
  sh_postfix_loops    : bool;               (* `while True:` - postfix forms repeat            *)
  sh_index_inner      : rule_id;            (* rule of the index expression                    *)
  sh_unary_rule       : nat;                (* ps_expr2                                        *)
  sh_unary_operand    : rule_id;            (* rule of the operand after a unary operator      *)
  sh_unary_fallthrough: rule_id;            (* rule used when there is no unary operator       *)
  sh_is_rule          : nat;                (* ps_expr3                                        *)
  sh_is_operand       : rule_id;            (* rule of the left operand of `is`                *)
  sh_is_chains        : bool;               (* false: at most one `is` per ps_expr3            *)
  sh_is_array_suffix  : bool;               (* optional `[` `]` after the type                 *)
  sh_bin_chain        : list (nat * nat);   (* (N, M): ps_exprN = bin_op(ps_exprM, ...), tightest first *)
  sh_bin_assoc        : assoc;              (* fold direction of bin_op                        *)
  sh_spec_first       : rule_id;            (* rule tried first by ps_expr                     *)
  sh_spec_left        : rule_id;            (* left operand of `??` (re-parsed)                *)
  sh_spec_right       : rule_id;            (* right operand of `??`                           *)
  sh_spec_chains      : bool                (* false: `a ?? b ?? c` is not consumed            *)
}.

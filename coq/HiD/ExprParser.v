(* Component `parser` (property C11): generic ladder parser, minimal-parenthesis printer,
   documented table, and the round-trip / grouping theorems.

   The parser mirrors hidc/parser/grammar.py function by function:

     p_primary        ps_expr0   ( expr ) | int | bool | identifier
     postfix_loop     ps_expr1   while True: `.length` | `[ expr ]`
     p_unary          ps_expr2   unary-op ps_expr2 | ps_expr1
     p_is             ps_expr3   ps_expr2 [ `is` type [ `[` `]` ] ]        (no chaining)
     binloop          bin_op     left fold over one operator dict
     ladder j         ps_expr(3+j)
     p_top            ps_expr    ps_expr8 [ `??` ps_expr8 ]                (no chaining; the left
                                  operand is re-parsed in a context without YOU)

   Results: hidc's three outcomes (a tree and the remaining tokens / None = "does not start
   here" / ParserError) are POk / PNone / PErr; PFuel is the distinct out-of-fuel result and
   PUnsup marks token sequences outside the modelled fragment (function call, array literal). *)
From Coq Require Import List ZArith Bool Arith Lia.
Import ListNotations.
From HidV.HiD Require Import ExprSyntax.

Inductive pres : Type :=
| POk (e : expr) (rest : list token)
| PNone
| PErr
| PFuel
| PUnsup.

(* `expect(rule)`: None becomes an error. *)
Definition expect (r : pres) : pres :=
  match r with PNone => PErr | x => x end.

Fixpoint lookup {A : Type} (o : optok) (tbl : list (optok * A)) : option A :=
  match tbl with
  | [] => None
  | (k, v) :: tl => if optok_eqb o k then Some v else lookup o tl
  end.

Section Layer.
  (* The grammar data. *)
  Variable lvls : list level.
  Variable unops : list (optok * unop).
  (* ps_expr(ctx) for the parenthesised / index sub-expressions (one unit of fuel less). *)
  Variable topf : list token -> pres.
  (* Fuel of the two `while` loops of this layer. *)
  Variable n : nat.

  (* ps_expr0 *)
  Definition p_primary (toks : list token) : pres :=
    match toks with
    | TLParen :: r =>
        match expect (topf r) with
        | POk e (TRParen :: r') => POk e r'
        | POk _ _ => PErr
        | x => x
        end
    | TInt z :: r => POk (EInt z) r
    | TBool b :: r => POk (EBool b) r
    | TLSquare :: _ => PUnsup                      (* array literal: not modelled *)
    | TId _ :: TLParen :: _ => PUnsup              (* function call: not modelled *)
    | TId i :: r => POk (EVar i) r
    | _ => PNone
    end.

  (* the `while True:` loop of ps_expr1; `TId 0` is the identifier `length` (ExprSyntax.length_id) *)
  Fixpoint postfix_loop (m : nat) (e : expr) (toks : list token) : pres :=
    match toks with
    | TDot :: r =>
        match r with
        | TId 0 :: r' =>
            match m with
            | 0 => PFuel
            | S m' => postfix_loop m' (ELen e) r'
            end
        | _ => PErr
        end
    | TLSquare :: r =>
        match expect (topf r) with
        | POk i (TRSquare :: r') =>
            match m with
            | 0 => PFuel
            | S m' => postfix_loop m' (EIdx e i) r'
            end
        | POk _ _ => PErr
        | x => x
        end
    | _ => POk e toks
    end.

  (* ps_expr1 *)
  Definition p_postfix_m (m : nat) (toks : list token) : pres :=
    match p_primary toks with
    | POk e r => postfix_loop m e r
    | x => x
    end.
  Definition p_postfix : list token -> pres := p_postfix_m n.

  (* ps_expr2: structural on the token list (each unary operator is one token) *)
  Fixpoint p_unary (toks : list token) : pres :=
    match toks with
    | TOp o :: r =>
        match lookup o unops with
        | Some u =>
            match expect (p_unary r) with
            | POk e r' => POk (EUn u e) r'
            | x => x
            end
        | None => p_postfix toks
        end
    | _ => p_postfix toks
    end.

  (* ps_data_type: consumes a DataType token even when it is `empty` (plain coroutine, no
     backtracking), then answers None; its only caller wraps it in `expect`. *)
  Definition p_is (toks : list token) : pres :=
    match p_unary toks with
    | POk e (TOp IS :: r) =>
        match r with
        | TType DEmpty :: _ => PErr
        | TType t :: TLSquare :: r' =>
            match r' with
            | TRSquare :: r'' => POk (EIs e t true) r''
            | _ => PErr
            end
        | TType t :: r' => POk (EIs e t false) r'
        | _ => PErr
        end
    | x => x
    end.

  (* the `while op := await OneOf(operators)` loop of bin_op *)
  Fixpoint binloop (sub : list token -> pres) (ops : level) (m : nat) (e : expr)
           (toks : list token) : pres :=
    match toks with
    | TOp o :: r =>
        match lookup o ops with
        | Some b =>
            match expect (sub r) with
            | POk e2 r' =>
                match m with
                | 0 => PFuel
                | S m' => binloop sub ops m' (EBin b e e2) r'
                end
            | x => x
            end
        | None => POk e toks
        end
    | _ => POk e toks
    end.

  (* bin_op *)
  Definition p_binlevel_m (sub : list token -> pres) (ops : level) (m : nat)
             (toks : list token) : pres :=
    match sub toks with
    | POk e r => binloop sub ops m e r
    | x => x
    end.

  (* ladder j = ps_expr(3+j): j binary levels on top of ps_expr3 *)
  Fixpoint ladder (j : nat) : list token -> pres :=
    match j with
    | 0 => p_is
    | S j' => p_binlevel_m (ladder j') (nth j' lvls []) n
    end.
End Layer.

(* ps_expr.  `you` is `BlockContext.YOU in ctx`. *)
Fixpoint p_top (lvls : list level) (unops : list (optok * unop)) (f : nat) (you : bool)
         (toks : list token) : pres :=
  match f with
  | 0 => PFuel
  | S f' =>
      let lad := fun y => ladder lvls unops (p_top lvls unops f' y) f' (length lvls) in
      match lad you toks with
      | POk l (TOp SPECULATION :: _) =>
          if you then
            (* Teleport(prev_node); new_ctx = (ctx & ~YOU) | FUNC *)
            match expect (lad false toks) with
            | POk l' (TOp SPECULATION :: r) =>
                match expect (lad false r) with
                | POk r2 r' => POk (ESpec l' r2) r'
                | x => x
                end
            | POk _ _ => PErr
            | x => x
            end
          else PErr                                  (* 'speculation outside of you' *)
      | x => x
      end
  end.

(* The entry point asked for: expression context YOU (so that `??` is allowed). *)
Definition parse_expr (lv : list level) (un : list (optok * unop)) (fuel : nat)
           (toks : list token) : option (expr * list token) :=
  match p_top lv un fuel true toks with
  | POk e r => Some (e, r)
  | _ => None
  end.

(* Printer with minimal parentheses. *)

Fixpoint find_in_level (b : binop) (ops : level) : option optok :=
  match ops with
  | [] => None
  | (o, b') :: tl => if binop_eqb b b' then Some o else find_in_level b tl
  end.

(* position (index of the level, tightest = 0) and token of a binary constructor *)
Fixpoint find_bin (b : binop) (lv : list level) (j : nat) : option (nat * optok) :=
  match lv with
  | [] => None
  | ops :: tl =>
      match find_in_level b ops with
      | Some o => Some (j, o)
      | None => find_bin b tl (S j)
      end
  end.

Fixpoint find_un (u : unop) (tbl : list (optok * unop)) : option optok :=
  match tbl with
  | [] => None
  | (o, u') :: tl => if unop_eqb u u' then Some o else find_un u tl
  end.

Section Printer.
  Variable lvls : list level.
  Variable unops : list (optok * unop).

  Definition bin_pos (b : binop) : nat * optok :=
    match find_bin b lvls 0 with Some p => p | None => (0, ADD) end.
  Definition un_tok (u : unop) : optok :=
    match find_un u unops with Some o => o | None => ADD end.

  (* Rule numbers as in grammar.py: 0 primary, 1 postfix, 2 unary, 3 `is`, 4+j the j-th binary
     level, 4 + number of levels = ps_expr (`??`). *)
  Definition topk : nat := 4 + length lvls.

  Definition level_of (e : expr) : nat :=
    match e with
    | EInt _ | EBool _ | EVar _ => 0
    | ELen _ | EIdx _ _ => 1
    | EUn _ _ => 2
    | EIs _ _ _ => 3
    | EBin b _ _ => 4 + fst (bin_pos b)
    | ESpec _ _ => topk
    end.

  (* parenthesise the already printed child `ts` of `e` iff `e` is looser than the position
     (rule k) admits *)
  Definition wrap (k : nat) (e : expr) (ts : list token) : list token :=
    if level_of e <=? k then ts else TLParen :: ts ++ [TRParen].

  Fixpoint tokens (e : expr) : list token :=
    match e with
    | EInt z => [TInt z]
    | EBool b => [TBool b]
    | EVar i => [TId i]
    | EUn u a => TOp (un_tok u) :: wrap 2 a (tokens a)
    | EIs a t arr =>
        wrap 2 a (tokens a) ++ TOp IS :: TType t :: (if arr then [TLSquare; TRSquare] else [])
    | EBin b l r =>
        let (j, o) := bin_pos b in
        wrap (4 + j) l (tokens l) ++ TOp o :: wrap (3 + j) r (tokens r)
    | ESpec l r =>
        wrap (topk - 1) l (tokens l) ++ TOp SPECULATION :: wrap (topk - 1) r (tokens r)
    | ELen a => wrap 1 a (tokens a) ++ [TDot; TId length_id]
    | EIdx a i => wrap 1 a (tokens a) ++ TLSquare :: tokens i ++ [TRSquare]
    end.

  Definition pr (k : nat) (e : expr) : list token := wrap k e (tokens e).
End Printer.

(* The documented table (README.rst, section "Operators", "In order of precedence"). *)

Definition all_optoks : list optok :=
  [ADD; SUB; MUL; DIV; MOD; EQ; NE; LT; GT; LE; GE; OR; AND; NOT; IS; SPECULATION].

(* order inside one level carries no meaning: list the entries in OpToken member order *)
Definition canon_level {A : Type} (ops : list (optok * A)) : list (optok * A) :=
  flat_map (fun o => match lookup o ops with Some b => [(o, b)] | None => [] end) all_optoks.

Module Spec.
  (*  * Unary ``+``, ``-``, ``not``  *)
  Definition readme_unary : list (optok * unop) := [(ADD, Pos); (SUB, Neg); (NOT, Not)].
  (*  * ``is`` (typecast pseudo-operator)          -- between unary and the binary levels      *)
  Definition readme_binary : list level :=
    [ (*  * ``*``, ``/``, ``%``                       *) [(MUL, Mul); (DIV, Div); (MOD, Mod)];
      (*  * ``+``, ``-``                              *) [(ADD, Add); (SUB, Sub)];
      (*  * ``==``, ``!=``, ``<``, ``<=``, ``>``, ``>=`` *)
        [(EQ, Eq); (NE, Ne); (LT, Lt); (LE, Le); (GT, Gt); (GE, Ge)];
      (*  * ``and``                                   *) [(AND, And)];
      (*  * ``or``                                    *) [(OR, Or)] ].
  (*  * ``??`` (speculation)                        -- loosest                                  *)

  Definition documented_levels : list level := map canon_level readme_binary.
  Definition documented_unary : list (optok * unop) := canon_level readme_unary.

  (* The rest of the property text, as the shape record of ExprSyntax.v: unary binds tighter than
     `is` (operand of `is` at the unary rule), `is` tighter than every binary level (the tightest
     binary level calls the `is` rule), binary levels nest in table order and fold to the left,
     `??` loosest with both operands one rule tighter, postfix on top of primaries, parentheses
     and index brackets restart at the loosest rule. *)
  Definition documented_shape : ladder_shape := {|
    sh_paren_inner       := RTop;
    sh_postfix_rule      := 1;
    sh_postfix_base      := R 0;
    sh_postfix_forms     := [PfLength; PfIndex];
    sh_postfix_loops     := true;
    sh_index_inner       := RTop;
    sh_unary_rule        := 2;
    sh_unary_operand     := R 2;
    sh_unary_fallthrough := R 1;
    sh_is_rule           := 3;
    sh_is_operand        := R 2;
    sh_is_chains         := false;
    sh_is_array_suffix   := true;
    sh_bin_chain         := [(4, 3); (5, 4); (6, 5); (7, 6); (8, 7)];
    sh_bin_assoc         := AssocLeft;
    sh_spec_first        := R 8;
    sh_spec_left         := R 8;
    sh_spec_right        := R 8;
    sh_spec_chains       := false
  |}.
End Spec.

(* The printer follows the DOCUMENTED table; the parser of the theorems below runs on the REGENERATED one. *)
Definition tokens_min (e : expr) : list token :=
  tokens Spec.documented_levels Spec.documented_unary e.

(* ============================================================================================ *)
(* Well-formedness of a table (decidable; holds of the regenerated one by computation)          *)
(* ============================================================================================ *)

Definition keys_of {A : Type} (tbl : list (optok * A)) : list optok := map fst tbl.
Definition mem_op (o : optok) (l : list optok) : bool := existsb (optok_eqb o) l.

(* is `o` a key of one of the first j levels? *)
Definition in_levels_below (lv : list level) (j : nat) (o : optok) : bool :=
  existsb (fun ops => mem_op o (keys_of ops)) (firstn j lv).

Definition bin_ok (lv : list level) (b : binop) : bool :=
  match find_bin b lv 0 with
  | Some (j, o) =>
      match lookup o (nth j lv []) with
      | Some b' => binop_eqb b b'
      | None => false
      end
      && negb (in_levels_below lv j o)
      && negb (optok_eqb o IS)
  | None => false
  end.

Definition un_ok (un : list (optok * unop)) (u : unop) : bool :=
  match find_un u un with
  | Some o => match lookup o un with Some u' => unop_eqb u u' | None => false end
  | None => false
  end.

Definition table_ok (lv : list level) (un : list (optok * unop)) : bool :=
  forallb (bin_ok lv) all_binops
  && forallb (un_ok un) all_unops
  && negb (in_levels_below lv (length lv) SPECULATION).

(* Round trip: parse (print e) = e, for every table satisfying table_ok *)

(* Fuel: one unit per node of the tree is enough (S (size e) at the top). *)
Fixpoint size (e : expr) : nat :=
  match e with
  | EInt _ | EBool _ | EVar _ => 1
  | EUn _ a => S (size a)
  | EIs a _ _ => S (size a)
  | EBin _ l r => S (size l + size r)
  | ESpec l r => S (size l + size r)
  | ELen a => S (size a)
  | EIdx a i => S (size a + size i)
  end.

(* Well-formed trees = trees hidc can produce at all from an expression in a YOU context:
   - integer literals are non-negative (`-5` is Neg(5));
   - `is` never names the type `empty`;
   - `??` occurs only where the context still has YOU: not below another `??` (its operands are
     parsed in a context with YOU removed, parentheses and index brackets included). *)
Fixpoint wf_in (you : bool) (e : expr) : Prop :=
  match e with
  | EInt z => (0 <= z)%Z
  | EBool _ | EVar _ => True
  | EUn _ a => wf_in you a
  | EIs a t _ => t <> DEmpty /\ wf_in you a
  | EBin _ l r => wf_in you l /\ wf_in you r
  | ESpec l r => you = true /\ wf_in false l /\ wf_in false r
  | ELen a => wf_in you a
  | EIdx a i => wf_in you a /\ wf_in you i
  end.

Definition wf_expr : expr -> Prop := wf_in true.

Lemma wf_in_mono : forall e, wf_in false e -> wf_in true e.
Proof.
  induction e; simpl; intuition; discriminate.
Qed.

Lemma mem_op_lookup_none : forall (A : Type) o (ops : list (optok * A)),
  mem_op o (keys_of ops) = false -> lookup o ops = None.
Proof.
  induction ops as [|[k v] tl IH]; simpl; intro H; [reflexivity|].
  apply orb_false_iff in H. destruct H as [H1 H2]. rewrite H1. auto.
Qed.

Lemma lookup_below : forall lv j o j',
  in_levels_below lv j o = false -> j' < j -> lookup o (nth j' lv []) = None.
Proof.
  unfold in_levels_below.
  induction lv as [|ops tl IH]; intros j o j' H Hlt.
  - destruct j'; reflexivity.
  - destruct j as [|j]; [lia|]. simpl in H. apply orb_false_iff in H. destruct H as [H1 H2].
    destruct j' as [|j']; simpl.
    + apply mem_op_lookup_none; exact H1.
    + apply (IH j); [exact H2 | lia].
Qed.

(* one step of ps_expr, and of the loop of bin_op, from what the sub-parsers return *)

Lemma p_top_plain : forall lv un f you toks e rest,
  ladder lv un (p_top lv un f you) f (length lv) toks = POk e rest ->
  (forall r, rest <> TOp SPECULATION :: r) ->
  p_top lv un (S f) you toks = POk e rest.
Proof.
  intros lv un f you toks e rest H N. cbn [p_top]. cbv zeta. rewrite H.
  destruct rest as [|[] r]; try reflexivity. destruct o; try reflexivity.
  destruct (N r eq_refl).
Qed.

Lemma p_top_spec : forall lv un f toks l0 r0 l r1 r rest,
  ladder lv un (p_top lv un f true) f (length lv) toks = POk l0 (TOp SPECULATION :: r0) ->
  ladder lv un (p_top lv un f false) f (length lv) toks = POk l (TOp SPECULATION :: r1) ->
  ladder lv un (p_top lv un f false) f (length lv) r1 = POk r rest ->
  p_top lv un (S f) true toks = POk (ESpec l r) rest.
Proof.
  intros lv un f toks l0 r0 l r1 r rest H0 H1 H2. cbn [p_top]. cbv zeta.
  rewrite H0, H1. cbn [expect]. rewrite H2. reflexivity.
Qed.

Lemma p_is_step : forall un topf n toks e t (arr : bool) rest,
  p_unary un topf n toks
  = POk e (TOp IS :: TType t :: (if arr then [TLSquare; TRSquare] else []) ++ rest) ->
  t <> DEmpty ->
  (arr = false -> match rest with TLSquare :: _ => False | _ => True end) ->
  p_is un topf n toks = POk (EIs e t arr) rest.
Proof.
  intros un topf n toks e t arr rest H Ht Hr. unfold p_is. rewrite H.
  destruct t; try congruence; destruct arr; try reflexivity;
    (destruct rest as [|[] r']; try reflexivity; destruct (Hr eq_refl)).
Qed.

Lemma binloop_step : forall sub ops m e o b r e2 r',
  lookup o ops = Some b -> sub r = POk e2 r' ->
  binloop sub ops (S m) e (TOp o :: r) = binloop sub ops m (EBin b e e2) r'.
Proof. intros sub ops m e o b r e2 r' H1 H2. cbn [binloop]. rewrite H1, H2. reflexivity. Qed.

Section Roundtrip.
  Variable lvls : list level.
  Variable unops : list (optok * unop).
  Hypothesis Hok : table_ok lvls unops = true.

  (* These notations shadow the constants they abbreviate: a proof that unfolds one names it in
     full (ExprParser.tokens). *)
  Notation tokens := (tokens lvls unops).
  Notation pr := (pr lvls unops).
  Notation level_of := (level_of lvls).
  Notation topk := (topk lvls).
  Notation bin_pos := (bin_pos lvls).
  Notation un_tok := (un_tok unops).
  Notation ptop := (p_top lvls unops).

  Lemma table_ok_parts :
    (forall b, bin_ok lvls b = true) /\ (forall u, un_ok unops u = true) /\
    in_levels_below lvls (length lvls) SPECULATION = false.
  Proof.
    destruct (andb_prop _ _ Hok) as [H12 H3]. destruct (andb_prop _ _ H12) as [H1 H2].
    split; [|split].
    - intro b. apply (proj1 (forallb_forall _ _) H1), all_binops_complete.
    - intro u. apply (proj1 (forallb_forall _ _) H2), all_unops_complete.
    - apply negb_true_iff, H3.
  Qed.

  Lemma bin_fact : forall b,
    lookup (snd (bin_pos b)) (nth (fst (bin_pos b)) lvls []) = Some b /\
    in_levels_below lvls (fst (bin_pos b)) (snd (bin_pos b)) = false /\
    snd (bin_pos b) <> IS /\
    fst (bin_pos b) < length lvls.
  Proof.
    intro b. pose proof (proj1 table_ok_parts b) as H. unfold bin_ok in H.
    unfold ExprParser.bin_pos. destruct (find_bin b lvls 0) as [[j o]|]; [|discriminate]. simpl.
    destruct (andb_prop _ _ H) as [H12 H3]. destruct (andb_prop _ _ H12) as [H1 H2].
    apply negb_true_iff in H2, H3.
    assert (Hl : lookup o (nth j lvls []) = Some b).
    { destruct (lookup o (nth j lvls [])) as [b'|]; [|discriminate].
      apply binop_eqb_eq in H1. congruence. }
    split; [exact Hl|]. split; [exact H2|]. split.
    - intros ->. discriminate.
    - destruct (Nat.lt_ge_cases j (length lvls)) as [?|Hge]; [assumption|].
      rewrite nth_overflow in Hl by exact Hge. discriminate.
  Qed.

  Lemma un_fact : forall u, lookup (un_tok u) unops = Some u.
  Proof.
    intro u. pose proof (proj1 (proj2 table_ok_parts) u) as H. unfold un_ok in H.
    unfold ExprParser.un_tok.
    destruct (find_un u unops) as [o|]; [|discriminate].
    destruct (lookup o unops) as [u'|]; [|discriminate].
    apply unop_eqb_eq in H. congruence.
  Qed.

  (* which token may follow an expression parsed at rule k: none that a rule up to k
     (or, for k = 4 + length lvls, ps_expr) would consume.  `(` is among them because an identifier
     followed by `(` is a function call, which p_primary answers with PUnsup. *)
  Definition follow_ok (k : nat) (rest : list token) : Prop :=
    match rest with
    | (TDot | TLSquare | TLParen) :: _ => False
    | TOp o :: _ =>
        (forall j, j < k - 3 -> lookup o (nth j lvls []) = None) /\ (3 <= k -> o <> IS) /\
        (4 + length lvls <= k -> o <> SPECULATION)
    | _ => True
    end.

  Lemma follow_ok_mono : forall k k' rest, k' <= k -> follow_ok k rest -> follow_ok k' rest.
  Proof.
    intros k k' [|[] r] Hle H; try exact H. destruct H as (H1 & H2 & H3).
    split; [intros j Hj; apply H1; lia | split; intro; [apply H2 | apply H3]; lia].
  Qed.

  (* the part of follow_ok that p_primary asks for by itself *)
  Definition nolp (rest : list token) : Prop :=
    match rest with TLParen :: _ => False | _ => True end.

  Lemma follow_nolp : forall k rest, follow_ok k rest -> nolp rest.
  Proof. intros k [|[] r] H; try exact I. exact H. Qed.

  (* p_unary hands such tokens to p_postfix untouched: the condition for climbing from rule 1 to
     rule 2 *)
  Definition nonop_head (toks : list token) : bool :=
    match toks with TOp _ :: _ => false | _ => true end.

  (* the parser for rule k < topk at fuel f in context you (the lemmas ask for 1 <= k: rule 0 is
     never a position of its own, and reads as rule 1) *)
  Definition rule (f : nat) (you : bool) (k : nat) : list token -> pres :=
    match k with
    | 0 | 1 => p_postfix (ptop f you) f
    | 2 => p_unary unops (ptop f you) f
    | S (S (S j)) => ladder lvls unops (ptop f you) f j
    end.

  Lemma rule_unary : forall f you, rule f you 2 = p_unary unops (ptop f you) f.
  Proof. reflexivity. Qed.
  Lemma rule_ladder : forall f you j, rule f you (3 + j) = ladder lvls unops (ptop f you) f j.
  Proof. reflexivity. Qed.

  (* climbing: a result of a tighter rule is the result of a looser rule when the next
     token stops all the rules in between *)
  Lemma postfix_loop_stop : forall topf m e rest,
    follow_ok 1 rest -> postfix_loop topf m e rest = POk e rest.
  Proof.
    intros topf m e [|t r] H; destruct m; simpl; try reflexivity;
      destruct t; try contradiction H; reflexivity.
  Qed.

  Lemma climb_post : forall topf m toks e rest,
    p_primary topf toks = POk e rest -> follow_ok 1 rest ->
    p_postfix_m topf m toks = POk e rest.
  Proof.
    intros. unfold p_postfix_m. rewrite H. apply postfix_loop_stop; assumption.
  Qed.

  Lemma p_unary_nonop : forall topf n toks,
    nonop_head toks = true -> p_unary unops topf n toks = p_postfix topf n toks.
  Proof.
    intros topf n [|t r] H; [reflexivity|]. destruct t; try reflexivity. discriminate.
  Qed.

  Lemma climb_is : forall topf n toks e rest,
    p_unary unops topf n toks = POk e rest -> follow_ok 3 rest ->
    p_is unops topf n toks = POk e rest.
  Proof.
    intros topf n toks e rest H F. unfold p_is. rewrite H.
    destruct rest as [|t r]; [reflexivity|]. destruct t; try reflexivity.
    destruct o; try reflexivity.
    destruct F as (_ & F & _). exfalso. apply F; [lia | reflexivity].
  Qed.

  Lemma binloop_stop : forall sub j m e rest k,
    j < k - 3 -> follow_ok k rest ->
    binloop sub (nth j lvls []) m e rest = POk e rest.
  Proof.
    intros sub j m e [|t r] k Hj F; destruct m; simpl; try reflexivity;
      destruct t; try reflexivity; destruct F as (F & _ & _);
      rewrite (F j Hj); reflexivity.
  Qed.

  Lemma rule_step : forall f you k toks e rest,
    rule f you k toks = POk e rest -> 1 <= k -> (k = 1 -> nonop_head toks = true) ->
    follow_ok (S k) rest ->
    rule f you (S k) toks = POk e rest.
  Proof.
    intros f you k toks e rest H Hk Hh F. destruct k as [|[|[|j]]]; [lia|..]; simpl in *.
    - rewrite p_unary_nonop by auto. exact H.
    - apply climb_is; [exact H | exact F].
    - unfold p_binlevel_m. rewrite H. apply (binloop_stop _ j _ _ _ (4 + j)); [lia | exact F].
  Qed.

  Lemma rule_mono : forall f you k k' toks e rest,
    rule f you k toks = POk e rest -> 1 <= k -> k <= k' -> (k = 1 -> nonop_head toks = true) ->
    follow_ok k' rest ->
    rule f you k' toks = POk e rest.
  Proof.
    intros f you k k' toks e rest H Hk Hle Hh F. induction Hle as [|m Hle IH]; [exact H|].
    apply rule_step; [| lia | intros ->; apply Hh; lia | exact F].
    apply IH, (follow_ok_mono (S m)); [lia | exact F].
  Qed.

  Lemma pr_le : forall k e, level_of e <= k -> pr k e = tokens e.
  Proof.
    intros k e H. unfold ExprParser.pr, wrap.
    apply Nat.leb_le in H. rewrite H. reflexivity.
  Qed.

  Lemma pr_gt : forall k e, k < level_of e -> pr k e = TLParen :: tokens e ++ [TRParen].
  Proof.
    intros k e H. unfold ExprParser.pr, wrap.
    apply Nat.leb_gt in H. rewrite H. reflexivity.
  Qed.

  (* what a postfix expression or an atom prints starts with no operator *)
  Lemma nonop_head_tokens : forall e rest,
    level_of e <= 1 -> nonop_head (tokens e ++ rest) = true.
  Proof.
    induction e as [z|b|i|u a IHa|a IHa t arr|b l IHl r IHr|l IHl r IHr|a IHa|a IHa i IHi];
      intros rest Hl; try reflexivity; try (simpl in Hl; unfold ExprParser.topk in Hl; lia);
      cbn [ExprParser.tokens]; unfold wrap; destruct (level_of a <=? 1) eqn:E; try reflexivity;
      rewrite <- app_assoc; apply IHa, Nat.leb_le, E.
  Qed.

  (* how many postfix operators, and operators of level j, lie on the left spine of e: what the
     two loops spend of their fuel on it *)
  Fixpoint pspine (e : expr) : nat :=
    match e with
    | ELen a | EIdx a _ => S (pspine a)
    | _ => 0
    end.

  Fixpoint bspine (j : nat) (e : expr) : nat :=
    match e with
    | EBin b l _ => if fst (bin_pos b) =? j then S (bspine j l) else 0
    | _ => 0
    end.

  Lemma pspine_le : forall e, pspine e <= size e.
  Proof. induction e; simpl; lia. Qed.

  Lemma bspine_le : forall j e, bspine j e <= size e.
  Proof.
    intros j e. induction e; simpl; try lia.
    destruct (fst (bin_pos b) =? j); lia.
  Qed.

  (* The statements proved together by induction on the tree, each about the unparenthesised
     tokens of e. *)
  (* A: they parse back at every rule that admits e's level *)
  Definition A_stmt (e : expr) : Prop :=
    forall f you k rest,
      size e <= f -> wf_in you e -> level_of e <= k -> 1 <= k -> k < 4 + length lvls ->
      follow_ok k rest ->
      rule f you k (tokens e ++ rest) = POk e rest.

  (* T: ... and at ps_expr itself *)
  Definition T_stmt (e : expr) : Prop :=
    forall f you rest,
      size e <= f -> wf_in you e -> follow_ok (4 + length lvls) rest ->
      ptop (S f) you (tokens e ++ rest) = POk e rest.

  (* P': e of level at most 1 in postfix-base position leaves the postfix loop running with e
     accumulated; the loop spends one unit of its fuel per postfix operator on the spine of e *)
  Definition P'_stmt (e : expr) : Prop :=
    forall f you rest m,
      level_of e <= 1 -> size e <= f -> wf_in you e -> nolp rest ->
      p_postfix_m (ptop f you) (m + pspine e) (tokens e ++ rest)
      = postfix_loop (ptop f you) m e rest.

  (* S': e of binary level j in left-operand position of that level leaves bin_op's loop running
     with e accumulated *)
  Definition S'_stmt (e : expr) : Prop :=
    forall j f you rest m,
      level_of e = 4 + j ->
      j < length lvls -> size e <= f -> wf_in you e -> follow_ok (3 + j) rest ->
      p_binlevel_m (ladder lvls unops (ptop f you) f j) (nth j lvls []) (m + bspine j e)
        (tokens e ++ rest)
      = binloop (ladder lvls unops (ptop f you) f j) (nth j lvls []) m e rest.

  Definition All (e : expr) : Prop := A_stmt e /\ T_stmt e /\ P'_stmt e /\ S'_stmt e.

  Lemma paren_primary : forall e f you rest,
    T_stmt e -> size e < f -> wf_in you e ->
    p_primary (ptop f you) (TLParen :: (tokens e ++ [TRParen]) ++ rest) = POk e rest.
  Proof.
    intros e f you rest HT Hs Hw.
    destruct f as [|f']; [lia|].
    rewrite <- app_assoc. unfold p_primary. cbv beta iota.
    rewrite (HT f' you ([TRParen] ++ rest)); [reflexivity | lia | exact Hw | exact I].
  Qed.

  Lemma T_of_A : forall e, level_of e < 4 + length lvls -> A_stmt e -> T_stmt e.
  Proof.
    intros e Hlv HA f you rest Hs Hw F. apply p_top_plain.
    - apply (HA f you (3 + length lvls) rest); try assumption; try lia.
      apply (follow_ok_mono (4 + length lvls)); [lia | exact F].
    - intros r ->. destruct F as (_ & _ & F). apply F; [lia | reflexivity].
  Qed.

  (* B, P, S: the same for e of any level, printed for its position: when the position does not
     admit e's level the parentheses make it a primary, at one unit of fuel more, with no spine. *)

  (* B: e printed for position k parses back at rule k *)
  Definition B_stmt (e : expr) : Prop :=
    forall f you k rest,
      size e < f -> wf_in you e -> 1 <= k -> k < 4 + length lvls -> follow_ok k rest ->
      rule f you k (pr k e ++ rest) = POk e rest.

  Lemma B_of_All : forall e, All e -> B_stmt e.
  Proof.
    intros e (HA & HT & _ & _) f you k rest Hs Hw Hk1 Hk2 F.
    destruct (Nat.le_gt_cases (level_of e) k) as [Hl|Hl].
    - rewrite (pr_le _ _ Hl). apply HA; try assumption. lia.
    - rewrite (pr_gt _ _ Hl). apply (rule_mono f you 1 k); try assumption; [|lia|reflexivity].
      apply climb_post; [apply paren_primary; assumption | apply (follow_ok_mono k); [lia | exact F]].
  Qed.

  Definition P_stmt (e : expr) : Prop :=
    forall f you rest m,
      size e < f -> wf_in you e -> nolp rest ->
      p_postfix_m (ptop f you) (m + pspine e) (pr 1 e ++ rest)
      = postfix_loop (ptop f you) m e rest.

  Lemma P_of_All : forall e, All e -> P_stmt e.
  Proof.
    intros e (HA & HT & HP & _) f you rest m Hs Hw Hn.
    destruct (Nat.le_gt_cases (level_of e) 1) as [Hl|Hl].
    - rewrite (pr_le _ _ Hl). apply HP; try assumption. lia.
    - assert (Hp : pspine e = 0) by (destruct e; simpl in Hl; try lia; reflexivity).
      rewrite Hp, Nat.add_0_r, pr_gt by lia. unfold p_postfix_m.
      rewrite <- app_comm_cons, paren_primary by assumption. reflexivity.
  Qed.

  Definition S_stmt (e : expr) : Prop :=
    forall j f you rest m,
      j < length lvls -> size e < f -> wf_in you e -> follow_ok (3 + j) rest ->
      p_binlevel_m (ladder lvls unops (ptop f you) f j) (nth j lvls []) (m + bspine j e)
        (pr (4 + j) e ++ rest)
      = binloop (ladder lvls unops (ptop f you) f j) (nth j lvls []) m e rest.

  Lemma S_of_All : forall e, All e -> S_stmt e.
  Proof.
    intros e HAll j f you rest m Hj Hs Hw F.
    destruct (Nat.eq_dec (level_of e) (4 + j)) as [He|He].
    - destruct HAll as (_ & _ & _ & HS). rewrite pr_le by lia.
      apply HS; try assumption. lia.
    - (* not of level j: printed as for the operand rule 3 + j, and parsed by it *)
      assert (Hb : bspine j e = 0).
      { destruct e; try reflexivity. simpl in *.
        destruct (Nat.eqb_spec (fst (bin_pos b)) j); [lia | reflexivity]. }
      assert (Hp : pr (4 + j) e = pr (3 + j) e).
      { destruct (Nat.le_gt_cases (level_of e) (3 + j)); [rewrite !pr_le | rewrite !pr_gt]; lia || reflexivity. }
      rewrite Hb, Nat.add_0_r, Hp. unfold p_binlevel_m.
      rewrite <- rule_ladder, (B_of_All e HAll); [reflexivity | assumption | assumption | lia | lia | exact F].
  Qed.

  (* At the unary and `is` levels (2 and 3) the own-level statements P' and S' are vacuous:
     A is all there is to show. *)
  Lemma All_of_A : forall e,
    1 < level_of e -> level_of e < 4 -> A_stmt e -> All e.
  Proof.
    intros e H1 H4 HA. split; [exact HA|]. split; [|split].
    - apply T_of_A; [lia | exact HA].
    - intros f you rest m Hl. lia.
    - intros j f you rest m He. lia.
  Qed.

  (* ... and one of the loosest level is admitted by ps_expr only: T is all there is to show *)
  Lemma All_of_T : forall e, level_of e = topk -> T_stmt e -> All e.
  Proof.
    unfold ExprParser.topk. intros e Hl HT. split; [|split; [exact HT|split]].
    - intros f you k rest _ _ Hlk _ Hk. lia.
    - intros f you rest m Hl1. lia.
    - intros j f you rest m He Hj. lia.
  Qed.

  (* atoms and postfix expressions: P' is all there is to show *)

  Lemma All_postfix : forall e, level_of e <= 1 -> P'_stmt e -> All e.
  Proof.
    intros e Hl HP.
    assert (HA : A_stmt e).
    { intros f you k rest Hs Hw Hlk Hk1 Hk2 F.
      apply (rule_mono f you 1 k); [| lia | exact Hk1 | intros _; apply nonop_head_tokens, Hl | exact F].
      pose proof (HP f you rest (f - pspine e) Hl Hs Hw (follow_nolp k rest F)) as H.
      rewrite Nat.sub_add in H by (pose proof (pspine_le e); lia).
      unfold rule, p_postfix. rewrite H. apply postfix_loop_stop, (follow_ok_mono k); [lia | exact F]. }
    split; [exact HA|]. split; [|split].
    - apply T_of_A; [lia | exact HA].
    - exact HP.
    - intros j f you rest m He. lia.
  Qed.

  Lemma All_atom : forall e,
    level_of e = 0 ->
    (forall topf rest, nolp rest -> p_primary topf (tokens e ++ rest) = POk e rest) ->
    All e.
  Proof.
    intros e Hl Hp. apply All_postfix; [lia|]. intros f you rest m _ Hs Hw Hn.
    assert (Hps : pspine e = 0) by (destruct e; simpl in Hl; try lia; reflexivity).
    rewrite Hps, Nat.add_0_r. unfold p_postfix_m. rewrite Hp by exact Hn. reflexivity.
  Qed.

  Lemma All_len : forall a, All a -> All (ELen a).
  Proof.
    intros a Ha. assert (HPa := P_of_All a Ha).
    apply All_postfix; [reflexivity|].
    intros f you rest m _ Hs Hw Hn. simpl in Hs, Hw.
    cbn [ExprParser.tokens pspine]. fold (pr 1 a). rewrite <- app_assoc, <- Nat.add_succ_comm.
    rewrite (HPa f you _ (S m)); [reflexivity | lia | exact Hw | exact I].
  Qed.

  Lemma All_idx : forall a i, All a -> All i -> All (EIdx a i).
  Proof.
    intros a i Ha Hi. assert (HPa := P_of_All a Ha). destruct Hi as (_ & HTi & _ & _).
    apply All_postfix; [reflexivity|].
    intros f you rest m _ Hs Hw Hn. simpl in Hs, Hw. destruct Hw as [Hwa Hwi].
    cbn [ExprParser.tokens pspine]. fold (pr 1 a).
    rewrite <- app_assoc, <- app_comm_cons, <- app_assoc, <- Nat.add_succ_comm.
    rewrite (HPa f you _ (S m)); [| lia | exact Hwa | exact I].
    destruct f as [|f']; [lia|]. cbn [postfix_loop].
    rewrite (HTi f' you ([TRSquare] ++ rest)); [reflexivity | lia | exact Hwi | exact I].
  Qed.

  Lemma All_un : forall u a, All a -> All (EUn u a).
  Proof.
    intros u a Ha. assert (HBa := B_of_All a Ha).
    apply All_of_A; [simpl; lia | simpl; lia |].
    intros f you k rest Hs Hw Hlk Hk1 Hk2 F. simpl in Hs, Hw, Hlk.
    apply (rule_mono f you 2 k); [| lia | exact Hlk | discriminate | exact F]. unfold rule.
    cbn [ExprParser.tokens]. fold (pr 2 a). rewrite <- app_comm_cons.
    cbn [p_unary]. rewrite un_fact.
    rewrite <- rule_unary, HBa; [reflexivity | lia | exact Hw | lia | lia |].
    apply (follow_ok_mono k); [lia | exact F].
  Qed.

  Lemma All_is : forall a t arr, All a -> All (EIs a t arr).
  Proof.
    intros a t arr Ha. assert (HBa := B_of_All a Ha).
    apply All_of_A; [simpl; lia | simpl; lia |].
    intros f you k rest Hs Hw Hlk Hk1 Hk2 F. simpl in Hs, Hw, Hlk. destruct Hw as [Ht Hw].
    apply (rule_mono f you 3 k); [| lia | exact Hlk | discriminate | exact F]. unfold rule.
    cbn [ladder ExprParser.tokens]. fold (pr 2 a). rewrite <- app_assoc.
    apply p_is_step; [| exact Ht |].
    - apply (HBa f you 2); [lia | exact Hw | lia | lia |].
      split; [intros j Hj | split]; lia.
    - intros _. apply (follow_ok_mono k 1) in F; [|lia]. destruct rest as [|[] r']; auto.
  Qed.

  Lemma tokens_bin : forall b l r,
    tokens (EBin b l r)
    = pr (4 + fst (bin_pos b)) l ++ TOp (snd (bin_pos b)) :: pr (3 + fst (bin_pos b)) r.
  Proof. intros. cbn [ExprParser.tokens]. destruct (bin_pos b). reflexivity. Qed.

  (* at a binary level S' is all there is to show *)
  Lemma All_binary : forall e j, level_of e = 4 + j -> j < length lvls -> S'_stmt e -> All e.
  Proof.
    intros e j Hl Hj HS.
    assert (HA : A_stmt e).
    { intros f you k rest Hs Hw Hlk Hk1 Hk2 F.
      apply (rule_mono f you (3 + S j) k); [| lia | lia | discriminate | exact F].
      rewrite rule_ladder. cbn [ladder].
      pose proof (HS j f you rest (f - bspine j e) Hl Hj Hs Hw) as H.
      rewrite Nat.sub_add in H by (pose proof (bspine_le j e); lia).
      rewrite H; [|apply (follow_ok_mono k); [lia | exact F]].
      apply (binloop_stop _ j _ _ _ k); [lia | exact F]. }
    split; [exact HA|]. split; [|split].
    - apply T_of_A; [lia | exact HA].
    - intros f you rest m Hl1. lia.
    - exact HS.
  Qed.

  Lemma All_bin : forall b l r, All l -> All r -> All (EBin b l r).
  Proof.
    intros b l r Hl Hr. assert (HSl := S_of_All l Hl). assert (HBr := B_of_All r Hr).
    destruct (bin_fact b) as (Hlk & Hbelow & Hnis & Hjlt).
    apply (All_binary _ (fst (bin_pos b))); [reflexivity | exact Hjlt |].
    intros j f you rest m He Hj Hs Hw F.
    cbn [ExprParser.level_of] in He. assert (j = fst (bin_pos b)) as -> by lia.
    simpl in Hs. destruct Hw as [Hwl Hwr].
    cbn [bspine]. rewrite Nat.eqb_refl, tokens_bin, <- app_assoc, <- app_comm_cons, <- Nat.add_succ_comm.
    rewrite (HSl _ f you _ (S m)); [| assumption | lia | exact Hwl |].
    2: { (* the operator stops rule 3 + j: it is a key of level j and of no tighter one *)
         split; [|split; [intros _; exact Hnis | lia]].
         intros j' Hj'. apply (lookup_below lvls _ _ j' Hbelow). lia. }
    apply binloop_step; [exact Hlk|].
    apply (HBr f you (3 + _) rest); [lia | exact Hwr | lia | lia | exact F].
  Qed.

  Lemma follow_spec : forall r, follow_ok (3 + length lvls) (TOp SPECULATION :: r).
  Proof.
    intro r. split; [|split; [discriminate | lia]].
    intros j Hj. apply (lookup_below lvls (length lvls)); [apply table_ok_parts | lia].
  Qed.

  Lemma All_spec : forall l r, All l -> All r -> All (ESpec l r).
  Proof.
    intros l r Hl Hr. assert (HBl := B_of_All l Hl). assert (HBr := B_of_All r Hr).
    assert (Etk : topk - 1 = 3 + length lvls) by (unfold ExprParser.topk; lia).
    apply All_of_T; [reflexivity|].
    intros f you rest Hs Hw F. simpl in Hs. destruct Hw as (-> & Hwl & Hwr).
    cbn [ExprParser.tokens]. fold (pr (topk - 1) l). fold (pr (topk - 1) r).
    rewrite Etk. rewrite <- app_assoc. rewrite <- app_comm_cons.
    eapply p_top_spec.
    - apply (HBl f true (3 + length lvls)); [lia | apply wf_in_mono; exact Hwl | lia | lia |].
      apply follow_spec.
    - apply (HBl f false (3 + length lvls)); [lia | exact Hwl | lia | lia | apply follow_spec].
    - apply (HBr f false (3 + length lvls)); [lia | exact Hwr | lia | lia |].
      apply (follow_ok_mono (4 + length lvls)); [lia | exact F].
  Qed.

  Theorem All_all : forall e, All e.
  Proof.
    induction e.
    - apply All_atom; reflexivity.
    - apply All_atom; reflexivity.
    - apply All_atom; [reflexivity|]. intros topf [|[] r] Hn; try reflexivity. destruct Hn.
    - apply All_un; assumption.
    - apply All_is; assumption.
    - apply All_bin; assumption.
    - apply All_spec; assumption.
    - apply All_len; assumption.
    - apply All_idx; assumption.
  Qed.

  Theorem roundtrip_generic : forall e, wf_expr e ->
    parse_expr lvls unops (S (size e)) (tokens e) = Some (e, []).
  Proof.
    intros e Hw. destruct (All_all e) as (_ & HT & _).
    unfold parse_expr. rewrite <- (app_nil_r (tokens e)).
    rewrite (HT (size e) true []); [reflexivity | lia | exact Hw | exact I].
  Qed.
End Roundtrip.

(* From here on the table is the regenerated one (Gen/GenGrammar.v), which is the documented one. *)
From HidV.Gen Require Import GenGrammar.

Lemma levels_are_documented_proof : levels = Spec.documented_levels.
Proof. vm_compute. reflexivity. Qed.

Lemma unary_ops_are_documented_proof : unary_ops = Spec.documented_unary.
Proof. vm_compute. reflexivity. Qed.

Lemma shape_is_documented_proof : shape = Spec.documented_shape.
Proof. vm_compute. reflexivity. Qed.

Lemma documented_table_ok : table_ok Spec.documented_levels Spec.documented_unary = true.
Proof. vm_compute. reflexivity. Qed.

(* round trip at ps_expr, all trees, either context flag *)
Lemma p_top_min : forall e f you, size e <= f -> wf_in you e ->
  p_top levels unary_ops (S f) you (tokens_min e) = POk e [].
Proof.
  intros e f you Hs Hw. rewrite levels_are_documented_proof, unary_ops_are_documented_proof.
  unfold tokens_min. rewrite <- (app_nil_r (tokens _ _ e)).
  apply (All_all _ _ documented_table_ok e); [exact Hs | exact Hw | exact I].
Qed.

Lemma parse_print_roundtrip_fuel_proof : forall e fuel, wf_expr e -> size e < fuel ->
  parse_expr levels unary_ops fuel (tokens_min e) = Some (e, []).
Proof.
  intros e [|f] Hw Hf; [lia|]. unfold parse_expr. rewrite p_top_min; [reflexivity | lia | exact Hw].
Qed.

(* A tree in a context WITHOUT YOU (operands of `??`, function bodies): same statement for the
   context flag false, for trees without `??`. *)
Lemma parse_print_roundtrip_noyou_proof : forall e fuel, wf_in false e -> size e < fuel ->
  p_top levels unary_ops fuel false (tokens_min e) = POk e [].
Proof. intros e [|f] Hw Hf; [lia|]. apply p_top_min; [lia | exact Hw]. Qed.

(* The hypotheses are satisfiable (a tree using every constructor). *)
Definition wf_witness : expr :=
  ESpec (EBin Or (EBin Sub (EVar 1) (EBin Sub (EVar 2) (EInt 3)))
                 (EIs (EUn Neg (EIdx (EVar 3) (ELen (EVar 4)))) DByte true))
        (EUn Not (EBool true)).
Lemma wf_witness_wf : wf_expr wf_witness.
Proof. unfold wf_expr, wf_witness; simpl; intuition (try lia; try discriminate). Qed.

Definition parse_toks (toks : list token) : option (expr * list token) :=
  parse_expr levels unary_ops (S (length toks)) toks.

(* level index and token of a binary constructor in the regenerated table *)
Definition prec (b : binop) : nat := fst (bin_pos levels b).
Definition btok (b : binop) : optok := snd (bin_pos levels b).
Definition utok (u : unop) : optok := un_tok unary_ops u.

(* The length of the input is fuel enough, so a token list that is the minimal printing of a
   well-formed tree parses to that tree.  The grouping facts without redundant parentheses
   are instances. *)
Lemma parse_toks_printed : forall e toks,
  wf_expr e -> size e <= length toks -> tokens levels unary_ops e = toks ->
  parse_toks toks = Some (e, []).
Proof.
  intros e toks Hw Hs <-.
  pose proof (parse_print_roundtrip_fuel_proof e (S (length (tokens_min e))) Hw) as H.
  unfold tokens_min in H.
  rewrite <- levels_are_documented_proof, <- unary_ops_are_documented_proof in H.
  apply H. lia.
Qed.

(* of two binary operators in a row the second takes the first as its left operand unless it
   binds tighter: equal levels group to the left *)
Lemma grouping_left : forall b1 b2 x y z, prec b1 <= prec b2 ->
  parse_toks [TId x; TOp (btok b1); TId y; TOp (btok b2); TId z]
  = Some (EBin b2 (EBin b1 (EVar x) (EVar y)) (EVar z), []).
Proof.
  intros b1 b2 x y z H. apply parse_toks_printed; [unfold wf_expr; simpl; tauto | simpl; lia |].
  unfold prec, btok in *. rewrite tokens_bin, pr_le, tokens_bin by (simpl; lia). reflexivity.
Qed.

(* parentheses override: any two binary operators, either grouping can be forced.  Where the
   parentheses are redundant the input is not a minimal printing, and parse_toks_printed does not
   cover it: all 13 x 13 pairs are evaluated. *)
Lemma grouping_parens_right_proof : forall b1 b2 x y z,
  parse_toks [TId x; TOp (btok b1); TLParen; TId y; TOp (btok b2); TId z; TRParen]
  = Some (EBin b1 (EVar x) (EBin b2 (EVar y) (EVar z)), []).
Proof. intros b1 b2 x y z; destruct b1, b2; reflexivity. Qed.

Lemma grouping_parens_left_proof : forall b1 b2 x y z,
  parse_toks [TLParen; TId x; TOp (btok b1); TId y; TRParen; TOp (btok b2); TId z]
  = Some (EBin b2 (EBin b1 (EVar x) (EVar y)) (EVar z), []).
Proof. intros b1 b2 x y z; destruct b1, b2; reflexivity. Qed.

(* `is` does not chain: the second `is` is left unconsumed *)
Lemma grouping_is_no_chain_proof : forall x t1 t2, t1 <> DEmpty ->
  parse_toks [TId x; TOp IS; TType t1; TOp IS; TType t2]
  = Some (EIs (EVar x) t1 false, [TOp IS; TType t2]).
Proof. intros x t1 t2 H; destruct t1, t2; try congruence; reflexivity. Qed.

(* `??` is loosest and does not chain *)
Lemma grouping_spec_loosest_proof : forall b x y z w,
  parse_toks [TId x; TOp (btok b); TId y; TOp SPECULATION; TId z; TOp (btok b); TId w]
  = Some (ESpec (EBin b (EVar x) (EVar y)) (EBin b (EVar z) (EVar w)), []).
Proof. intros b x y z w; destruct b; reflexivity. Qed.

Lemma grouping_spec_no_chain_proof : forall x y z,
  parse_toks [TId x; TOp SPECULATION; TId y; TOp SPECULATION; TId z]
  = Some (ESpec (EVar x) (EVar y), [TOp SPECULATION; TId z]).
Proof. intros; reflexivity. Qed.

(* ... and cannot be nested even in parentheses (the operands lose the YOU context):
   this is why wf_expr excludes such trees. *)
Lemma spec_nested_is_error : forall x y z,
  p_top levels unary_ops 9 true
        [TLParen; TId x; TOp SPECULATION; TId y; TRParen; TOp SPECULATION; TId z] = PErr.
Proof. intros; reflexivity. Qed.

(* The statement of DESIGN.md, C11, kept visible in full. *)
Definition parse_print_roundtrip_full_statement : Prop :=
  forall e, wf_expr e ->
    exists fuel, parse_expr levels unary_ops fuel (tokens_min e) = Some (e, []).

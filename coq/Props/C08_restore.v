(* C08 (every scope exit releases exactly what the scope allocated; a call leaves its caller's
   frame and arrays untouched) and DESIGN §4 C01 item 4 (call protocol): machine-level property theorems
   (+ `Print Assumptions`).  Proofs and satisfiability `Example`s: Sphinx/CallProtocol.v; the last
   theorem, proved here, applies call_idiom to a jump Patterns.classify names `Call`.  Every
   statement is restated in full.  Abstract code, every w >= 2. *)
From Coq Require Import ZArith List.
From HidV Require Import Machine WordLemmas Idioms Patterns CallProtocol.
Import ListNotations.
Open Scope Z_scope.

Section P.
Variable w : Z.
Hypothesis Hw : 2 <= w.
Variable ap : Z.
Variable code : Z -> option instr.
Variable cmem : mem.
Notation W := (Machine.W w).
Notation wrap := (Machine.wrap w).
Notation sgn := (Machine.sgn w).
Notation lw := (Machine.lw w).
Notation sw := (Machine.sw w).
Notation inrange := (WordLemmas.inrange w).
Notation act := (Machine.act w code cmem).
Notation Halts := (HidV.Sphinx.Halts.Halts act).
Notation runs := (HidV.Sphinx.Halts.runs act).
Notation cstep := (HidV.Sphinx.Halts.cstep act).
Notation oval := (Idioms.oval w cmem).
Notation keeps := (CallProtocol.keeps w).
Notation alloc_step := (CallProtocol.alloc_step w ap).
Notation scope_allocs := (CallProtocol.scope_allocs w ap).
Notation stm := (CallProtocol.stm w).
Notation wdsz := (CallProtocol.wdsz w).

Theorem P_wrap_add_l x y :
  wrap (wrap x + y) = wrap (x + y).
Proof. exact (@wrap_add_l w x y). Qed.

Theorem P_fp_rebase_arith x noff off :
  wrap noff = wrap (- off) ->
  wrap (wrap (x + wrap noff) + wrap off) = wrap x.
Proof. exact (@fp_rebase_arith w x noff off). Qed.

Theorem P_frame_addresses fp0 off :
  0 <= off -> off + w <= fp0 -> fp0 < W / 2 ->
  wrap (fp0 + wrap (- off)) = fp0 - off /\
  sgn fp0 + sgn (wrap (- (off + w))) = fp0 - off - w /\
  sgn (fp0 - off) + sgn (wrap (- w)) = fp0 - off - w.
Proof. exact (@frame_addresses w Hw fp0 off). Qed.

Theorem P_getb_sw_other m a v x :
  0 <= a -> 0 <= x -> (x < a \/ a + w <= x) -> getb (sw m a v) x = getb m x.
Proof. exact (@getb_sw_other w Hw m a v x). Qed.

Theorem P_lw_agree m m' a :
  (forall x, a <= x < a + w -> getb m' x = getb m x) -> lw m' a = lw m a.
Proof. exact (@lw_agree w Hw m m' a). Qed.

Theorem P_scope_allocs_spec L :
  forall A m m', scope_allocs L A m m' -> inrange (lw m ap) ->
  lw m' ap = wrap (lw m ap + sizes_sum L) /\ keeps A m m' /\
  (forall slot s l, L = (slot, s) :: l -> lw m' slot = lw m ap).
Proof. exact (@scope_allocs_spec w Hw ap L). Qed.

Theorem P_static_pop_arith a0 S D :
  inrange a0 -> wrap D = wrap S -> wrap (wrap (a0 + S) - wrap D) = a0.
Proof. exact (@static_pop_arith w a0 S D). Qed.

Theorem P_allocs_no_wrap L A m0 mf fpv :
  scope_allocs L A m0 mf -> inrange (lw m0 ap) ->
  0 <= sizes_sum L -> lw m0 ap + sizes_sum L <= fpv -> fpv < W / 2 ->
  lw mf ap = lw m0 ap + sizes_sum L.
Proof. exact (@allocs_no_wrap w Hw ap L A m0 mf fpv). Qed.

Theorem P_fp_rebase_identity p q m fp noff off m2 :
  code p = Some (IArith Aadd (St fp) (St fp) (Imm noff)) ->
  code q = Some (IArith Aadd (St fp) (St fp) (Imm off)) ->
  wrap noff = wrap (- off) -> 0 <= fp -> inb m fp w = true -> inrange (lw m fp) ->
  let m1 := sw m fp (lw m fp + wrap noff) in
  (* whatever happens in between keeps the fp word and the size of the state section *)
  lw m2 fp = lw m1 fp -> msize m2 = msize m1 ->
  let m3 := sw m2 fp (lw m2 fp + wrap off) in
  runs (mk p m) [] (mk (p + 1) m1) /\ runs (mk q m2) [] (mk (q + 1) m3) /\
  lw m3 fp = lw m fp /\
  (forall a, 0 <= a -> (a < fp \/ fp + w <= a) -> getb m1 a = getb m a) /\
  (forall a, 0 <= a -> (a < fp \/ fp + w <= a) -> getb m3 a = getb m2 a).
Proof. exact (@fp_rebase_identity w Hw code cmem p q m fp noff off m2). Qed.

Theorem P_call_idiom p m0 fp noff off F Fv evs m2 (P : Z -> Prop) :
  code p = Some (IArith Aadd (St fp) (St fp) (Imm noff)) ->
  code (p + 1) = Some (IJ F) -> code (p + 2) = Some IHalt ->
  code (p + 3) = Some (IArith Aadd (St fp) (St fp) (Imm off)) ->
  wrap noff = wrap (- off) ->
  0 <= fp -> inb m0 fp w = true -> inrange (lw m0 fp) ->
  let fpc := wrap (lw m0 fp + wrap noff) in
  let m1 := sw m0 fp (lw m0 fp + wrap noff) in
  oval m1 F = Some Fv ->
  lw m1 (fpc - w) = p + 3 ->                                   (* the pushed return address *)
  runs (mk Fv m1) evs (mk (lw m1 (fpc - w)) m2) ->             (* callee: returns there ... *)
  msize m2 = msize m1 -> lw m2 fp = fpc ->                     (* ... with fp as at its entry *)
  (forall a, P a -> getb m2 a = getb m1 a) ->                  (* ... preserving P *)
  (forall a, P a -> 0 <= a /\ (a < fp \/ fp + w <= a)) ->
  let m3 := sw m2 fp (fpc + wrap off) in
  runs (mk p m0) evs (mk (p + 4) m3) /\
  lw m3 fp = lw m0 fp /\                                        (* fp restored *)
  (forall a, P a -> getb m3 a = getb m0 a) /\                   (* P preserved across the call *)
  (* what the callee left (its results) is readable: only the fp register differs from m2 *)
  (forall a, 0 <= a -> (a < fp \/ fp + w <= a) -> getb m3 a = getb m2 a).
Proof. exact (@call_idiom w Hw code cmem p m0 fp noff off F Fv evs m2 P). Qed.

Theorem P_call_idiom_frame p m0 fp apr noff off F Fv evs m2 ss (may_write : Z -> Prop) :
  code p = Some (IArith Aadd (St fp) (St fp) (Imm noff)) ->
  code (p + 1) = Some (IJ F) -> code (p + 2) = Some IHalt ->
  code (p + 3) = Some (IArith Aadd (St fp) (St fp) (Imm off)) ->
  wrap noff = wrap (- off) ->
  0 <= fp -> inb m0 fp w = true -> inrange (lw m0 fp) ->
  0 <= apr -> (apr + w <= fp \/ fp + w <= apr) ->
  let fpc := wrap (lw m0 fp + wrap noff) in
  let m1 := sw m0 fp (lw m0 fp + wrap noff) in
  oval m1 F = Some Fv ->
  fp + w <= ss -> ss <= fpc - w ->
  lw m1 (fpc - w) = p + 3 ->
  runs (mk Fv m1) evs (mk (lw m1 (fpc - w)) m2) ->
  msize m2 = msize m1 -> lw m2 fp = fpc -> lw m2 apr = lw m1 apr ->
  (forall a, fpc <= a -> getb m2 a = getb m1 a) ->
  (forall a, ss <= a < lw m1 apr -> ~ may_write a -> getb m2 a = getb m1 a) ->
  let m3 := sw m2 fp (fpc + wrap off) in
  runs (mk p m0) evs (mk (p + 4) m3) /\
  lw m3 fp = lw m0 fp /\ lw m3 apr = lw m0 apr /\
  (forall a, fpc <= a -> getb m3 a = getb m0 a) /\
  (forall a, ss <= a < lw m0 apr -> ~ may_write a -> getb m3 a = getb m0 a) /\
  lw m3 (fpc - w) = lw m2 (fpc - w).
Proof. exact (@call_idiom_frame w Hw code cmem p m0 fp apr noff off F Fv evs m2 ss may_write). Qed.

Theorem P_return_idiom_void q m fp r1 kra :
  code q = Some (ILoadO WWord SState (St r1) (St fp) (Imm kra)) ->
  code (q + 1) = Some (IJ (St r1)) -> code (q + 2) = Some IHalt ->
  let sra := sgn (lw m fp) + sgn (wrap kra) in
  inb m fp w = true -> inb m r1 w = true -> inb m sra w = true -> 0 <= r1 ->
  let m1 := sw m r1 (lw m sra) in
  runs (mk q m) [] (mk (wrap (lw m sra)) m1) /\
  (forall a, 0 <= a -> (a < r1 \/ r1 + w <= a) -> getb m1 a = getb m a).
Proof. exact (@return_idiom_void w Hw code cmem q m fp r1 kra). Qed.

Theorem P_alloc_origin_store p m fp k :
  code p = Some (IStoreO WWord (St fp) (Imm k) (St ap)) ->
  inb m fp w = true -> inb m ap w = true ->
  let slot := sgn (lw m fp) + sgn (wrap k) in
  inb m slot w = true -> 0 <= slot ->
  let m' := sw m slot (lw m ap) in
  runs (mk p m) [] (mk (p + 1) m') /\
  (inrange (lw m ap) -> lw m' slot = lw m ap) /\
  (forall a, 0 <= a -> (a + w <= slot \/ slot + w <= a) -> lw m' a = lw m a) /\
  (forall a, 0 <= a -> (a < slot \/ slot + w <= a) -> getb m' a = getb m a).
Proof. exact (@alloc_origin_store w Hw ap code cmem p m fp k). Qed.

Theorem P_alloc_bump p m so s :
  code p = Some (IArith Aadd (St ap) (St ap) so) -> oval m so = Some s ->
  inb m ap w = true -> 0 <= ap ->
  let m' := sw m ap (lw m ap + s) in
  runs (mk p m) [] (mk (p + 1) m') /\ lw m' ap = wrap (lw m ap + s) /\
  (forall a, 0 <= a -> (a + w <= ap \/ ap + w <= a) -> lw m' a = lw m a) /\
  (forall a, 0 <= a -> (a < ap \/ ap + w <= a) -> getb m' a = getb m a).
Proof. exact (@alloc_bump w Hw ap code cmem p m so s). Qed.

Theorem P_array_alloc_idiom p m fp k so s A :
  code p = Some (IStoreO WWord (St fp) (Imm k) (St ap)) ->
  code (p + 1) = Some (IArith Aadd (St ap) (St ap) so) ->
  inb m fp w = true -> inb m ap w = true -> 0 <= ap -> inrange (lw m ap) ->
  let slot := sgn (lw m fp) + sgn (wrap k) in
  inb m slot w = true -> 0 <= slot -> (slot + w <= ap \/ ap + w <= slot) ->
  let m1 := sw m slot (lw m ap) in
  oval m1 so = Some s ->
  (forall a, In a A -> 0 <= a /\ (a + w <= slot \/ slot + w <= a) /\ (a + w <= ap \/ ap + w <= a)) ->
  let m2 := sw m1 ap (lw m ap + s) in
  runs (mk p m) [] (mk (p + 2) m2) /\ alloc_step A slot s m m2.
Proof. exact (@array_alloc_idiom w Hw ap code cmem p m fp k so s A). Qed.

Theorem P_reset_ap_restores p m0 mf fp k slot1 s1 l A :
  scope_allocs ((slot1, s1) :: l) A m0 mf -> inrange (lw m0 ap) ->
  code p = Some (ILoadO WWord SState (St ap) (St fp) (Imm k)) ->
  slot1 = sgn (lw mf fp) + sgn (wrap k) ->
  inb mf fp w = true -> inb mf ap w = true -> inb mf slot1 w = true -> 0 <= ap ->
  let m' := sw mf ap (lw mf slot1) in
  runs (mk p mf) [] (mk (p + 1) m') /\ lw m' ap = lw m0 ap /\
  (forall a, In a A -> (a + w <= ap \/ ap + w <= a) -> 0 <= a -> lw m' a = lw m0 a) /\
  (forall a, 0 <= a -> (a < ap \/ ap + w <= a) -> getb m' a = getb mf a).
Proof. exact (@reset_ap_restores w Hw ap code cmem p m0 mf fp k slot1 s1 l A). Qed.

Theorem P_static_pop_restores p m0 mf L A D :
  scope_allocs L A m0 mf -> inrange (lw m0 ap) ->
  code p = Some (IArith Asub (St ap) (St ap) (Imm D)) -> wrap D = wrap (sizes_sum L) ->
  inb mf ap w = true -> 0 <= ap ->
  let m' := sw mf ap (lw mf ap - wrap D) in
  runs (mk p mf) [] (mk (p + 1) m') /\ lw m' ap = lw m0 ap /\
  (forall a, In a A -> (a + w <= ap \/ ap + w <= a) -> 0 <= a -> lw m' a = lw m0 a) /\
  (forall a, 0 <= a -> (a < ap \/ ap + w <= a) -> getb m' a = getb mf a).
Proof. exact (@static_pop_restores w Hw ap code cmem p m0 mf L A D). Qed.

Section Return.
Variables (q : Z) (m : mem) (fp apr r1 kra kv ko : Z) (wd : width) (vo : operand) (v : Z).
Hypothesis C0 : code q = Some (ILoadO WWord SState (St r1) (St fp) (Imm kra)).
Hypothesis C1 : code (q + 1) = Some (IStoreO wd (St fp) (Imm kv) vo).
Hypothesis C2 : code (q + 2) = Some (ILoadO WWord SState (St apr) (St fp) (Imm ko)).
Let fpv := lw m fp.
Let sra := sgn fpv + sgn (wrap kra).
Let sv := sgn fpv + sgn (wrap kv).
Let so := sgn fpv + sgn (wrap ko).
Hypothesis If : inb m fp w = true.
Hypothesis Ir : inb m r1 w = true.
Hypothesis Ia : inb m apr w = true.
Hypothesis Isra : inb m sra w = true.
Hypothesis Isv : inb m sv (wdsz wd) = true.
Hypothesis Iso : inb m so w = true.
Hypothesis N0 : 0 <= fp /\ 0 <= r1 /\ 0 <= apr /\ 0 <= sv /\ 0 <= so.
(* registers pairwise apart; the result slot and the origin slot are stack slots, apart from the
   registers and from each other *)
Hypothesis Drf : r1 + w <= fp \/ fp + w <= r1.
Hypothesis Daf : apr + w <= fp \/ fp + w <= apr.
Hypothesis Dra : r1 + w <= apr \/ apr + w <= r1.
Hypothesis Dvf : fp + w <= sv \/ sv + wdsz wd <= fp.
Hypothesis Dvr : r1 + w <= sv \/ sv + wdsz wd <= r1.
Hypothesis Dor : so + w <= r1 \/ r1 + w <= so.
Hypothesis Dov : so + w <= sv \/ sv + wdsz wd <= so.
Let m1 := sw m r1 (lw m sra).
Hypothesis Av : oval m1 vo = Some v.
Let m2 := stm wd m1 sv v.
Let m3 := sw m2 apr (lw m2 so).

Theorem P_return_prefix  :
  runs (mk q m) [] (mk (q + 3) m3) /\
  lw m3 r1 = wrap (lw m sra) /\ lw m3 fp = fpv /\ lw m3 apr = wrap (lw m so) /\
  (sv + wdsz wd <= apr \/ apr + w <= sv ->
     match wd with WWord => lw m3 sv = wrap v | WByte => Machine.lb m3 sv = v mod 256 end) /\
  (forall a, 0 <= a -> (a < r1 \/ r1 + w <= a) -> (a < apr \/ apr + w <= a) -> (a < sv \/ sv + wdsz wd <= a) ->
     getb m3 a = getb m a) /\
  inb m3 r1 w = true.
Proof. exact (@return_prefix w Hw code cmem q m fp apr r1 kra kv ko wd vo v C0 C1 C2 If Ir Ia Isra Isv Iso N0 Drf Daf Dra Dvf Dvr Dor Dov Av). Qed.

Theorem P_return_idiom  :
  code (q + 3) = Some (IJ (St r1)) -> code (q + 4) = Some IHalt ->
  let ra := wrap (lw m sra) in
  runs (mk q m) [] (mk ra m3) /\
  lw m3 fp = fpv /\ lw m3 apr = wrap (lw m so) /\
  (sv + wdsz wd <= apr \/ apr + w <= sv ->
     match wd with WWord => lw m3 sv = wrap v | WByte => Machine.lb m3 sv = v mod 256 end) /\
  (forall a, 0 <= a -> (a < r1 \/ r1 + w <= a) -> (a < apr \/ apr + w <= a) -> (a < sv \/ sv + wdsz wd <= a) ->
     getb m3 a = getb m a).
Proof. exact (@return_idiom w Hw code cmem q m fp apr r1 kra kv ko wd vo v C0 C1 C2 If Ir Ia Isra Isv Iso N0 Drf Daf Dra Dvf Dvr Dor Dov Av). Qed.

Theorem P_return_idiom_protected nlp N :
  code (q + 3) = Some (IJ nlp) -> oval m3 nlp = Some N ->
  code (q + 4) = Some (IJ (St r1)) -> code (q + 5) = Some IHalt ->
  let ra := wrap (lw m sra) in
  (~ Halts (mk ra m3) -> runs (mk q m) [] (mk ra m3)) /\          (* returning is fine: return *)
  (Halts (mk ra m3) -> runs (mk q m) [] (mk N m3)) /\             (* the caller would be defeated: stub *)
  (* stub absorbing: never halts *)
  (~ Halts (mk N m3) -> ~ Halts (mk q m)).
Proof. exact (@return_idiom_protected w Hw code cmem q m fp apr r1 kra kv ko wd vo v C0 C1 C2 If Ir Ia Isra Isv Iso N0 Drf Daf Dra Dvf Dvr Dor Dov Av nlp N). Qed.

End Return.
End P.

(* the tie: a jump Patterns.classify names `Call` has the code shape of call_idiom *)
Section ClassifiedCall.
Variable c : cfg.
Hypothesis Hw : 2 <= cw c.
Variable code : Z -> option instr.
Variable cmem : mem.
Variable pc : Z.
Notation w := (cw c).
Notation act := (Machine.act w code cmem).
Notation runs := (HidV.Sphinx.Halts.runs act).
Notation oval := (Idioms.oval w cmem).
Notation lw := (Machine.lw w).
Notation sw := (Machine.sw w).
Notation wrap := (Machine.wrap w).

Theorem P_classified_call F fp off :
  classify_code c code pc = Some (Call F fp off) ->
  forall m0 evs m2 (P : Z -> Prop),
  0 <= fp -> inb m0 fp w = true -> WordLemmas.inrange w (lw m0 fp) ->
  let fpc := wrap (lw m0 fp + wrap (- off)) in
  let m1 := sw m0 fp (lw m0 fp + wrap (- off)) in
  lw m1 (fpc - w) = pc + 2 ->
  runs (mk F m1) evs (mk (lw m1 (fpc - w)) m2) ->
  msize m2 = msize m1 -> lw m2 fp = fpc ->
  (forall a, P a -> getb m2 a = getb m1 a) ->
  (forall a, P a -> 0 <= a /\ (a < fp \/ fp + w <= a)) ->
  let m3 := sw m2 fp (fpc + wrap off) in
  runs (mk (pc - 1) m0) evs (mk (pc + 3) m3) /\
  lw m3 fp = lw m0 fp /\
  (forall a, P a -> getb m3 a = getb m0 a) /\
  (forall a, 0 <= a -> (a < fp \/ fp + w <= a) -> getb m3 a = getb m2 a).
Proof.
  intros H m0 evs m2 P Hf I R fpc m1 RA Rc Sz L2 HP PD m3.
  destruct (classify_sound _ _ _ _ H) as [C0 [C1 [C2 [C3 [WF _]]]]].
  pose proof (call_idiom w Hw code cmem (pc - 1) m0 fp (- off) off (Imm F) F evs m2 P) as S.
  replace (pc - 1 + 1) with pc in S by ring. replace (pc - 1 + 2) with (pc + 1) in S by ring.
  replace (pc - 1 + 3) with (pc + 2) in S by ring. replace (pc - 1 + 4) with (pc + 3) in S by ring.
  apply S; auto. now apply oval_label.
Qed.

End ClassifiedCall.

Print Assumptions P_wrap_add_l.
Print Assumptions P_fp_rebase_arith.
Print Assumptions P_frame_addresses.
Print Assumptions P_getb_sw_other.
Print Assumptions P_lw_agree.
Print Assumptions P_scope_allocs_spec.
Print Assumptions P_static_pop_arith.
Print Assumptions P_allocs_no_wrap.
Print Assumptions P_fp_rebase_identity.
Print Assumptions P_call_idiom.
Print Assumptions P_call_idiom_frame.
Print Assumptions P_return_idiom_void.
Print Assumptions P_alloc_origin_store.
Print Assumptions P_alloc_bump.
Print Assumptions P_array_alloc_idiom.
Print Assumptions P_reset_ap_restores.
Print Assumptions P_static_pop_restores.
Print Assumptions P_return_prefix.
Print Assumptions P_return_idiom.
Print Assumptions P_return_idiom_protected.
Print Assumptions P_classified_call.

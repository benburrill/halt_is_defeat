(* C04 (item 1 of DESIGN.md "### C04") -- every stack-overflow guard constant handed out by
   hidc/codegen/tracker.py is the LARGEST static frame size reached later in the same block.
   ONLY restatements: `Theorem name : statement. Proof. exact lemma. Qed.` + Print Assumptions.

   `gen_choices` = (add_bisect, update_bisect, pop_reversed) of Gen/GenTracker.v, which is
   regenerated from hidc/codegen/tracker.py on every run.  An operation sequence is the list of
   Tracker calls made during one compilation (Add v = checkpoints.add(v), Update v =
   checkpoints.update(v), Push / Pop = push_level() / pop_level()); the id of a checkpoint is the
   position of its Add; `snd (run gen_choices ops)` is the list of `finalize` calls (id, value).
   The theorems quantify over ALL sequences (a Pop at nesting depth 0 pops the base level, which
   is what gen_func does at the end of every function), hence over all well-bracketed ones. *)
From Coq Require Import ZArith List Sorted.
From HidV Require Import GenTracker Tracker.
Import ListNotations.

(* (a) max_vals stays sorted -- whatever bisect variants / iteration order the source uses *)
Theorem C04_max_vals_sorted : forall ch ops,
  StronglySorted Z.le (max_vals (fst (run ch ops))).
Proof. exact Tracker.max_vals_sorted. Qed.
Print Assumptions C04_max_vals_sorted.

Theorem C04_levels_never_empty : forall ch ops, levels (fst (run ch ops)) <> [].
Proof. exact Tracker.levels_never_empty. Qed.
Print Assumptions C04_levels_never_empty.

(* `self.max_vals.pop(idx)` never raises IndexError *)
Theorem C04_no_index_error : forall ops, run_ok gen_choices ops = true.
Proof. exact Tracker.no_index_error. Qed.
Print Assumptions C04_no_index_error.

(* (b) checkpoint i is finalised with x  <->  op i is `Add v`, the level it was added to is
   popped at position j, and x = max (v, the arguments of the updates strictly between i and j) *)
Theorem C04_finalized_is_future_max : forall ops i x,
  In (i, x) (snd (run gen_choices ops)) <->
  exists v j, nth_error ops i = Some (Add v) /\ matching_pop ops i = Some j /\
              x = fold_left Z.max (updates_between ops i j) v.
Proof. exact Tracker.finalized_is_future_max. Qed.
Print Assumptions C04_finalized_is_future_max.

(* what matching_pop denotes: a later Pop ... *)
Theorem C04_matching_pop_is_Pop : forall ops i j,
  matching_pop ops i = Some j -> i < j /\ nth_error ops j = Some Pop.
Proof. exact Tracker.matching_pop_is_Pop. Qed.
Print Assumptions C04_matching_pop_is_Pop.

Example C04_ex_function_run : snd (run gen_choices ex_function) = [(6, 28%Z); (2, 28%Z)].
Proof. exact Tracker.ex_function_run. Qed.

Example C04_ex_function_matching :
  matching_pop ex_function 6 = Some 12 /\ matching_pop ex_function 2 = Some 13
  /\ updates_between ex_function 6 12 = [20%Z; 28%Z; 24%Z].
Proof. exact Tracker.ex_function_matching. Qed.

Example C04_ex_siblings_run :
  snd (run gen_choices ex_siblings) = [(2, 10%Z); (6, 6%Z); (0, 10%Z)].
Proof. exact Tracker.ex_siblings_run. Qed.

Example C04_ex_stale_index_run : snd (run gen_choices ex_stale_index) = [(1, 7%Z); (0, 10%Z)].
Proof. exact Tracker.ex_stale_index_run. Qed.

(* every checkpoint is finalised at most once (DynamicValue.finalize never raises
   'Already finalized') *)
Theorem C04_finalized_once : forall ops, NoDup (map fst (snd (run gen_choices ops))).
Proof. exact Tracker.finalized_once. Qed.
Print Assumptions C04_finalized_once.

(* (c) the guard constant dominates its own value and every static size recorded by `update`
   during the rest of its block *)
Theorem C04_guard_dominates : forall ops i x v j,
  In (i, x) (snd (run gen_choices ops)) ->
  nth_error ops i = Some (Add v) -> matching_pop ops i = Some j ->
  (v <= x)%Z /\
  forall k u, i < k < j -> nth_error ops k = Some (Update u) -> (u <= x)%Z.
Proof. exact Tracker.guard_dominates. Qed.
Print Assumptions C04_guard_dominates.

Theorem C04_guard_passed_covers_block : forall ops i N v j gap,
  In (i, N) (snd (run gen_choices ops)) ->
  nth_error ops i = Some (Add v) -> matching_pop ops i = Some j ->
  (N <= gap)%Z ->
  (v <= gap)%Z /\
  forall k u, i < k < j -> nth_error ops k = Some (Update u) -> (u <= gap)%Z.
Proof. exact Tracker.guard_passed_covers_block. Qed.
Print Assumptions C04_guard_passed_covers_block.

Example C04_guard_dominates_hyps_sat :
  exists ops i x v j, In (i, x) (snd (run gen_choices ops)) /\
    nth_error ops i = Some (Add v) /\ matching_pop ops i = Some j /\
    exists k u, i < k < j /\ nth_error ops k = Some (Update u).
Proof. exact Tracker.guard_dominates_hyps_sat. Qed.

(* the same three results for ANY bisect variants, as long as pop_level walks the level in
   reversed order: swapping bisect_left / bisect_right in `add` or `update` is harmless *)
Theorem C04_finalized_is_future_max_any_bisect : forall ch, c_rev ch = true ->
  forall ops i x,
  In (i, x) (snd (run ch ops)) <->
  exists v j, nth_error ops i = Some (Add v) /\ matching_pop ops i = Some j /\
              x = fold_left Z.max (updates_between ops i j) v.
Proof. exact Tracker.finalized_is_future_max_gen. Qed.
Print Assumptions C04_finalized_is_future_max_any_bisect.

(* with reversed iteration the tracker is the reference model in which every live checkpoint
   carries its own running maximum *)
Theorem C04_run_refines_spec : forall ch ops,
  c_rev ch = true -> snd (run ch ops) = snd (arun ops).
Proof. exact Tracker.run_refines_spec. Qed.
Print Assumptions C04_run_refines_spec.

(* dropping `reversed` is NOT harmless: the property fails and pop(idx) goes out of range *)
Theorem C04_no_reverse_refuted : forall ka ku,
  ~ (forall ops i x,
      In (i, x) (snd (run (mkChoices ka ku false) ops)) <->
      exists v j, nth_error ops i = Some (Add v) /\ matching_pop ops i = Some j /\
                  x = fold_left Z.max (updates_between ops i j) v).
Proof. exact Tracker.no_reverse_refuted. Qed.
Print Assumptions C04_no_reverse_refuted.

Theorem C04_no_reverse_index_error : forall ka ku,
  run_ok (mkChoices ka ku false) [Add 0%Z; Add 1%Z; Pop] = false.
Proof. exact Tracker.no_reverse_index_error. Qed.
Print Assumptions C04_no_reverse_index_error.

(* Component `idioms`: property theorems only (+ `Print Assumptions`): each is the theorem of the
   same name in the proof files, or a special case derived here in a line or two from the general
   one (`jump_idiom`, `goto_idiom`, `guard_idiom`, `stop_handler_entry*`, `undo_commit`).
   Machine-level theorems about the instruction idioms the code generator emits, for ARBITRARY
   surrounding code (abstract `code : Z -> option instr`, constrained only at the idiom's own
   instructions), every word size w >= 2, all operand values.  Proofs: Sphinx/Idioms.v (control),
   Sphinx/TimeTravel.v (try/undo, try/stop, preempt, ??, defeat calls), Sphinx/Guards.v (run-time
   checks).  Satisfiability `Example`s for the hypotheses of each implication are next to the
   proofs in those files.  Serves C02, C03, C05, C15, C18.
   Every statement is restated here in full (same notations as the proof files), so that a
   weakening of a lemma in the proof files makes this file fail to compile. *)
From Coq Require Import ZArith List Bool.
From HidV Require Import Machine Halts GenTables GenLayout Idioms TimeTravel Guards.
Import ListNotations.
Open Scope Z_scope.

Section P.
Variable w : Z.
Hypothesis Hw : 2 <= w.
Variable code : Z -> option instr.
Variable cmem : mem.
Notation W := (Machine.W w).
Notation wrap := (Machine.wrap w).
Notation sgn := (Machine.sgn w).
Notation lw := (Machine.lw w).
Notation sw := (Machine.sw w).
Notation inrange := (WordLemmas.inrange w).
Notation act := (Machine.act w code cmem).
Notation Halts := (HidV.Sphinx.Halts.Halts act).
Notation runs := (HidV.Sphinx.Halts.runs act).
Notation cstep := (HidV.Sphinx.Halts.cstep act).
Notation csteps := (HidV.Sphinx.Halts.csteps act).
Notation oval := (Idioms.oval w cmem).
Notation bool_size_word := (Guards.bool_size_word w).

Theorem P_entry_guard_cond_monotone N g g' :
  0 <= g <= g' -> g' < W ->
  cond_holds w Cgeu (wrap g) (wrap N) = true -> cond_holds w Cgeu (wrap g') (wrap N) = true.
Proof. exact (@entry_guard_cond_monotone w N g g'). Qed.

Theorem P_vla_space_cond_monotone N' s g g' :
  0 <= N' <= g -> g <= g' -> g' < W ->
  cond_holds w Cgeu (wrap (wrap g - wrap N')) s = true ->
  cond_holds w Cgeu (wrap (wrap g' - wrap N')) s = true.
Proof. exact (@vla_space_cond_monotone w N' s g g'). Qed.

Theorem P_goto_self_not_halts p m a :
  code p = Some (IJ a) -> oval m a = Some p -> ~ Halts (mk p m).
Proof. exact (@goto_self_not_halts w code cmem p m a). Qed.

Theorem P_goto_idiom p m a t :
  code p = Some (IJ a) -> code (p + 1) = Some IHalt -> oval m a = Some t ->
  runs (mk p m) [] (mk t m).
Proof. exact (@goto_idiom w code cmem p m a t). Qed.

Theorem P_goto_label p m X :
  code p = Some (IJ (Imm X)) -> code (p + 1) = Some IHalt -> runs (mk p m) [] (mk (wrap X) m).
Proof. exact (@goto_label w code cmem p m X). Qed.

Theorem P_goto_reg p m r :
  code p = Some (IJ (St r)) -> code (p + 1) = Some IHalt -> inb m r w = true ->
  runs (mk p m) [] (mk (lw m r) m).
Proof. exact (@goto_reg w code cmem p m r). Qed.

Theorem P_goto_halts_iff p m a t :
  code p = Some (IJ a) -> code (p + 1) = Some IHalt -> oval m a = Some t ->
  (Halts (mk p m) <-> Halts (mk t m)).
Proof. intros Cj Ch A. exact (proj1 (goto_idiom w code cmem p m a t Cj Ch A)). Qed.

Theorem P_branch_idiom p m l t cc cc' a b x y :
  code p = Some (IJ l) -> code (p + 1) = Some (IHc cc a b) -> oval m l = Some t ->
  code t = Some (IHc cc' a b) ->
  (forall u v, cond_holds w cc' u v = negb (cond_holds w cc u v)) ->
  oval m a = Some x -> oval m b = Some y ->
  runs (mk p m) [] (if cond_holds w cc x y then mk (t + 1) m else mk (p + 2) m).
Proof. exact (@branch_idiom w code cmem p m l t cc cc' a b x y). Qed.

Theorem P_branch_idiom_table p m l t cc cc' a b x y :
  In (cc, cc') halt_inversion ->
  code p = Some (IJ l) -> code (p + 1) = Some (IHc cc a b) -> oval m l = Some t ->
  code t = Some (IHc cc' a b) ->
  oval m a = Some x -> oval m b = Some y ->
  runs (mk p m) [] (if cond_holds w cc x y then mk (t + 1) m else mk (p + 2) m).
Proof. exact (@branch_idiom_table w code cmem p m l t cc cc' a b x y). Qed.

Theorem P_branch_bool_idiom p m l t v x :
  code p = Some (IJ l) -> code (p + 1) = Some (IHc Cne v (Imm 0)) -> oval m l = Some t ->
  code t = Some (IHc Ceq v (Imm 0)) -> oval m v = Some x ->
  runs (mk p m) [] (if x =? 0 then mk (p + 2) m else mk (t + 1) m).
Proof. exact (@branch_bool_idiom w Hw code cmem p m l t v x). Qed.

Theorem P_branch_halts_iff p m l t cc cc' a b x y :
  In (cc, cc') halt_inversion ->
  code p = Some (IJ l) -> code (p + 1) = Some (IHc cc a b) -> oval m l = Some t ->
  code t = Some (IHc cc' a b) -> oval m a = Some x -> oval m b = Some y ->
  (Halts (mk p m) <-> Halts (if cond_holds w cc x y then mk (t + 1) m else mk (p + 2) m)).
Proof. intros Hin Cj Cc L Ct A B. exact (proj1 (branch_idiom_table w code cmem p m l t cc cc' a b x y Hin Cj Cc L Ct A B)). Qed.

Theorem P_guard_idiom p m ok err e cc a b x y :
  code p = Some (IJ ok) -> oval m ok = Some (p + 4) ->
  code (p + 1) = Some (IHc cc a b) -> oval m a = Some x -> oval m b = Some y ->
  code (p + 2) = Some (IJ err) -> code (p + 3) = Some IHalt -> oval m err = Some e ->
  (cond_holds w cc x y = true -> runs (mk p m) [] (mk (p + 4) m)) /\
  (cond_holds w cc x y = false -> ~ Halts (mk e m) -> runs (mk p m) [] (mk e m) /\ ~ Halts (mk p m)) /\
  (cond_holds w cc x y = false -> (Halts (mk p m) <-> Halts (mk e m) /\ Halts (mk (p + 4) m))).
Proof. exact (@guard_idiom w code cmem p m ok err e cc a b x y). Qed.

Theorem P_guard_never_halts_on_failure p m ok err e cc a b x y :
  code p = Some (IJ ok) -> oval m ok = Some (p + 4) ->
  code (p + 1) = Some (IHc cc a b) -> oval m a = Some x -> oval m b = Some y ->
  code (p + 2) = Some (IJ err) -> code (p + 3) = Some IHalt -> oval m err = Some e ->
  ~ Halts (mk e m) -> cond_holds w cc x y = false -> ~ Halts (mk p m).
Proof.
  intros Cj Ok Cc A B Ce Ch Er N F.
  exact (proj2 (proj1 (proj2 (guard_idiom w code cmem p m ok err e cc a b x y Cj Ok Cc A B Ce Ch Er)) F N)).
Qed.

Theorem P_entry_guard_idiom p m no so e r1 fp ap N :
  code p = Some (IJ no) -> oval m no = Some (p + 5) ->
  code (p + 1) = Some (IArith Asub (St r1) (St fp) (St ap)) ->
  code (p + 2) = Some (IHc Cgeu (St r1) (Imm N)) ->
  code (p + 3) = Some (IJ so) -> code (p + 4) = Some IHalt ->
  0 <= r1 -> inb m r1 w = true -> inb m fp w = true -> inb m ap w = true ->
  let g := wrap (lw m fp - lw m ap) in
  let m1 := sw m r1 (lw m fp - lw m ap) in
  oval m1 so = Some e ->
  (wrap N <= g -> runs (mk p m) [] (mk (p + 5) m)) /\
  (g < wrap N -> ~ Halts (mk e m1) -> runs (mk p m) [] (mk e m1) /\ ~ Halts (mk p m)) /\
  (g < wrap N -> (Halts (mk p m) <-> Halts (mk e m1) /\ Halts (mk (p + 5) m))).
Proof. exact (@entry_guard_idiom w Hw code cmem p m no so e r1 fp ap N). Qed.

Theorem P_vla_space_guard_idiom p m no so e r1 fp ap N' size s :
  code p = Some (IJ no) -> oval m no = Some (p + 6) ->
  code (p + 1) = Some (IArith Asub (St r1) (St fp) (St ap)) ->
  code (p + 2) = Some (IArith Asub (St r1) (St r1) (Imm N')) ->
  code (p + 3) = Some (IHc Cgeu (St r1) size) ->
  code (p + 4) = Some (IJ so) -> code (p + 5) = Some IHalt ->
  0 <= r1 -> inb m r1 w = true -> inb m fp w = true -> inb m ap w = true ->
  let m1 := sw m r1 (lw m fp - lw m ap) in
  let m2 := sw m1 r1 (wrap (lw m fp - lw m ap) - wrap N') in
  let g := wrap (wrap (lw m fp - lw m ap) - wrap N') in
  oval m2 size = Some s -> oval m2 so = Some e ->
  (s <= g -> runs (mk p m) [] (mk (p + 6) m)) /\
  (g < s -> ~ Halts (mk e m2) -> runs (mk p m) [] (mk e m2) /\ ~ Halts (mk p m)) /\
  (g < s -> (Halts (mk p m) <-> Halts (mk e m2) /\ Halts (mk (p + 6) m))).
Proof. exact (@vla_space_guard_idiom w Hw code cmem p m no so e r1 fp ap N' size s). Qed.

Theorem P_stack_monotone_entry p m m' no so r1 fp ap N e e' :
  code p = Some (IJ no) -> oval m no = Some (p + 5) -> oval m' no = Some (p + 5) ->
  code (p + 1) = Some (IArith Asub (St r1) (St fp) (St ap)) ->
  code (p + 2) = Some (IHc Cgeu (St r1) (Imm N)) ->
  code (p + 3) = Some (IJ so) -> code (p + 4) = Some IHalt ->
  0 <= r1 ->
  inb m r1 w = true -> inb m fp w = true -> inb m ap w = true ->
  inb m' r1 w = true -> inb m' fp w = true -> inb m' ap w = true ->
  oval (sw m r1 (lw m fp - lw m ap)) so = Some e ->
  oval (sw m' r1 (lw m' fp - lw m' ap)) so = Some e' ->
  0 <= lw m fp - lw m ap <= lw m' fp - lw m' ap -> lw m' fp - lw m' ap < W ->
  wrap N <= wrap (lw m fp - lw m ap) ->
  runs (mk p m) [] (mk (p + 5) m) /\ runs (mk p m') [] (mk (p + 5) m').
Proof. exact (@stack_monotone_entry w Hw code cmem p m m' no so r1 fp ap N e e'). Qed.

Theorem P_stack_monotone_vla p m m' no so r1 fp ap N' size s e e' :
  code p = Some (IJ no) -> oval m no = Some (p + 6) -> oval m' no = Some (p + 6) ->
  code (p + 1) = Some (IArith Asub (St r1) (St fp) (St ap)) ->
  code (p + 2) = Some (IArith Asub (St r1) (St r1) (Imm N')) ->
  code (p + 3) = Some (IHc Cgeu (St r1) size) ->
  code (p + 4) = Some (IJ so) -> code (p + 5) = Some IHalt ->
  0 <= r1 ->
  inb m r1 w = true -> inb m fp w = true -> inb m ap w = true ->
  inb m' r1 w = true -> inb m' fp w = true -> inb m' ap w = true ->
  let mm2 := fun m => sw (sw m r1 (lw m fp - lw m ap)) r1 (wrap (lw m fp - lw m ap) - wrap N') in
  oval (mm2 m) size = Some s -> oval (mm2 m') size = Some s ->   (* same requested size *)
  oval (mm2 m) so = Some e -> oval (mm2 m') so = Some e' ->
  0 <= N' <= lw m fp - lw m ap -> lw m fp - lw m ap <= lw m' fp - lw m' ap -> lw m' fp - lw m' ap < W ->
  s <= wrap (wrap (lw m fp - lw m ap) - wrap N') ->
  runs (mk p m) [] (mk (p + 6) m) /\ runs (mk p m') [] (mk (p + 6) m').
Proof. exact (@stack_monotone_vla w Hw code cmem p m m' no so r1 fp ap N' size s e e'). Qed.

Theorem P_bool_normalise p m n r :
  code p = Some (IJ n) -> oval m n = Some (p + 3) ->
  code (p + 1) = Some (IHc Cleu (St r) (Imm 1)) ->
  code (p + 2) = Some (IMov (St r) (Imm 1)) ->
  code (p + 3) = Some (IHc Cgtu (St r) (Imm 1)) ->
  0 <= r -> inb m r w = true ->
  let x := lw m r in
  let m' := if x <=? 1 then m else sw m r 1 in
  runs (mk p m) [] (mk (p + 4) m') /\
  (0 <= x -> lw m' r = if x =? 0 then 0 else 1).
Proof. exact (@bool_normalise w Hw code cmem p m n r). Qed.

Theorem P_not_by_sub p m r xo x :
  code p = Some (IArith Asub (St r) (Imm 1) xo) -> oval m xo = Some x ->
  0 <= r -> inb m r w = true -> (x = 0 \/ x = 1) ->
  let m' := sw m r (1 - x) in
  runs (mk p m) [] (mk (p + 1) m') /\ lw m' r = 1 - x.
Proof. exact (@not_by_sub w Hw code cmem p m r xo x). Qed.

Theorem P_neg_by_sub p m r xo x :
  code p = Some (IArith Asub (St r) (Imm 0) xo) -> oval m xo = Some x ->
  0 <= r -> inb m r w = true -> 0 <= x < W ->
  let m' := sw m r (0 - x) in
  runs (mk p m) [] (mk (p + 1) m') /\ lw m' r = wrap (- x) /\
  (sgn x <> - (W / 2) -> sgn (lw m' r) = - sgn x).
Proof. exact (@neg_by_sub w Hw code cmem p m r xo x). Qed.

Theorem P_jump_falls p m a t :
  code p = Some (IJ a) -> oval m a = Some t ->
  ~ Halts (mk (p + 1) m) ->
  runs (mk p m) [] (mk (p + 1) m) /\ ~ Halts (mk p m) /\ cstep (mk p m) None (mk (p + 1) m).
Proof.
  intros C A N. destruct (proj2 (jump_idiom w code cmem p m a t [] _ C A (runs_refl act _)) N) as [[R N0] Cs]. auto.
Qed.

Theorem P_jump_taken p m a t :
  code p = Some (IJ a) -> oval m a = Some t ->
  Halts (mk (p + 1) m) ->
  runs (mk p m) [] (mk t m) /\ cstep (mk p m) None (mk t m).
Proof. intros C A. exact (proj1 (jump_idiom w code cmem p m a t [] _ C A (runs_refl act _))). Qed.

Theorem P_undo_idiom p m h H :
  code p = Some (IJ h) -> oval m h = Some H ->
  let sb := mk (p + 1) m in
  let sh := mk H m in
  (~ Halts sb -> runs (mk p m) [] sb /\ ~ Halts (mk p m) /\ cstep (mk p m) None sb) /\
  (Halts sb -> runs (mk p m) [] sh /\ cstep (mk p m) None sh).
Proof. exact (@undo_idiom w code cmem p m h H). Qed.

Theorem P_undo_commit p m h H q mb evs e E :
  code p = Some (IJ h) -> oval m h = Some H ->
  runs (mk (p + 1) m) evs (mk q mb) ->
  code q = Some (IJ e) -> code (q + 1) = Some IHalt -> oval mb e = Some E ->
  ~ Halts (mk E mb) ->
  runs (mk p m) evs (mk E mb) /\ ~ Halts (mk p m) /\ csteps (mk p m) evs (mk E mb).
Proof. exact (@undo_commit w code cmem p m h H q mb evs e E). Qed.

Theorem P_preempt_idiom_static p m d D e E :
  code p = Some (IJ d) -> oval m d = Some D ->
  code (p + 1) = Some (IJ e) -> code (p + 2) = Some IHalt -> oval m e = Some E ->
  (Halts (mk E m) -> runs (mk p m) [] (mk D m) /\ cstep (mk p m) None (mk D m)) /\
  (~ Halts (mk E m) -> runs (mk p m) [] (mk E m) /\ ~ Halts (mk p m)).
Proof. exact (@preempt_idiom_static w code cmem p m d D e E). Qed.

Theorem P_preempt_idiom_virtual p m d D e E dfo hlo dv hv :
  code p = Some (IJ d) -> oval m d = Some D ->
  code (p + 1) = Some (IHc Cne dfo hlo) -> oval m dfo = Some dv -> oval m hlo = Some hv ->
  code (p + 2) = Some (IJ e) -> code (p + 3) = Some IHalt -> oval m e = Some E ->
  (dv <> hv \/ Halts (mk E m) -> runs (mk p m) [] (mk D m) /\ cstep (mk p m) None (mk D m)) /\
  (dv = hv /\ ~ Halts (mk E m) -> runs (mk p m) [] (mk E m) /\ ~ Halts (mk p m)).
Proof. exact (@preempt_idiom_virtual w code cmem p m d D e E dfo hlo dv hv). Qed.

Theorem P_speculation_idiom p m e evs q ml lop rop l r rout :
  code p = Some (IJ e) -> oval m e = Some (q + 2) ->
  runs (mk (p + 1) m) evs (mk q ml) ->
  code q = Some (IHc Ceq lop rop) -> oval ml lop = Some l -> oval ml rop = Some r ->
  code (q + 1) = Some (IMov (St rout) lop) -> inb ml rout w = true ->
  let E := q + 2 in
  let m2 := sw ml rout l in
  (* LEFT equals RIGHT: the comparison halts, the jump was taken: LEFT never happened *)
  (l = r -> runs (mk p m) [] (mk E m) /\ cstep (mk p m) None (mk E m)) /\
  (* LEFT differs and the continuation does not halt: LEFT is committed, r_out := l *)
  (l <> r -> ~ Halts (mk E m2) -> runs (mk p m) evs (mk E m2) /\ ~ Halts (mk p m)) /\
  (* LEFT differs but the continuation with LEFT's result halts: RIGHT is used although l <> r *)
  (l <> r -> Halts (mk E m2) -> runs (mk p m) [] (mk E m) /\ cstep (mk p m) None (mk E m)).
Proof. exact (@speculation_idiom w code cmem p m e evs q ml lop rop l r rout). Qed.

Theorem P_speculation_left_defeated p m e E :
  code p = Some (IJ e) -> oval m e = Some E -> Halts (mk (p + 1) m) ->
  runs (mk p m) [] (mk E m) /\ cstep (mk p m) None (mk E m).
Proof. exact (P_jump_taken p m e E). Qed.

Theorem P_speculation_value p m e evs q ml lop rop l r rout :
  code p = Some (IJ e) -> oval m e = Some (q + 2) ->
  runs (mk (p + 1) m) evs (mk q ml) ->
  code q = Some (IHc Ceq lop rop) -> oval ml lop = Some l -> oval ml rop = Some r ->
  code (q + 1) = Some (IMov (St rout) lop) -> inb ml rout w = true -> 0 <= rout ->
  lw m rout = r -> 0 <= l < W ->
  ~ Halts (mk (q + 2) (sw ml rout l)) ->
  exists mf evf, runs (mk p m) evf (mk (q + 2) mf) /\
    lw mf rout = (if l =? r then r else l) /\
    (l = r -> mf = m /\ evf = []) /\ (l <> r -> mf = sw ml rout l /\ evf = evs).
Proof. exact (@speculation_value w Hw code cmem p m e evs q ml lop rop l r rout). Qed.

Theorem P_speculation_idiom_nomov p m e evs q ml lop rop l r :
  code p = Some (IJ e) -> oval m e = Some (q + 1) ->
  runs (mk (p + 1) m) evs (mk q ml) ->
  code q = Some (IHc Ceq lop rop) -> oval ml lop = Some l -> oval ml rop = Some r ->
  let E := q + 1 in
  (l = r -> runs (mk p m) [] (mk E m)) /\
  (l <> r -> ~ Halts (mk E ml) -> runs (mk p m) evs (mk E ml) /\ ~ Halts (mk p m)) /\
  (l <> r -> Halts (mk E ml) -> runs (mk p m) [] (mk E m)).
Proof. exact (@speculation_idiom_nomov w code cmem p m e evs q ml lop rop l r). Qed.

Theorem P_defeat_call_static p m :
  code p = Some IHalt -> Halts (mk p m).
Proof. exact (@defeat_call_static w code cmem p m). Qed.

Theorem P_defeat_call_virtual p m defeat :
  code p = Some (IJ (St defeat)) -> code (p + 1) = Some IHalt -> inb m defeat w = true ->
  runs (mk p m) [] (mk (lw m defeat) m) /\ cstep (mk p m) None (mk (lw m defeat) m).
Proof. exact (@defeat_call_virtual w code cmem p m defeat). Qed.

Theorem P_defeat_call_static_cond p m cc a b x y :
  code p = Some (IHc cc a b) -> oval m a = Some x -> oval m b = Some y ->
  (cond_holds w cc x y = true -> Halts (mk p m)) /\
  (cond_holds w cc x y = false -> runs (mk p m) [] (mk (p + 1) m)).
Proof. exact (@defeat_call_static_cond w code cmem p m cc a b x y). Qed.

Theorem P_defeat_call_virtual_cond p m defeat cc a b x y :
  code p = Some (IJ (St defeat)) -> inb m defeat w = true ->
  code (p + 1) = Some (IHc cc a b) -> oval m a = Some x -> oval m b = Some y ->
  let hd := lw m defeat in
  (cond_holds w cc x y = true -> runs (mk p m) [] (mk hd m) /\ cstep (mk p m) None (mk hd m)) /\
  (cond_holds w cc x y = false -> ~ Halts (mk (p + 2) m) ->
     runs (mk p m) [] (mk (p + 2) m) /\ ~ Halts (mk p m)) /\
  (cond_holds w cc x y = false -> Halts (mk (p + 2) m) ->
     runs (mk p m) [] (mk hd m) /\ cstep (mk p m) None (mk hd m)).
Proof. exact (@defeat_call_virtual_cond w code cmem p m defeat cc a b x y). Qed.

Theorem P_stop_idiom q m defeat hdo bg hlo Hd hv :
  code q = Some (IMov (St defeat) hdo) -> oval m hdo = Some Hd ->
  code (q + 1) = Some (IJ bg) ->
  code (q + 2) = Some (IMov (St defeat) hlo) ->
  0 <= defeat -> inb m defeat w = true ->
  let m1 := sw m defeat Hd in
  oval m1 bg = Some (q + 3) -> oval m1 hlo = Some hv ->
  let m2 := sw m1 defeat hv in
  (~ Halts (mk (q + 3) m2) ->
     runs (mk q m) [] (mk (q + 3) m2) /\ ~ Halts (mk q m) /\ lw m2 defeat = wrap hv) /\
  (Halts (mk (q + 3) m2) ->
     runs (mk q m) [] (mk (q + 3) m1) /\ lw m1 defeat = wrap Hd).
Proof. exact (@stop_idiom w Hw code cmem q m defeat hdo bg hlo Hd hv). Qed.

Theorem P_stop_prologue q m fp ap tryfp k :
  code q = Some (IStoreO WWord (St fp) (Imm k) (St ap)) ->
  code (q + 1) = Some (IMov (St tryfp) (St fp)) ->
  inb m fp w = true -> inb m ap w = true -> inb m tryfp w = true ->
  let slot := sgn (lw m fp) + sgn (wrap k) in
  inb m slot w = true -> 0 <= slot -> 0 <= fp -> 0 <= tryfp ->
  (fp + w <= slot \/ slot + w <= fp) ->                 (* the slot is not the fp register *)
  (tryfp + w <= slot \/ slot + w <= tryfp) ->
  let m' := sw (sw m slot (lw m ap)) tryfp (lw m fp) in
  runs (mk q m) [] (mk (q + 2) m') /\
  lw m' tryfp = wrap (lw m fp) /\ lw m' slot = wrap (lw m ap).
Proof. exact (@stop_prologue w Hw code cmem q m fp ap tryfp k). Qed.

Theorem P_stop_handler_entry_without_reset H mh fp ap tryfp k defeat :
  code H = Some (IMov (St fp) (St tryfp)) ->
  code (H + 1) = Some (ILoadO WWord SState (St ap) (St fp) (Imm k)) ->
  inb mh fp w = true -> inb mh ap w = true -> inb mh tryfp w = true ->
  0 <= fp -> 0 <= ap -> 0 <= defeat ->
  (fp + w <= ap \/ ap + w <= fp) ->
  (defeat + w <= fp \/ fp + w <= defeat) -> (defeat + w <= ap \/ ap + w <= defeat) ->
  let m1 := sw mh fp (lw mh tryfp) in
  let slot := sgn (wrap (lw mh tryfp)) + sgn (wrap k) in
  inb mh slot w = true ->
  let m' := sw m1 ap (lw m1 slot) in
  runs (mk H mh) [] (mk (H + 2) m') /\
  lw m' fp = wrap (lw mh tryfp) /\
  lw m' ap = wrap (lw m1 slot) /\
  (0 <= slot -> (slot + w <= fp \/ fp + w <= slot) -> lw m' ap = wrap (lw mh slot)) /\
  lw m' defeat = lw mh defeat.
Proof. exact (@stop_handler_entry_without_reset w Hw code cmem H mh fp ap tryfp k defeat). Qed.

Theorem P_stop_leaves_defeat_stale_without_reset H mh fp ap tryfp k defeat HANDLER hv :
  code H = Some (IMov (St fp) (St tryfp)) ->
  code (H + 1) = Some (ILoadO WWord SState (St ap) (St fp) (Imm k)) ->
  inb mh fp w = true -> inb mh ap w = true -> inb mh tryfp w = true ->
  0 <= fp -> 0 <= ap -> 0 <= defeat ->
  (fp + w <= ap \/ ap + w <= fp) ->
  (defeat + w <= fp \/ fp + w <= defeat) -> (defeat + w <= ap \/ ap + w <= defeat) ->
  inb mh (sgn (wrap (lw mh tryfp)) + sgn (wrap k)) w = true ->
  lw mh defeat = HANDLER -> HANDLER <> hv ->
  exists m', runs (mk H mh) [] (mk (H + 2) m') /\ lw m' defeat = HANDLER /\ lw m' defeat <> hv.
Proof.
  intros C0 C1 If Ia It Hf Ha Hdf Dfa Ddf Dda Is Ld Ne.
  destruct (stop_handler_entry_without_reset w Hw code cmem H mh fp ap tryfp k defeat C0 C1 If Ia It Hf Ha Hdf Dfa Ddf Dda Is)
    as [R [_ [_ [_ Ldf]]]].
  eexists. split; [exact R|]. rewrite Ldf, Ld. split; [reflexivity | exact Ne].
Qed.

Theorem P_stale_defeat_reenters_handler_without_reset c mc defeat HANDLER :
  code c = Some (IJ (St defeat)) -> code (c + 1) = Some IHalt -> inb mc defeat w = true ->
  lw mc defeat = HANDLER -> cstep (mk c mc) None (mk HANDLER mc).
Proof. intros Cj Ch I <-. exact (proj2 (defeat_call_virtual w code cmem c mc defeat Cj Ch I)). Qed.

Theorem P_stale_defeat_forces_preempt_without_reset p m d D e E defeat hlo HANDLER hv :
  code p = Some (IJ d) -> oval m d = Some D ->
  code (p + 1) = Some (IHc Cne (St defeat) hlo) -> inb m defeat w = true -> oval m hlo = Some hv ->
  code (p + 2) = Some (IJ e) -> code (p + 3) = Some IHalt -> oval m e = Some E ->
  lw m defeat = HANDLER -> HANDLER <> hv ->
  cstep (mk p m) None (mk D m).
Proof.
  intros Cd Ad Cc I Ah Ce Ch Ae <- Ne.
  exact (proj2 (proj1 (preempt_idiom_virtual w code cmem p m d D e E _ hlo _ hv Cd Ad Cc (oval_st w cmem m defeat I) Ah Ce Ch Ae)
                  (or_introl Ne))).
Qed.

Theorem P_undo_with_fresh_defeat p m h HU evs c mc defeat hv :
  code p = Some (IJ h) -> oval m h = Some HU ->
  runs (mk (p + 1) m) evs (mk c mc) ->
  code c = Some (IJ (St defeat)) -> code (c + 1) = Some IHalt -> inb mc defeat w = true ->
  lw mc defeat = hv -> code hv = Some IHalt ->
  runs (mk p m) [] (mk HU m) /\ cstep (mk p m) None (mk HU m).
Proof. exact (@undo_with_fresh_defeat w code cmem p m h HU evs c mc defeat hv). Qed.

Theorem P_undo_with_stale_defeat_without_reset p m h HU evs c mc defeat HANDLER :
  code p = Some (IJ h) -> oval m h = Some HU ->
  runs (mk (p + 1) m) evs (mk c mc) ->
  code c = Some (IJ (St defeat)) -> code (c + 1) = Some IHalt -> inb mc defeat w = true ->
  lw mc defeat = HANDLER -> ~ Halts (mk HANDLER mc) ->
  runs (mk p m) evs (mk HANDLER mc) /\ ~ Halts (mk p m) /\ csteps (mk p m) evs (mk HANDLER mc).
Proof.
  intros Cj Ah Rb Cc Ch I <-.
  exact (undo_commit w code cmem p m h HU c mc evs _ _ Cj Ah Rb Cc Ch (oval_st w cmem mc defeat I)).
Qed.

Theorem P_stop_handler_entry H mh fp ap tryfp k defeat pdo hv :
  code H = Some (IMov (St defeat) pdo) -> oval mh pdo = Some hv ->
  code (H + 1) = Some (IMov (St fp) (St tryfp)) ->
  code (H + 2) = Some (ILoadO WWord SState (St ap) (St fp) (Imm k)) ->
  inb mh defeat w = true -> inb mh fp w = true -> inb mh ap w = true -> inb mh tryfp w = true ->
  0 <= fp -> 0 <= ap -> 0 <= defeat -> 0 <= tryfp ->
  (fp + w <= ap \/ ap + w <= fp) ->
  (defeat + w <= fp \/ fp + w <= defeat) -> (defeat + w <= ap \/ ap + w <= defeat) ->
  (defeat + w <= tryfp \/ tryfp + w <= defeat) ->
  let m0 := sw mh defeat hv in
  let m1 := sw m0 fp (lw mh tryfp) in
  let slot := sgn (wrap (lw mh tryfp)) + sgn (wrap k) in
  inb mh slot w = true ->
  let m' := sw m1 ap (lw m1 slot) in
  runs (mk H mh) [] (mk (H + 3) m') /\
  lw m' defeat = wrap hv /\
  lw m' fp = wrap (lw mh tryfp) /\
  lw m' ap = wrap (lw m1 slot) /\
  (0 <= slot -> (slot + w <= fp \/ fp + w <= slot) -> (slot + w <= defeat \/ defeat + w <= slot) ->
     lw m' ap = wrap (lw mh slot)).
Proof. exact (@stop_handler_entry w Hw code cmem H mh fp ap tryfp k defeat pdo hv). Qed.

Theorem P_stop_handler_entry_resets_defeat H mh fp ap tryfp k defeat pdo hv :
  code H = Some (IMov (St defeat) pdo) -> oval mh pdo = Some hv ->
  code (H + 1) = Some (IMov (St fp) (St tryfp)) ->
  code (H + 2) = Some (ILoadO WWord SState (St ap) (St fp) (Imm k)) ->
  inb mh defeat w = true -> inb mh fp w = true -> inb mh ap w = true -> inb mh tryfp w = true ->
  0 <= fp -> 0 <= ap -> 0 <= defeat -> 0 <= tryfp ->
  (fp + w <= ap \/ ap + w <= fp) ->
  (defeat + w <= fp \/ fp + w <= defeat) -> (defeat + w <= ap \/ ap + w <= defeat) ->
  (defeat + w <= tryfp \/ tryfp + w <= defeat) ->
  inb mh (sgn (wrap (lw mh tryfp)) + sgn (wrap k)) w = true ->
  exists m', runs (mk H mh) [] (mk (H + 3) m') /\ lw m' defeat = wrap hv /\ lw m' fp = wrap (lw mh tryfp).
Proof.
  intros C0 Ap C1 C2 Id If Ia It Hf Ha Hdf Ht Dfa Ddf Dda Ddt Is.
  destruct (stop_handler_entry w Hw code cmem H mh fp ap tryfp k defeat pdo hv C0 Ap C1 C2 Id If Ia It Hf Ha Hdf Ht Dfa Ddf Dda Ddt Is)
    as [R [Ld [Lf _]]].
  eexists. split; [exact R | split; [exact Ld | exact Lf]].
Qed.

Theorem P_stop_fired_then_undo_behaves q m0 defeat hdo bg hlo Hd hv evs1 d mb fp ap tryfp k pdo :
  (* try/stop prologue *)
  code q = Some (IMov (St defeat) hdo) -> oval m0 hdo = Some Hd ->
  code (q + 1) = Some (IJ bg) -> code (q + 2) = Some (IMov (St defeat) hlo) ->
  0 <= defeat -> inb m0 defeat w = true ->
  let m1 := sw m0 defeat Hd in
  oval m1 bg = Some (q + 3) -> oval m1 hlo = Some hv ->
  Halts (mk (q + 3) (sw m1 defeat hv)) ->
  (* the body, second attempt, up to its defeat call *)
  runs (mk (q + 3) m1) evs1 (mk d mb) ->
  code d = Some (IJ (St defeat)) -> code (d + 1) = Some IHalt -> lw mb defeat = wrap Hd ->
  (* the handler entry at H = wrap Hd *)
  let H := wrap Hd in
  code H = Some (IMov (St defeat) pdo) -> oval mb pdo = Some hv ->
  code (H + 1) = Some (IMov (St fp) (St tryfp)) ->
  code (H + 2) = Some (ILoadO WWord SState (St ap) (St fp) (Imm k)) ->
  inb mb defeat w = true -> inb mb fp w = true -> inb mb ap w = true -> inb mb tryfp w = true ->
  0 <= fp -> 0 <= ap -> 0 <= tryfp ->
  (fp + w <= ap \/ ap + w <= fp) ->
  (defeat + w <= fp \/ fp + w <= defeat) -> (defeat + w <= ap \/ ap + w <= defeat) ->
  (defeat + w <= tryfp \/ tryfp + w <= defeat) ->
  let mh1 := sw (sw mb defeat hv) fp (lw mb tryfp) in
  let slot := sgn (wrap (lw mb tryfp)) + sgn (wrap k) in
  inb mb slot w = true ->
  code (wrap hv) = Some IHalt ->
  let m' := sw mh1 ap (lw mh1 slot) in
  (* the stop block starts at H+3 with the defeat word reset ... *)
  runs (mk q m0) evs1 (mk (H + 3) m') /\ lw m' defeat = wrap hv /\
  (* ... and every later try/undo that sees this word is undone by a virtual defeat call *)
  (forall p m h HU evs c mc,
     code p = Some (IJ h) -> oval m h = Some HU ->
     runs (mk (p + 1) m) evs (mk c mc) ->
     code c = Some (IJ (St defeat)) -> code (c + 1) = Some IHalt -> inb mc defeat w = true ->
     lw mc defeat = lw m' defeat ->
     runs (mk p m) [] (mk HU m) /\ cstep (mk p m) None (mk HU m)).
Proof. exact (@stop_fired_then_undo_behaves w Hw code cmem q m0 defeat hdo bg hlo Hd hv evs1 d mb fp ap tryfp k pdo). Qed.

Theorem P_return_protection_idiom p m nlp N r :
  code p = Some (IJ nlp) -> oval m nlp = Some N ->
  code (p + 1) = Some (IJ (St r)) -> code (p + 2) = Some IHalt -> inb m r w = true ->
  let ra := lw m r in
  (Halts (mk ra m) -> runs (mk p m) [] (mk N m) /\ cstep (mk p m) None (mk N m)) /\
  (~ Halts (mk ra m) -> runs (mk p m) [] (mk ra m) /\ ~ Halts (mk p m)) /\
  (~ Halts (mk N m) -> ~ Halts (mk p m)).
Proof. exact (@return_protection_idiom w code cmem p m nlp N r). Qed.

Theorem P_max_length_bound d :
  0 <= max_length w d <= max_signed w /\ max_length w d < W / 2.
Proof. exact (@max_length_bound w Hw d). Qed.

Theorem P_post_init_gap_no_wrap stack e ap fp :
  stack_size_rejected w stack = false ->
  0 <= e <= W / 2 -> 0 <= ap <= fp -> fp <= (stack + 5) * w + e ->
  (stack + 5) * w <= max_signed w /\ 0 <= fp - ap < W.
Proof. exact (@post_init_gap_no_wrap w Hw stack e ap fp). Qed.

Theorem P_div_guard_cond x :
  inrange x ->
  cond_holds w Cne x (wrap 0) = negb (x =? 0) /\ cond_holds w Cne x (wrap 0) = negb (sgn x =? 0).
Proof. exact (@div_guard_cond w Hw x). Qed.

Theorem P_div_faults_iff op lx x :
  inrange x -> (op = Adiv \/ op = Amod) ->
  (arith w op lx x = None <-> x = 0).
Proof. exact (@div_faults_iff w Hw op lx x). Qed.

Theorem P_vla_length_cond len ML :
  inrange len -> 0 <= ML < W / 2 ->
  cond_holds w Cleu len (wrap ML) = (0 <=? sgn len) && (sgn len <=? ML).
Proof. exact (@vla_length_cond w Hw len ML). Qed.

Theorem P_vla_length_no_overflow d len :
  byte_sized d = false -> frame_size w d = w -> inrange len ->
  0 <= sgn len <= max_length w d ->
  arith w Amul len (wrap w) = Some (array_size w d (sgn len)) /\
  0 <= array_size w d (sgn len) <= max_signed w.
Proof. exact (@vla_length_no_overflow w Hw d len). Qed.

Theorem P_vla_space_cond_exact g N' s :
  0 <= N' <= g -> g < W -> 0 <= s ->
  cond_holds w Cgeu (wrap (wrap g - wrap N')) s = (s + N' <=? g).
Proof. exact (@vla_space_cond_exact w g N' s). Qed.

Theorem P_vla_space_sound g N' s :
  0 <= N' <= g -> g < W -> 0 <= s ->
  cond_holds w Cgeu (wrap (wrap g - wrap N')) s = true -> N' <= g - s.
Proof. exact (@vla_space_sound w g N' s). Qed.

Theorem P_vla_space_cond_wrapped g N' s :
  0 <= g < N' -> N' < W -> 0 <= s ->
  cond_holds w Cgeu (wrap (wrap g - wrap N')) s = (s <=? g - N' + W).
Proof. exact (@vla_space_cond_wrapped w g N' s). Qed.

Theorem P_vla_byte_space_guard_sound g N' len :
  0 <= N' <= g -> g < W / 2 -> inrange len ->
  cond_holds w Cgeu (wrap (wrap g - wrap N')) len = true -> 0 <= sgn len /\ sgn len + N' <= g.
Proof. exact (@vla_byte_space_guard_sound w Hw g N' len). Qed.

Theorem P_bool_size_matches_layout len :
  inrange len -> sgn len + 7 < W / 2 ->
  bool_size_word len = wrap (array_size w DBOOL (sgn len)).
Proof. exact (@bool_size_matches_layout w Hw len). Qed.

Theorem P_bool_size_of_small_negative k :
  1 <= k <= 7 ->
  sgn (W - k) = - k /\ bool_size_word (W - k) = 0 /\ array_size w DBOOL (- k) = 0.
Proof. exact (@bool_size_of_small_negative w Hw k). Qed.

Theorem P_vla_bool_negative_passes_space_guard k g N' :
  1 <= k <= 7 -> 0 <= N' <= g -> g < W ->
  cond_holds w Cgeu (wrap (wrap g - wrap N')) (bool_size_word (W - k)) = true.
Proof. exact (@vla_bool_negative_passes_space_guard w Hw k g N'). Qed.

Theorem P_max_length_bool :
  max_length w DBOOL = max_signed w.
Proof. exact (@max_length_bool w). Qed.

Theorem P_vla_bool_length_cond len :
  inrange len ->
  cond_holds w Cleu len (wrap (max_length w DBOOL)) = (0 <=? sgn len).
Proof. exact (@vla_bool_length_cond w Hw len). Qed.

Theorem P_bool_size_sound len :
  inrange len -> 0 <= sgn len -> sgn len + 7 < W / 2 ->
  bool_size_word len = array_size w DBOOL (sgn len) /\ 0 <= array_size w DBOOL (sgn len) < W / 2.
Proof. exact (@bool_size_sound w Hw len). Qed.

Theorem P_bool_size_near_max len :
  inrange len -> W / 2 - 7 <= sgn len ->
  bool_size_word len = W - W / 16 /\ array_size w DBOOL (sgn len) = W / 16.
Proof. exact (@bool_size_near_max w Hw len). Qed.

Theorem P_vla_bool_near_max_rejected g N' len :
  inrange len -> W / 2 - 7 <= sgn len ->
  0 <= N' <= g -> g < W / 2 ->
  cond_holds w Cgeu (wrap (wrap g - wrap N')) (bool_size_word len) = false.
Proof. exact (@vla_bool_near_max_rejected w Hw g N' len). Qed.

Theorem P_vla_bool_guards_sound g N' len :
  inrange len -> 0 <= sgn len ->
  0 <= N' <= g -> g < W / 2 ->
  cond_holds w Cgeu (wrap (wrap g - wrap N')) (bool_size_word len) = true ->
  sgn len + 7 < W / 2 /\ bool_size_word len = array_size w DBOOL (sgn len) /\
  array_size w DBOOL (sgn len) + N' <= g.
Proof. exact (@vla_bool_guards_sound w Hw g N' len). Qed.

Theorem P_vla_bool_space_guard_exact g N' len :
  inrange len -> 0 <= sgn len -> sgn len + 7 < W / 2 ->
  0 <= N' <= g -> g < W ->
  cond_holds w Cgeu (wrap (wrap g - wrap N')) (bool_size_word len) = (array_size w DBOOL (sgn len) + N' <=? g).
Proof. exact (@vla_bool_space_guard_exact w Hw g N' len). Qed.

Theorem P_div_guard_idiom p m ok err e v x op d l lx :
  code p = Some (IJ ok) -> oval m ok = Some (p + 4) ->
  code (p + 1) = Some (IHc Cne v (Imm 0)) -> oval m v = Some x -> inrange x ->
  code (p + 2) = Some (IJ err) -> code (p + 3) = Some IHalt -> oval m err = Some e ->
  code (p + 4) = Some (IArith op (St d) l v) -> (op = Adiv \/ op = Amod) -> oval m l = Some lx ->
  inb m d w = true ->
  (* passes iff divisor <> 0; then memory is unchanged and the division does not fault *)
  (x <> 0 -> runs (mk p m) [] (mk (p + 4) m) /\
             exists r, arith w op lx x = Some r /\ act (mk (p + 4) m) = ANext (mk (p + 4 + 1) (sw m d r)) None) /\
  (* divisor = 0 and the stub is absorbing: committed to the stub, nothing written, no halt;
     the unguarded instruction would have faulted *)
  (x = 0 -> ~ Halts (mk e m) ->
     runs (mk p m) [] (mk e m) /\ ~ Halts (mk p m) /\ act (mk (p + 4) m) = AFault).
Proof. exact (@div_guard_idiom w Hw code cmem p m ok err e v x op d l lx). Qed.

Theorem P_index_guard_idiom p m ok err e io lo i len :
  code p = Some (IJ ok) -> oval m ok = Some (p + 4) ->
  code (p + 1) = Some (IHc Cltu io lo) -> oval m io = Some i -> oval m lo = Some len ->
  inrange i -> 0 <= len < W / 2 ->
  code (p + 2) = Some (IJ err) -> code (p + 3) = Some IHalt -> oval m err = Some e ->
  (0 <= sgn i < len -> runs (mk p m) [] (mk (p + 4) m)) /\
  (~ (0 <= sgn i < len) -> ~ Halts (mk e m) -> runs (mk p m) [] (mk e m) /\ ~ Halts (mk p m)).
Proof. exact (@index_guard_idiom w Hw code cmem p m ok err e io lo i len). Qed.

Theorem P_vla_length_guard_idiom p m ok err e lo len d :
  code p = Some (IJ ok) -> oval m ok = Some (p + 4) ->
  code (p + 1) = Some (IHc Cleu lo (Imm (max_length w d))) -> oval m lo = Some len -> inrange len ->
  code (p + 2) = Some (IJ err) -> code (p + 3) = Some IHalt -> oval m err = Some e ->
  (0 <= sgn len <= max_length w d -> runs (mk p m) [] (mk (p + 4) m)) /\
  (~ (0 <= sgn len <= max_length w d) -> ~ Halts (mk e m) -> runs (mk p m) [] (mk e m) /\ ~ Halts (mk p m)).
Proof. exact (@vla_length_guard_idiom w Hw code cmem p m ok err e lo len d). Qed.

Theorem P_vla_bool_length_guard_rejects_negative p m ok err e lo len :
  code p = Some (IJ ok) -> oval m ok = Some (p + 4) ->
  code (p + 1) = Some (IHc Cleu lo (Imm (max_length w DBOOL))) -> oval m lo = Some len -> inrange len ->
  code (p + 2) = Some (IJ err) -> code (p + 3) = Some IHalt -> oval m err = Some e ->
  (sgn len < 0 -> ~ Halts (mk e m) -> runs (mk p m) [] (mk e m) /\ ~ Halts (mk p m)) /\
  (0 <= sgn len -> runs (mk p m) [] (mk (p + 4) m)).
Proof. exact (@vla_bool_length_guard_rejects_negative w Hw code cmem p m ok err e lo len). Qed.

Theorem P_bool_size_idiom p m r lo len :
  code p = Some (IArith Aadd (St r) lo (Imm 7)) ->
  code (p + 1) = Some (IArith Aasr (St r) (St r) (Imm 3)) ->
  oval m lo = Some len -> 0 <= r -> inb m r w = true ->
  let m' := sw (sw m r (len + 7)) r (Z.shiftr (sgn (wrap (len + 7))) 3) in
  runs (mk p m) [] (mk (p + 2) m') /\ lw m' r = bool_size_word len.
Proof. exact (@bool_size_idiom w Hw code cmem p m r lo len). Qed.

End P.

Theorem P_branch_without_inverse_unsound :
  exists (code : Z -> option instr) (m : mem) (p L : Z) (cc : cond) (a b : operand) (x y : Z),
    code p = Some (IJ (Imm L)) /\ code (p + 1) = Some (IHc cc a b) /\
    val 2 (zmem 0) (mk p m) a = Some x /\ val 2 (zmem 0) (mk p m) b = Some y /\
    cond_holds 2 cc x y = false /\
    cstep (act 2 code (zmem 0)) (mk p m) None (mk L m) /\
    ~ runs (act 2 code (zmem 0)) (mk p m) [] (mk (p + 2) m).
Proof. exact branch_without_inverse_unsound. Qed.

Theorem P_vla_guard_bool_without_length_guard_refuted :
  byte_sized DBOOL = true /\                          (* so no `hleu len,max_length` was emitted *)
  sgn 2 (lw 2 f4_mem 8) = -1 /\                       (* the requested length is -1 *)
  array_size 2 DBOOL (-1) = 0 /\
  exists m',
    runs (act 2 f4_code (zmem 0)) (mk 0 f4_mem) [] (mk 8 m') /\   (* the space guard PASSES with a full stack *)
    lw 2 m' 4 = 0 /\                                   (* size 0: `add [ap],[ap],[r0]` allocates nothing *)
    lw 2 m' 0 = lw 2 f4_mem 0 /\ lw 2 m' 2 = lw 2 f4_mem 2 /\      (* ap, fp as before *)
    lw 2 m' 8 = 65535 /\                               (* the array's length word is 65535 *)
    (* every index below 65535 passes check_index *)
    (forall i, 0 <= i < 65535 -> cond_holds 2 Cltu i (lw 2 m' 8) = true).
Proof. exact vla_guard_bool_without_length_guard_refuted. Qed.

Theorem P_vla_bool_near_max_spurious_overflow :
  stack_size_rejected 2 10000 = false /\
  cond_holds 2 Cleu 32767 (wrap 2 (max_length 2 DBOOL)) = true /\          (* the length guard passes *)
  array_size 2 DBOOL (sgn 2 32767) = 4096 /\ 4096 + 0 <= 20000 /\          (* it would fit *)
  (* ... and is rejected *)
  cond_holds 2 Cgeu (wrap 2 (wrap 2 20000 - wrap 2 0)) (bool_size_word 2 32767) = false.
Proof. exact vla_bool_near_max_spurious_overflow. Qed.

Print Assumptions P_entry_guard_cond_monotone.
Print Assumptions P_vla_space_cond_monotone.
Print Assumptions P_goto_self_not_halts.
Print Assumptions P_goto_idiom.
Print Assumptions P_goto_label.
Print Assumptions P_goto_reg.
Print Assumptions P_goto_halts_iff.
Print Assumptions P_branch_idiom.
Print Assumptions P_branch_idiom_table.
Print Assumptions P_branch_bool_idiom.
Print Assumptions P_branch_halts_iff.
Print Assumptions P_guard_idiom.
Print Assumptions P_guard_never_halts_on_failure.
Print Assumptions P_entry_guard_idiom.
Print Assumptions P_vla_space_guard_idiom.
Print Assumptions P_stack_monotone_entry.
Print Assumptions P_stack_monotone_vla.
Print Assumptions P_bool_normalise.
Print Assumptions P_not_by_sub.
Print Assumptions P_neg_by_sub.
Print Assumptions P_jump_falls.
Print Assumptions P_jump_taken.
Print Assumptions P_undo_idiom.
Print Assumptions P_undo_commit.
Print Assumptions P_preempt_idiom_static.
Print Assumptions P_preempt_idiom_virtual.
Print Assumptions P_speculation_idiom.
Print Assumptions P_speculation_left_defeated.
Print Assumptions P_speculation_value.
Print Assumptions P_speculation_idiom_nomov.
Print Assumptions P_defeat_call_static.
Print Assumptions P_defeat_call_virtual.
Print Assumptions P_defeat_call_static_cond.
Print Assumptions P_defeat_call_virtual_cond.
Print Assumptions P_stop_idiom.
Print Assumptions P_stop_prologue.
Print Assumptions P_stop_handler_entry_without_reset.
Print Assumptions P_stop_leaves_defeat_stale_without_reset.
Print Assumptions P_stale_defeat_reenters_handler_without_reset.
Print Assumptions P_stale_defeat_forces_preempt_without_reset.
Print Assumptions P_undo_with_fresh_defeat.
Print Assumptions P_undo_with_stale_defeat_without_reset.
Print Assumptions P_stop_handler_entry.
Print Assumptions P_stop_handler_entry_resets_defeat.
Print Assumptions P_stop_fired_then_undo_behaves.
Print Assumptions P_return_protection_idiom.
Print Assumptions P_max_length_bound.
Print Assumptions P_post_init_gap_no_wrap.
Print Assumptions P_div_guard_cond.
Print Assumptions P_div_faults_iff.
Print Assumptions P_vla_length_cond.
Print Assumptions P_vla_length_no_overflow.
Print Assumptions P_vla_space_cond_exact.
Print Assumptions P_vla_space_sound.
Print Assumptions P_vla_space_cond_wrapped.
Print Assumptions P_vla_byte_space_guard_sound.
Print Assumptions P_bool_size_matches_layout.
Print Assumptions P_bool_size_of_small_negative.
Print Assumptions P_vla_bool_negative_passes_space_guard.
Print Assumptions P_max_length_bool.
Print Assumptions P_vla_bool_length_cond.
Print Assumptions P_bool_size_sound.
Print Assumptions P_bool_size_near_max.
Print Assumptions P_vla_bool_near_max_rejected.
Print Assumptions P_vla_bool_guards_sound.
Print Assumptions P_vla_bool_space_guard_exact.
Print Assumptions P_div_guard_idiom.
Print Assumptions P_index_guard_idiom.
Print Assumptions P_vla_length_guard_idiom.
Print Assumptions P_vla_bool_length_guard_rejects_negative.
Print Assumptions P_bool_size_idiom.
Print Assumptions P_branch_without_inverse_unsound.
Print Assumptions P_vla_guard_bool_without_length_guard_refuted.
Print Assumptions P_vla_bool_near_max_spurious_overflow.

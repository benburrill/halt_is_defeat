(* Component `lowerstmt` (DESIGN `C01_partial`): a compiler-correctness theorem for the statement
   fragment F_stmt.  Whole programs (functions, calls, recursion, the entry image): Props/C01_program.v.

   Model:  Codegen/LowerStmtModel.v `lower_stmts` / `lower_body` = hidc's gen_stmts / gen_block on
           F_stmt: int and bool locals (declaration, assignment, compound assignment), divisions
           `x = a / b`, `x %= b` with the checked build's division guard, write(byte) / writeln(),
           write / writeln of an int or a bool through the runtime library (write_int, write_bool:
           the call protocol of eval_func_call), calls of the program's functions, return, if / else,
           while / for with break and continue, nested blocks with their own locals; expressions
           from the `lowerbool` fragment (int operands include globals and the byte reads
           `(x is byte) is int`, `(q is byte) is int`: OByte).  Tied TEXTUALLY to the compiler by tools/corr_lowerstmt.py
           (whole programs: state section, every function, labels and entry-guard constants).
   Source semantics (Codegen/LowerStmtSem.v, independent of the lowering): stores, ieval /
           bevals (wrap-around, signed comparison, short-circuit), the big-step relation
           exec / execs / callf with outcomes Normal / Break / Continue / Return v / Fault f and
           output bytes; d is the stack budget of the current frame (used by calls only);
           `istmts` / `icall` is a fuelled interpreter, sound for the relation.
   Reading the statements:
     wf_senv w fb S      the compile-time frame layout: every local's slot lies in [[fp]-top, [fp]-fb),
                         distinct locals are disjoint (fb = w: the frame base is the return address)
     tight w S           the frame holds exactly the return address and the locals in scope
     rep w R lo gl ng nbg S s m    memory m holds store s in that frame: registers in bounds, the frame inside
                         the state section, each int local's word read signed = its value, each bool
                         local's byte = its value (0 / 1); [ap] = lo (the stack area starts at lo)
     need_stmts S ss     the largest frame offset the lowered code reaches (STACK ROOM; it is also
                         the constant of hidc's entry stack guard, checked by the correspondence)
     frame_post out m m' what may have changed (fagree): r0, r1, r2, the stack area [lo, [fp]-w) and
                         the globals' area at and above gl (on Return, gagree: also the
                         return-address slot, which receives the result; nothing is claimed on Fault)
     post .. out m m'    Normal: m' represents the final store in the final environment; Break /
                         Continue: the enclosing block's locals are represented; Return (Some v):
                         the word at [fp]-w read signed is v
     gl, ng, nbg         the ng int globals (words) and nbg bool globals (bytes holding 0 / 1) live at or
                         above gl (stack_end), above every frame, pairwise apart; rep includes the
                         global part of the store
     lib_hyps w R code   what a library call or a division guard needs: hidc's register layout and
                         the regenerated library loaded at a_lib R; the call case combines
                         Sphinx/CallProtocol.call_idiom with StdlibInt.write_int_spec /
                         StdlibBool.write_bool_spec, so the events are `decimal v` resp. "true" /
                         "false"; a zero divisor ends in the stub division_by_zero
     no_calls            these statements are for code without calls of the program's functions
                         (for those the callee's code must be there: Props/C01_program.v)
   All statements: every program of the fragment, every w >= 2, arbitrary surrounding code,
   arbitrary base address; terminating source runs (big-step); `runs` transports Halts both ways,
   so a non-halting continuation gives a non-halting start state (C01_stmts_no_new_halt). *)
From Coq Require Import ZArith List Bool Lia.
From HidV Require Import Machine VM Driver Idioms StdlibBase LowerBoolModel LowerBoolProofs LowerStmtModel LowerStmtSem LowerStmtProofs.
Import ListNotations.
Open Scope Z_scope.

Section P.
Variable w : Z.
Hypothesis Hw : 2 <= w.
Variable code : Z -> option instr.
Variable cmem : mem.
Variable R : regmap.
Variable lo : Z.
Variable ext : label -> Z.
Hypothesis ext_range : forall x, 0 <= ext x < Machine.W w.
Variable funs : list fundef.
Variable gl : Z.          (* the int globals lie at or above gl *)
Variable ng : nat.        (* their number *)
Variable nbg : nat.       (* the number of bool globals (bytes at or above gl) *)
Hypothesis Hgl : lo <= gl.
Notation act := (Machine.act w code cmem).
Notation Halts := (HidV.Sphinx.Halts.Halts act).
Notation runs := (HidV.Sphinx.Halts.runs act).
Notation FP := (LowerBoolProofs.FP w R).
Notation scoped := (ssscoped w ng nbg (lib_hyps w R code) no_calls).

Theorem C01_stmts_lowering_correct ss d s0 evs s1 S st B m :
  execs w funs d ss s0 evs ONormal s1 ->
  let r := lower_stmts S None ss st in
  let C := fst (fst (fst r)) in
  let S' := snd (fst (fst r)) in
  code_at code B (resolve R ext B C) -> 0 <= B -> B + size C < Machine.W w ->
  wf_senv w w S -> tight w S -> rep w R lo gl ng nbg S s0 m -> d = FP m - lo ->
  scoped (length (ioffs S)) (length (boffs S)) false ss ->
  need_stmts S ss <= FP m - lo ->
  exists m', runs (mk B m) (map EOut evs) (mk (B + size C) m') /\
             rep w R lo gl ng nbg S' s1 m' /\ wf_senv w w S' /\ fagree w R lo w gl m m'.
Proof. exact (@stmts_lowering_correct w Hw code cmem R lo ext ext_range funs gl ng nbg Hgl ss d s0 evs s1 S st B m). Qed.

(* every outcome: break / continue leave to the loop's labels with the outer locals represented,
   return leaves to the return address with the result in the return-address slot, a zero divisor
   leaves to the stub division_by_zero *)
Theorem C01_stmts_lowering_correct_gen ss d s0 evs out s1 S li st B m :
  execs w funs d ss s0 evs out s1 ->
  let r := lower_stmts S li ss st in
  let C := fst (fst (fst r)) in
  let S' := snd (fst (fst r)) in
  code_at code B (resolve R ext B C) -> 0 <= B -> B + size C < Machine.W w ->
  match li with Some (lc, lb) => below st lc /\ below st lb | None => True end ->
  wf_senv w w S -> tight w S -> rep w R lo gl ng nbg S s0 m -> d = FP m - lo ->
  scoped (length (ioffs S)) (length (boffs S)) (match li with Some _ => true | None => false end) ss ->
  need_stmts S ss <= FP m - lo ->
  exists m' pc',
    match out, li with
    | ONormal, _ => pc' = B + size C
    | OBreak, Some (_, lb) => pc' = ext lb
    | OContinue, Some (lc, _) => pc' = ext lc
    | OReturn _, _ => pc' = Machine.lw w m (FP m - w)
    | OFault ft, _ => pc' = a_lib R + fault_off ft
    | _, None => False
    end /\
    runs (mk B m) (map EOut evs) (mk pc' m') /\ frame_post w R lo w gl out m m' /\ post w R lo w gl ng nbg S S' s0 s1 out m m'.
Proof. exact (@stmts_lowering_correct_gen w Hw code cmem R lo ext ext_range funs gl ng nbg Hgl ss d s0 evs out s1 S li st B m). Qed.

(* a fault: the run is committed to its stub.  Without calls of the program's functions (no_calls)
   the only fault is the zero divisor of a checked build *)
Theorem C01_stmts_fault_correct ss d s0 evs ft s1 S st B m :
  execs w funs d ss s0 evs (OFault ft) s1 ->
  let C := fst (fst (fst (lower_stmts S None ss st))) in
  code_at code B (resolve R ext B C) -> 0 <= B -> B + size C < Machine.W w ->
  wf_senv w w S -> tight w S -> rep w R lo gl ng nbg S s0 m -> d = FP m - lo ->
  scoped (length (ioffs S)) (length (boffs S)) false ss ->
  need_stmts S ss <= FP m - lo ->
  exists m', runs (mk B m) (map EOut evs) (mk (a_lib R + fault_off ft) m').
Proof. exact (@stmts_fault_correct w Hw code cmem R lo ext ext_range funs gl ng nbg Hgl ss d s0 evs ft s1 S st B m). Qed.

Theorem C01_body_lowering_correct ss d s0 evs s1 S st B m :
  execs w funs d ss s0 evs ONormal s1 ->
  let C := fst (lower_body S ss st) in
  code_at code B (resolve R ext B C) -> 0 <= B -> B + size C < Machine.W w ->
  wf_senv w w S -> tight w S -> rep w R lo gl ng nbg S s0 m -> d = FP m - lo ->
  scoped (length (ioffs S)) (length (boffs S)) false ss ->
  need_stmts S ss <= FP m - lo ->
  let ra := Machine.lw w m (FP m - w) in
  exists m', runs (mk B m) (map EOut evs) (mk ra m') /\ gagree w R lo gl (FP m) m m'.
Proof. exact (@body_lowering_correct w Hw code cmem R lo ext ext_range funs gl ng nbg Hgl ss d s0 evs s1 S st B m). Qed.

Theorem C01_stmts_no_new_halt ss d s0 evs s1 S st B m :
  execs w funs d ss s0 evs ONormal s1 ->
  let C := fst (fst (fst (lower_stmts S None ss st))) in
  code_at code B (resolve R ext B C) -> 0 <= B -> B + size C < Machine.W w ->
  wf_senv w w S -> tight w S -> rep w R lo gl ng nbg S s0 m -> d = FP m - lo ->
  scoped (length (ioffs S)) (length (boffs S)) false ss ->
  need_stmts S ss <= FP m - lo ->
  (forall m', ~ Halts (mk (B + size C) m')) -> ~ Halts (mk B m).
Proof. exact (@stmts_no_new_halt w Hw code cmem R lo ext ext_range funs gl ng nbg Hgl ss d s0 evs s1 S st B m). Qed.
End P.

(* the interpreter is sound for the relation *)
Theorem C01_interp_sound w funs fuel :
  (forall d s s0 e out s1, istmt w funs fuel d s s0 = Some (e, out, s1) -> exec w funs d s s0 e out s1) /\
  (forall d ss s0 e out s1, istmts w funs fuel d ss s0 = Some (e, out, s1) -> execs w funs d ss s0 e out s1) /\
  (forall d g vs G e res, icall w funs fuel d g vs G = Some (e, res) -> callf w funs d g vs G e res).
Proof. exact (@interp_sound w funs fuel). Qed.

(* the labels a lowered statement list defines are fresh and defined once *)
Theorem C01_lower_stmts_labels_fresh ss S li st C S' st' ex :
  lower_stmts S li ss st = (C, S', st', ex) ->
  st_le st st' /\ Forall (between st st') (deflabels C) /\ NoDup (deflabels C).
Proof. exact (lower_stmts_defs_eq ss S li st C S' st' ex). Qed.

(* satisfiability: a concrete program (declarations, a loop left by break, if / else, a nested block
   with its own local, output), its source run, the theorem applied to it, and the resolved model
   output run end to end on the verified VM *)
Example C01_source_run_sat : exists s1, execs 2 [] 20 sx_ss sx_s0 sx_out ONormal s1.
Proof. exact sx_exec. Qed.
Example C01_body_lowering_sat :
  exists m', HidV.Sphinx.Halts.runs (Machine.act 2 (code_of sx_prog) (zmem 0)) (mk 0 sx_mem) (map EOut sx_out) (mk sx_ra m').
Proof. exact body_lowering_ex. Qed.
Example C01_body_vm_run_sat :
  match run_program 2 sx_bytes [] sx_prog [] mon_none 2000 with
  | OAbsorbed evs s _ => evs = map EOut sx_out /\ pc s = sx_ra
  | _ => False
  end.
Proof. exact body_vm_run_ex. Qed.

(* a program that prints numbers: `int x = a * 100; writeln(x - 7); write(x > b);` with the library
   in the code: source run, the theorem, and the VM run ("493\n", "true", then the win flag) *)
Example C01_lib_source_run_sat : exists s1, execs 2 [] 50 lx_ss sx_s0 lx_out ONormal s1.
Proof. exact lx_exec. Qed.
Example C01_lib_hyps_sat : lib_hyps 2 lx_regs (code_of lx_prog).
Proof. exact lx_lib_hyps. Qed.
Example C01_lib_body_lowering_sat :
  exists m', HidV.Sphinx.Halts.runs (Machine.act 2 (code_of lx_prog) (zmem 0)) (mk 0 lx_mem) (map EOut lx_out) (mk lx_lib m').
Proof. exact lib_body_lowering_ex. Qed.
Example C01_lib_body_vm_run_sat :
  match run_program 2 lx_bytes [] lx_prog [] mon_none 5000 with
  | OAbsorbed evs s _ => firstn 9 evs = map EOut lx_out ++ [EFlag 0]
  | _ => False
  end.
Proof. exact lib_body_vm_run_ex. Qed.

Print Assumptions C01_stmts_lowering_correct.
Print Assumptions C01_stmts_lowering_correct_gen.
Print Assumptions C01_stmts_fault_correct.
Print Assumptions C01_body_lowering_correct.
Print Assumptions C01_stmts_no_new_halt.
Print Assumptions C01_interp_sound.
Print Assumptions C01_lower_stmts_labels_fresh.
Print Assumptions C01_source_run_sat.
Print Assumptions C01_body_lowering_sat.
Print Assumptions C01_body_vm_run_sat.
Print Assumptions C01_lib_source_run_sat.
Print Assumptions C01_lib_hyps_sat.
Print Assumptions C01_lib_body_lowering_sat.
Print Assumptions C01_lib_body_vm_run_sat.

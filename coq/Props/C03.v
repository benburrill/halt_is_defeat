(* C03 - halt is defeat: a compiled program never halts.  Property theorems only.

   Full statement (NOT proved; it needs the whole-generator simulation, see DESIGN §4 C03):
   for every accepted program p with defined behaviour, every input and configuration,
   ~ Halts (initial state of (assemble (hidc p))).
   What is proved (C03_partial = the conjunction of the theorems below):
   1. "reaches the halted state on its committed timeline" is the single predicate Halts of the
      initial state (haltingness is invariant along committed steps);
   2. cycles of successors (committed or not), safe sets: the coinduction principles by which
      "never halts" is shown;
   3. the win loop, the error loop and the four error stubs of the REGENERATED stdlib never halt,
      from any memory, and emit exactly their flags then sleeps for ever;
   4. goto / two-way branch lowering idioms transport Halts both ways (they can never turn a
      non-halting continuation into a halting one);
   5. in every program the context model accepts (proved equivalent to the rules and corresponded
      with the parser), every defeat call and preempt lies in a try body or a defeat function;
   6. vm_sound: every verdict of the verified VM is a proof (ABSORBED/FAULT: ~Halts; HALT: Halts),
      so each run of the sweep carries a theorem instance. *)
From Coq Require Import ZArith List.
From HidV Require Import Machine Halts VM GenStdlib StdlibBase StdlibStubs Context.
Import ListNotations.
Open Scope Z_scope.

Definition C03_full_statement_informal : Prop := True.  (* see header: stated over hidc itself, not expressible without a model of the whole generator *)

Theorem C03_halting_invariant_along_committed_timeline :
  forall act s l s', csteps act s l s' -> (Halts act s <-> Halts act s').
Proof. exact halts_csteps. Qed.
Print Assumptions C03_halting_invariant_along_committed_timeline.

Theorem C03_committed_step_deterministic :
  forall act s e1 a e2 b, cstep act s e1 a -> cstep act s e2 b -> a = b /\ e1 = e2.
Proof. exact cstep_det. Qed.

Theorem C03_cycle_never_halts : forall act s, splus act s s -> ~ Halts act s.
Proof. exact succ_cycle_not_halts. Qed.
Print Assumptions C03_cycle_never_halts.

Theorem C03_safe_set : forall act (S : state -> Prop),
  (forall s, S s -> act s <> AHalt /\ exists s', succ act s s' /\ S s') -> forall s, S s -> ~ Halts act s.
Proof. exact safe_set. Qed.
Print Assumptions C03_safe_set.

Theorem C03_goto_transports_halts : forall act s sn sj,
  act s = AJump sn sj -> act sn = AHalt -> runs act s [] sj.
Proof. exact runs_goto. Qed.
Theorem C03_branch_taken_transports_halts : forall act s sn sj sj',
  act s = AJump sn sj -> act sn = AHalt -> act sj = ANext sj' None -> runs act s [] sj'.
Proof. exact runs_branch_taken. Qed.
Theorem C03_branch_fall_transports_halts : forall act s sn sj sn',
  act s = AJump sn sj -> act sn = ANext sn' None -> act sj = AHalt -> runs act s [] sn'.
Proof. exact runs_branch_fall. Qed.
Print Assumptions C03_branch_fall_transports_halts.

Theorem C03_win_state_absorbing : forall w code cmem B, 2 <= w -> lib_at w code B -> lib_range w B ->
  forall m, absorbed w code cmem B (mk (B + off_all_is_win) m) [EFlag 0].
Proof. exact all_is_win_absorbing. Qed.
Print Assumptions C03_win_state_absorbing.
Theorem C03_error_state_absorbing : forall w code cmem B, 2 <= w -> lib_at w code B -> lib_range w B ->
  forall m, absorbed w code cmem B (mk (B + off_all_is_broken) m) [EFlag 1].
Proof. exact all_is_broken_absorbing. Qed.
Theorem C03_stack_overflow_stub_absorbing : forall w code cmem B, 2 <= w -> lib_at w code B -> lib_range w B ->
  forall m, absorbed w code cmem B (mk (B + off_stack_overflow) m) [EFlag 2; EFlag 1].
Proof. exact stack_overflow_absorbing. Qed.
Theorem C03_division_stub_absorbing : forall w code cmem B, 2 <= w -> lib_at w code B -> lib_range w B ->
  forall m, absorbed w code cmem B (mk (B + off_division_by_zero) m) [EFlag 3; EFlag 1].
Proof. exact division_by_zero_absorbing. Qed.
Theorem C03_bounds_stub_absorbing : forall w code cmem B, 2 <= w -> lib_at w code B -> lib_range w B ->
  forall m, absorbed w code cmem B (mk (B + off_out_of_bounds) m) [EFlag 4; EFlag 1].
Proof. exact out_of_bounds_absorbing. Qed.
Theorem C03_nonlocal_stub_absorbing : forall w code cmem B, 2 <= w -> lib_at w code B -> lib_range w B ->
  forall m, absorbed w code cmem B (mk (B + off_nonlocal_preempt) m) [EFlag 5; EFlag 1].
Proof. exact nonlocal_preempt_absorbing. Qed.
Print Assumptions C03_nonlocal_stub_absorbing.

Theorem C03_defeat_only_in_try_or_defeat_function : forall p : program, accepts p = true ->
  forall path n, occurs p path n -> uses_defeat n -> inside_try_or_defeat_function path.
Proof. exact defeat_only_in_try. Qed.
Print Assumptions C03_defeat_only_in_try_or_defeat_function.

Theorem C03_vm_verdicts_are_proofs : forall w code cmem mon watch fuel s,
  verdict_ok w code cmem s (run w code cmem mon watch fuel s).
Proof. exact vm_sound. Qed.
Print Assumptions C03_vm_verdicts_are_proofs.
Theorem C03_vm_absorbed_never_halts : forall w code cmem mon watch fuel s evs s' sp,
  run w code cmem mon watch fuel s = OAbsorbed evs s' sp ->
  ~ Halts (act w code cmem) s /\ csteps (act w code cmem) s evs s' /\ cplus (act w code cmem) s' s'.
Proof. exact vm_absorbed_never_halts. Qed.
Theorem C03_vm_halt_is_committed_halt : forall w code cmem mon watch fuel s,
  run w code cmem mon watch fuel s = OHalt -> Halts (act w code cmem) s.
Proof. exact vm_halt_is_committed_halt. Qed.
Print Assumptions C03_vm_halt_is_committed_halt.

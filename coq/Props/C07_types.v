(* C07 -- the typechecker accepts exactly the well-typed programs.
   The theorems are proved in HiD/Types.v and restated here by `exact`, each with its
   `Print Assumptions`; the Examples (closed instances showing that the hypotheses of the
   implications are satisfiable) and the literal rules are evaluated in place. *)
From Coq Require Import ZArith String List Bool.
From HidV.Gen Require Import GenTypes.
From HidV.HiD Require Import Types.
Local Open Scope string_scope.

(** the proved part: (1) coercion lattice, (2) overload rule, (3) soundness of the rejections on
    the checked tree, (4) arithmetic shrinkability *)
Theorem C07_partial : C07_partial_stmt.
Proof. exact Types.C07_partial. Qed.
Print Assumptions C07_partial.

Theorem C07_overload_spec : overload_spec_stmt.
Proof. exact Types.overload_spec. Qed.
Print Assumptions C07_overload_spec.
Example C07_overload_examples :
  resolve ex_decls (mkId "f" FL_NONE) (cons (rep_plain (TData BYTE)) nil)
    = OK (mkSig (mkId "f" FL_NONE) (cons (TData BYTE) nil) BYTE) /\
  resolve ex_decls (mkId "f" FL_NONE) (cons (TArrLit (cons (TByte 97%Z true true) nil) (TArr BYTE true) false) nil)
    = OK (mkSig (mkId "f" FL_NONE) (cons (TArr INT true) nil) BOOL) /\
  resolve ex_decls (mkId "f" FL_NONE) (cons (rep_plain (TData STRING)) nil)
    = Err (ENoMatchingFunction (mkId "f" FL_NONE) (cons (TData STRING) nil)).
Proof. repeat split; vm_compute; reflexivity. Qed.

Theorem C07_resolve_exact_first : forall decls f args s,
  List.In s decls -> exact_sig f (List.map ty_of args) s = true ->
  exists s', resolve decls f args = OK s' /\ f_id s' = f /\ f_params s' = List.map ty_of args.
Proof. exact Types.resolve_exact_first. Qed.
Print Assumptions C07_resolve_exact_first.

Theorem C07_no_assign_to_const : forall u p tp,
  elab_program u p = OK tp -> funcs_all assign_ok tp = true.
Proof. exact Types.no_assign_to_const. Qed.
Print Assumptions C07_no_assign_to_const.
Example C07_accepts_something : exists tp, elab_program false ex_program = OK tp.
Proof. eexists. vm_compute. reflexivity. Qed.

Theorem C07_returns_match : forall u p tp,
  elab_program u p = OK tp -> funcs_all return_ok tp = true.
Proof. exact Types.returns_match. Qed.
Print Assumptions C07_returns_match.

Theorem C07_no_nested_arrays : forall u p tp,
  elab_program u p = OK tp ->
  funcs_all stmt_exprs_wf tp = true /\
  List.forallb (stmt_all (stmt_exprs_wf None)) (tp_vars tp) = true.
Proof. exact Types.no_nested_arrays. Qed.
Print Assumptions C07_no_nested_arrays.

Theorem C07_no_implicit_narrowing : forall e,
  ty_of e = TData INT -> coercible e (TData BYTE) = true -> shrinkable_node e = true.
Proof. exact Types.no_implicit_narrowing. Qed.
Print Assumptions C07_no_implicit_narrowing.
Example C07_narrowing_hyps :
  ty_of (TInt 5%Z true false) = TData INT /\ coercible (TInt 5%Z true false) (TData BYTE) = true /\
  ty_of (rep_plain (TData INT)) = TData INT /\ coercible (rep_plain (TData INT)) (TData BYTE) = false.
Proof. repeat split; vm_compute; reflexivity. Qed.

Theorem C07_const_array_not_to_mutable : forall e el,
  denotes_const_array e = true -> coercible e (TArr el false) = false.
Proof. exact Types.const_array_not_to_mutable. Qed.
Print Assumptions C07_const_array_not_to_mutable.
Example C07_const_array_hyps :
  denotes_const_array (rep_plain (TArr INT true)) = true /\
  denotes_const_array (TVolatile (rep_plain (TArr INT false))) = false /\
  coercible (TVolatile (rep_plain (TArr INT false))) (TArr INT false) = true.
Proof. repeat split; vm_compute; reflexivity. Qed.

Theorem C07_coercible_cast_ok : forall e new,
  wf e = true -> coercible e new = true -> is_ok (cast e new) = true.
Proof. exact Types.coercible_cast_ok. Qed.
Print Assumptions C07_coercible_cast_ok.

Theorem C07_arith_shrinkable : forall en c l r te,
  op_family c = FamBinArith -> elab_expr en (EBin c l r) = OK te ->
  exists l' r', elab_expr en l = OK l' /\ elab_expr en r = OK r' /\
    coercible te (TData BYTE) = (coercible l' (TData BYTE) && coercible r' (TData BYTE))%bool.
Proof. exact Types.arith_shrinkable. Qed.
Print Assumptions C07_arith_shrinkable.

(** the former defects F7 and F6 are fixed in the repository: the positive statements hold *)
Theorem C07_no_assign_to_string_element : forall u p tp,
  elab_program u p = OK tp -> funcs_all not_string_target tp = true.
Proof. exact Types.no_assign_to_string_element. Qed.
Print Assumptions C07_no_assign_to_string_element.

Theorem C07_no_empty_typed_arrays : forall u p tp,
  elab_program u p = OK tp ->
  funcs_all stmt_exprs_no_empty tp = true /\
  List.forallb (stmt_all (stmt_exprs_no_empty None)) (tp_vars tp) = true.
Proof. exact Types.no_empty_typed_arrays. Qed.
Print Assumptions C07_no_empty_typed_arrays.
Example C07_former_defect_witnesses_rejected :
  elab_program false f7_witness = Err EAssignConst /\
  elab_program false f6_witness = Err EArrayEmptyElement.
Proof. split; vm_compute; reflexivity. Qed.

(** refutation: the faithful model of the code still violates the full statement; the witness
    is `byte x = true is int;` (an explicit-cast result implicitly narrowed) *)
Example C07_narrowing_witness_facts :
  (exists tp, elab_program false narrowing_witness = OK tp) /\ wt_program narrowing_witness = false.
Proof. exact Types.narrowing_witness_facts. Qed.

Theorem C07_full_statement_refuted : ~ C07_full_statement.
Proof. exact Types.C07_full_statement_refuted. Qed.
Print Assumptions C07_full_statement_refuted.

Theorem C07_literal_rules : forall en n,
  (exists te, elab_expr en (EInt n) = OK te /\ ty_of te = TData INT /\ coercible te (TData BYTE) = true) /\
  (exists te, elab_expr en (EChar n) = OK te /\ ty_of te = TData BYTE /\ coercible te (TData INT) = true) /\
  (forall d s c, coercible (at_subst (TInt d s c)) (TData BYTE) = false).
Proof. intros en n. split; [|split]; [eexists; repeat split.. | reflexivity]. Qed.
Print Assumptions C07_literal_rules.

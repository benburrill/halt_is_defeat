(* C01 - compiled code computes what the source says (sequential core): property theorems only.

   Full statement (NOT proved): for all w in {2,3,4,8}, well-typed programs p without time travel,
   inputs and sufficient stacks: the initial state of assemble(hidc p) never halts and its
   committed events are exactly Sem(p)'s followed by the win flag.  That needs a model of the
   whole code generator; DESIGN §4 C01 says which part is proved and which is searched.
   C01_partial = the theorems below:
   1. the machine-level meaning of a run: `runs` composes, every ordinary instruction and every
      `j X; halt` / two-way-branch idiom is a `runs` step (so on the sequential core each emitted
      jump behaves as an ordinary (un)conditional jump whenever the continuation does not halt);
   2. the regenerated operator tables are correct for all operand values and all word sizes
      (arith_map, compare_map, halt_inversion = negation): shared with C09;
   3. the library routines the sequential core calls (write family) meet their specification on
      the regenerated text: the theorems of Props/C17_stdlib.v, not restated here;
   4. vm_sound: the VM verdict of every run in the differential sweep is a proof about the
      committed timeline (what is compared with the reference semantics is the *committed*
      trace, by theorem, not an artefact of the interpreter). *)
From Coq Require Import ZArith List.
From HidV Require Import Machine Halts VM GenTables OpTables.
Import ListNotations.
Open Scope Z_scope.

Theorem C01_runs_compose : forall act s l s' l' s'', runs act s l s' -> runs act s' l' s'' -> runs act s (l ++ l') s''.
Proof. exact runs_trans. Qed.
Theorem C01_instruction_is_a_run : forall act s s' e, act s = ANext s' e -> runs act s (evl e) s'.
Proof. exact runs_next. Qed.
Theorem C01_goto : forall act s sn sj, act s = AJump sn sj -> act sn = AHalt -> runs act s [] sj.
Proof. exact runs_goto. Qed.
Theorem C01_branch_taken : forall act s sn sj sj',
  act s = AJump sn sj -> act sn = AHalt -> act sj = ANext sj' None -> runs act s [] sj'.
Proof. exact runs_branch_taken. Qed.
Theorem C01_branch_not_taken : forall act s sn sj sn',
  act s = AJump sn sj -> act sn = ANext sn' None -> act sj = AHalt -> runs act s [] sn'.
Proof. exact runs_branch_fall. Qed.
Print Assumptions C01_branch_not_taken.
Theorem C01_run_to_nonhalting_is_committed : forall act s l s', runs act s l s' -> ~ Halts act s' -> ~ Halts act s /\ csteps act s l s'.
Proof. exact runs_not_halts. Qed.
Print Assumptions C01_run_to_nonhalting_is_committed.

Theorem C01_arith_map_correct : forall w, 1 <= w -> Forall (arith_entry_ok w) arith_map.
Proof. exact arith_map_correct. Qed.
Theorem C01_compare_map_correct : forall w, 1 <= w -> Forall (cmp_entry_ok w) compare_map.
Proof. exact compare_map_correct. Qed.
Theorem C01_halt_inversion_is_negation : forall w, Forall (inv_entry_ok w) halt_inversion.
Proof. exact halt_inversion_is_negation. Qed.
Print Assumptions C01_halt_inversion_is_negation.

Theorem C01_vm_trace_is_committed : forall w code cmem mon watch fuel s evs s' sp,
  run w code cmem mon watch fuel s = OAbsorbed evs s' sp ->
  ~ Halts (act w code cmem) s /\ csteps (act w code cmem) s evs s' /\ cplus (act w code cmem) s' s'.
Proof. exact vm_absorbed_never_halts. Qed.
Print Assumptions C01_vm_trace_is_committed.

(* Component `lowerbool`, DESIGN §4 C09 item 6 and the `truth_is_defeat` lowering.

   Model:  Codegen/LowerBoolModel.v `lower_defeat` = hidc's `truth_is_defeat` (static defeat: bare
           conditional halts / `halt`; virtual defeat: `j [defeat]` before every test), `eval_bool_value`
           = get_expr_value of a boolean expression; textual tie: tools/corr_lowerbool.py.
   bool_norm: hidc's invariant that a bool local holds 0 or 1 (`not x` is lowered as `sub r, 1, x`).
   The virtual form is stated (a) for one test with all three cases of TimeTravel.defeat_call_virtual_cond
   and no further assumption -- case 3: the test FAILS but the continuation halts, and control goes to the
   handler all the same --, (b) for whole expressions (or-chains of tests) under the C03 invariant
   that neither the handler nor the continuation halts. *)
From Coq Require Import ZArith List Bool Lia.
From HidV Require Import Machine Idioms LowerBoolModel LowerBoolProofs.
Import ListNotations.
Open Scope Z_scope.

Section P.
Variable w : Z.
Hypothesis Hw : 2 <= w.
Variable code : Z -> option instr.
Variable cmem : mem.
Variable R : regmap.
Variable E : env.
Hypothesis HwE : wsize E = w.
Variable lo : Z.
Variable ext : label -> Z.
Hypothesis ext_range : forall x, 0 <= ext x < Machine.W w.
Notation act := (Machine.act w code cmem).
Notation Halts := (HidV.Sphinx.Halts.Halts act).
Notation runs := (HidV.Sphinx.Halts.runs act).

Theorem C09_truth_is_defeat_correct e st B m :
  let C := fst (lower_defeat E false e st) in
  code_at code B (resolve R ext B C) ->
  0 <= B -> B + size C < Machine.W w ->
  layout_ok w R E lo m -> vars_ok w R E lo m e -> bool_norm w R E m e ->
  (beval w R E m e = true -> Halts (mk B m)) /\
  (beval w R E m e = false ->
     exists m', runs (mk B m) [] (mk (B + size C) m') /\ agree w R lo (HI w R E m) m m').
Proof. exact (@truth_is_defeat_correct w Hw code cmem R E HwE lo ext ext_range e st B m). Qed.

Theorem C09_truth_is_defeat_virtual_test e st B m : is_test e ->
  let C := fst (lower_defeat E true e st) in
  let hd := Machine.lw w m (a_defeat R) in
  code_at code B (resolve R ext B C) ->
  0 <= B -> B + size C < Machine.W w ->
  layout_ok w R E lo m -> vars_ok w R E lo m e -> bool_norm w R E m e -> defeat_ok w R E lo m ->
  exists m1, agree w R lo (HI w R E m) m m1 /\ exists q, runs (mk B m) [] (mk q m1) /\ q + 2 = B + size C /\
    (beval w R E m e = true -> runs (mk q m1) [] (mk hd m1)) /\
    (beval w R E m e = false -> ~ Halts (mk (q + 2) m1) -> runs (mk q m1) [] (mk (q + 2) m1) /\ ~ Halts (mk q m1)) /\
    (beval w R E m e = false -> Halts (mk (q + 2) m1) -> runs (mk q m1) [] (mk hd m1)).
Proof. exact (@truth_is_defeat_virtual_test w Hw code cmem R E HwE lo ext ext_range e st B m). Qed.

Theorem C09_truth_is_defeat_virtual_correct e st B m :
  let C := fst (lower_defeat E true e st) in
  let hd := Machine.lw w m (a_defeat R) in
  code_at code B (resolve R ext B C) ->
  0 <= B -> B + size C < Machine.W w ->
  layout_ok w R E lo m -> vars_ok w R E lo m e -> bool_norm w R E m e -> defeat_ok w R E lo m ->
  (forall m', agree w R lo (HI w R E m) m m' -> ~ Halts (mk hd m')) ->
  (beval w R E m e = true -> exists m', agree w R lo (HI w R E m) m m' /\ runs (mk B m) [] (mk hd m')) /\
  (beval w R E m e = false -> (forall m', agree w R lo (HI w R E m) m m' -> ~ Halts (mk (B + size C) m')) ->
     exists m', agree w R lo (HI w R E m) m m' /\ runs (mk B m) [] (mk (B + size C) m')).
Proof. exact (@truth_is_defeat_virtual_correct w Hw code cmem R E HwE lo ext ext_range e st B m). Qed.

Theorem C09_three_lowerings_agree e m (b := beval w R E m e) :
  layout_ok w R E lo m -> vars_ok w R E lo m e -> bool_norm w R E m e ->
  (forall rout st B, let C := fst (value_lowering E e rout st) in
     code_at code B (resolve R ext B C) -> 0 <= B -> B + size C < Machine.W w -> rout = R0 \/ rout = R1 ->
     exists m', runs (mk B m) [] (mk (B + size C) m') /\ Machine.lw w m' (regaddr R rout) = (if b then 1 else 0)) /\
  (forall T F st B, let C := fst (lower_branch E e (goto T) (goto F) st) in
     code_at code B (resolve R ext B C) -> 0 <= B -> B + size C < Machine.W w -> below st T -> below st F ->
     exists m', runs (mk B m) [] (mk (if b then ext T else ext F) m')) /\
  (forall st B, let C := fst (lower_defeat E false e st) in
     code_at code B (resolve R ext B C) -> 0 <= B -> B + size C < Machine.W w ->
     if b then Halts (mk B m) else exists m', runs (mk B m) [] (mk (B + size C) m')).
Proof. exact (@three_lowerings_agree w Hw code cmem R E HwE lo ext ext_range e m). Qed.
End P.

Theorem C09_lower_defeat_labels_fresh E virt e st c st' : lower_defeat E virt e st = (c, st') ->
  st_le st st' /\ Forall (between st st') (deflabels c) /\ NoDup (deflabels c).
Proof. exact (@lower_defeat_defs E virt e st c st'). Qed.

Example C09_truth_is_defeat_sat : HidV.Sphinx.Halts.Halts (Machine.act 2 (code_of ex_def_prog) (zmem 0)) (mk 0 ex_mem).
Proof. exact truth_is_defeat_ex. Qed.
Example C09_truth_is_defeat_virtual_sat :
  exists m', HidV.Sphinx.Halts.runs (Machine.act 2 (code_of ex_vprog) (zmem 0)) (mk 0 ex_vmem) [] (mk ex_hd m').
Proof. exact truth_is_defeat_virtual_ex. Qed.

Print Assumptions C09_truth_is_defeat_correct.
Print Assumptions C09_truth_is_defeat_virtual_test.
Print Assumptions C09_truth_is_defeat_virtual_correct.
Print Assumptions C09_three_lowerings_agree.
Print Assumptions C09_lower_defeat_labels_fresh.
Print Assumptions C09_truth_is_defeat_sat.
Print Assumptions C09_truth_is_defeat_virtual_sat.

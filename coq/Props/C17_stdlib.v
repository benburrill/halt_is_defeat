(* C17 - the write family of the runtime library: property theorems only.
   Every theorem is about the REGENERATED `GenStdlib.stdlib_code w B` loaded at any code address B
   (`lib_at`, `lib_range`), for every word size w >= 2.  `runs s evs s'` (Halts.v): s halts iff s'
   does, and if s' does not halt the committed timeline goes from s to s' emitting exactly evs.
   `agree w m' m`: same size, equal outside r0..r2.  `frame_ok w m F args`: calling convention. *)
From Coq Require Import ZArith List.
From HidV Require Import Machine MemLemmas GenStdlib StepTactics StdlibBase StdlibStubs StdlibBool StdlibBytes DecimalSpec StdlibInt StdlibExamples.
Import ListNotations.
Open Scope Z_scope.

Theorem C17_write_bool : forall w code cmem B, 2 <= w -> lib_at w code B -> lib_range w B ->
  forall m F, frame_ok w m F 1 ->
  let b := Machine.lb m (F - w - 1) in
  let ra := Machine.lw w m (F - w) in
  exists m', Halts.runs (Machine.act w code cmem) (mk (B + off_write_bool) m)
                  (map EOut (if b =? 0 then str_false else str_true)) (mk ra m')
             /\ agree w m' m /\ wf_mem m'.
Proof. exact write_bool_spec. Qed.
Print Assumptions C17_write_bool.
Example C17_write_bool_sat : lib_at 2 (lib_code 2) 0 /\ lib_range 2 0 /\ frame_ok 2 ex_bool 40 1.
Proof. exact (conj (lib_code_at 2) (conj lib_range_2 ex_bool_ok)). Qed.

Theorem C17_write_state_byte_array : forall w code cmem B, 2 <= w -> lib_at w code B -> lib_range w B ->
  forall m F, frame_ok w m F (2 * w) ->
  let p := Machine.lw w m (F - 3 * w) in
  let len := Machine.sgn w (Machine.lw w m (F - 2 * w)) in
  let ra := Machine.lw w m (F - w) in
  (0 < len -> p + len <= msize m /\ p + len <= Machine.W w /\ (p + len <= 2 * w \/ 5 * w <= p)) ->
  exists m', Halts.runs (Machine.act w code cmem) (mk (B + off_write_state_byte_array) m)
                  (map EOut (bytes_from m p (Z.to_nat len))) (mk ra m')
             /\ agree w m' m /\ wf_mem m'.
Proof. exact write_state_byte_array_spec. Qed.
Print Assumptions C17_write_state_byte_array.
Example C17_write_state_byte_array_sat : frame_ok 2 ex_arr 40 (2 * 2) /\
  let p := Machine.lw 2 ex_arr (40 - 3 * 2) in let len := Machine.sgn 2 (Machine.lw 2 ex_arr (40 - 2 * 2)) in
  0 < len /\ p + len <= msize ex_arr /\ p + len <= Machine.W 2 /\ (p + len <= 2 * 2 \/ 5 * 2 <= p).
Proof. exact ex_state_arr_ok. Qed.

Theorem C17_write_const_byte_array : forall w code cmem B, 2 <= w -> lib_at w code B -> lib_range w B ->
  forall m F, frame_ok w m F (2 * w) -> wf_mem cmem ->
  let p := Machine.lw w m (F - 3 * w) in
  let len := Machine.sgn w (Machine.lw w m (F - 2 * w)) in
  let ra := Machine.lw w m (F - w) in
  (0 < len -> p + len <= msize cmem /\ p + len <= Machine.W w) ->
  exists m', Halts.runs (Machine.act w code cmem) (mk (B + off_write_const_byte_array) m)
                  (map EOut (bytes_from cmem p (Z.to_nat len))) (mk ra m')
             /\ agree w m' m /\ wf_mem m'.
Proof. exact write_const_byte_array_spec. Qed.
Print Assumptions C17_write_const_byte_array.
Example C17_write_const_byte_array_sat : frame_ok 2 ex_arr_c 40 (2 * 2) /\ wf_mem (zmem 16) /\
  let p := Machine.lw 2 ex_arr_c (40 - 3 * 2) in let len := Machine.sgn 2 (Machine.lw 2 ex_arr_c (40 - 2 * 2)) in
  0 < len /\ p + len <= msize (zmem 16) /\ p + len <= Machine.W 2.
Proof. exact ex_const_arr_ok. Qed.

Theorem C17_write_string : forall w code cmem B, 2 <= w -> lib_at w code B -> lib_range w B ->
  forall m F, frame_ok w m F w -> wf_mem cmem ->
  let sp := Machine.lw w m (F - 2 * w) in
  let len := Machine.sgn w (Machine.lw w cmem sp) in
  let ra := Machine.lw w m (F - w) in
  sp + w <= msize cmem ->
  (0 < len -> sp + w + len <= msize cmem /\ sp + w + len <= Machine.W w) ->
  exists m', Halts.runs (Machine.act w code cmem) (mk (B + off_write_string) m)
                  (map EOut (bytes_from cmem (sp + w) (Z.to_nat len))) (mk ra m')
             /\ agree w m' m /\ wf_mem m'.
Proof. exact write_string_spec. Qed.
Print Assumptions C17_write_string.
Example C17_write_string_sat : exists m',
  Halts.runs (Machine.act 2 (lib_code 2) ex_cmem) (mk off_write_string ex_str) (map EOut [104; 105; 33]) (mk 7 m').
Proof. exact write_string_instance. Qed.

(* write(int): decimal, most negative value included *)
Theorem C17_write_int : forall w code cmem B, 2 <= w -> lib_at w code B -> lib_range w B ->
  forall m F, frame_ok w m F w ->
  let sv := Machine.sgn w (Machine.lw w m (F - 2 * w)) in
  let ra := Machine.lw w m (F - w) in
  write_int_room w F sv ->
  exists m', Halts.runs (Machine.act w code cmem) (mk (B + off_write_int) m) (map EOut (decimal sv)) (mk ra m')
    /\ agree_except w (write_int_lo w F sv) (F - w) m' m /\ wf_mem m'
    /\ bytes_from m' (write_int_lo w F sv) (length (udec (Z.abs sv))) = udec (Z.abs sv).
Proof. exact write_int_spec. Qed.
Print Assumptions C17_write_int.
Example C17_write_int_sat : exists m',
  Halts.runs (Machine.act 2 (lib_code 2) (zmem 0)) (mk off_write_int (ex_int 12345)) (map EOut [49; 50; 51; 52; 53]) (mk 7 m').
Proof. exact write_int_instance. Qed.
Example C17_write_int_min_sat : exists m',
  Halts.runs (Machine.act 2 (lib_code 2) (zmem 0)) (mk off_write_int (ex_int 32768)) (map EOut [45; 51; 50; 55; 54; 56]) (mk 7 m').
Proof. exact write_int_min_instance. Qed.

Theorem C17_write_int_frame : forall w lo m' m sv F,
  lo = write_int_lo w F sv -> agree_except w lo (F - w) m' m ->
  msize m' = msize m /\
  forall x, 0 <= x -> (x < reg_r0 w \/ stack_start w <= x) -> ~ write_int_footprint w F sv x -> getb m' x = getb m x.
Proof. intros w lo m' m sv F ->. apply write_int_frame. Qed.
Print Assumptions C17_write_int_frame.

Theorem C17_decimal_sound : forall n, 0 <= n ->
  dval (udec n) = n /\ Forall (fun d => 48 <= d <= 57) (udec n) /\ (0 < n -> hd 0 (udec n) <> 48).
Proof. intros n H. exact (conj (udec_value n H) (conj (udec_digits n H) (udec_no_leading_zero n))). Qed.
Print Assumptions C17_decimal_sound.
Theorem C17_decimal_sign : forall v, (0 <= v -> decimal v = udec v) /\ (v < 0 -> decimal v = 45 :: udec (- v)) /\ decimal 0 = [48].
Proof. intros v. exact (conj (decimal_nonneg v) (conj (decimal_neg v) decimal_zero)). Qed.
Print Assumptions C17_decimal_sign.

(* REFUTATION of "does not disturb the caller's variables" for write(int) (finding F3): for some
   representable value the routine stores a digit strictly below the callee frame [F-2w, F). *)
Theorem C17_write_int_writes_below_frame_refuted : forall w code cmem B, 2 <= w -> lib_at w code B -> lib_range w B ->
  exists sv, - (Machine.W w / 2) <= sv < Machine.W w / 2 /\
  forall m F, frame_ok w m F w -> Machine.sgn w (Machine.lw w m (F - 2 * w)) = sv -> write_int_room w F sv ->
  exists m' x, Halts.runs (Machine.act w code cmem) (mk (B + off_write_int) m) (map EOut (decimal sv)) (mk (Machine.lw w m (F - w)) m') /\
    0 <= x < F - 2 * w /\ write_int_footprint w F sv x /\ 48 <= getb m' x <= 57.
Proof. exact write_int_writes_below_frame. Qed.
Print Assumptions C17_write_int_writes_below_frame_refuted.

(* inlined members: write(byte), the newline of writeln *)
Theorem C17_yield : forall w code cmem p m a x, code p = Some (IYield a) -> Machine.val w cmem (mk p m) a = Some x ->
  Halts.runs (Machine.act w code cmem) (mk p m) [EOut (x mod 256)] (mk (p + 1) m).
Proof. exact yield_spec. Qed.
Print Assumptions C17_yield.
Theorem C17_newline : forall w code cmem p m, 1 <= w -> code p = Some (IYield (Imm 10)) ->
  Halts.runs (Machine.act w code cmem) (mk p m) [EOut 10] (mk (p + 1) m).
Proof. exact newline_spec. Qed.
Print Assumptions C17_newline.

(* absorbing end states (feed C03 / C05) *)
Theorem C17_all_is_win_absorbing : forall w code cmem B, 2 <= w -> lib_at w code B -> lib_range w B ->
  forall m, let s := mk (B + off_all_is_win) m in let t := mk (B + off_tnt) m in
  ~ Halts.Halts (Machine.act w code cmem) s /\
  Halts.runs (Machine.act w code cmem) s [EFlag 0] t /\
  Halts.cplus (Machine.act w code cmem) t t /\
  forall n, Halts.csteps (Machine.act w code cmem) s ([EFlag 0] ++ repeat (ESleep 32639) n) t.
Proof. exact all_is_win_absorbing. Qed.
Print Assumptions C17_all_is_win_absorbing.
Theorem C17_all_is_broken_absorbing : forall w code cmem B, 2 <= w -> lib_at w code B -> lib_range w B ->
  forall m, absorbed w code cmem B (mk (B + off_all_is_broken) m) [EFlag 1].
Proof. exact all_is_broken_absorbing. Qed.
Print Assumptions C17_all_is_broken_absorbing.
Theorem C17_error_stubs_absorbing : forall w code cmem B, 2 <= w -> lib_at w code B -> lib_range w B ->
  forall m, absorbed w code cmem B (mk (B + off_stack_overflow) m) [EFlag 2; EFlag 1] /\
            absorbed w code cmem B (mk (B + off_division_by_zero) m) [EFlag 3; EFlag 1] /\
            absorbed w code cmem B (mk (B + off_out_of_bounds) m) [EFlag 4; EFlag 1] /\
            absorbed w code cmem B (mk (B + off_nonlocal_preempt) m) [EFlag 5; EFlag 1].
Proof.
  intros w code cmem B Hw CA BR m.
  exact (conj (stack_overflow_absorbing w code cmem B Hw CA BR m)
        (conj (division_by_zero_absorbing w code cmem B Hw CA BR m)
        (conj (out_of_bounds_absorbing w code cmem B Hw CA BR m)
              (nonlocal_preempt_absorbing w code cmem B Hw CA BR m)))).
Qed.
Print Assumptions C17_error_stubs_absorbing.

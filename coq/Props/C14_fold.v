(* C14 -- compile-time evaluation is invisible.
   The theorems are proved in HiD/Fold.v and only restated here, each with its
   `Print Assumptions`; the Examples (closed instances showing that the hypotheses of the
   implications are satisfiable) are evaluated in place. *)
From Coq Require Import ZArith List.
From HidV.Gen Require Import GenTypes.
From HidV.HiD Require Import Fold.
Local Open Scope Z_scope.

Theorem C14_fold_agrees_ring : forall w c a b, 1 <= w -> In c ring2 ->
  exists v, fold_arith2 c a b = FVal v /\ rt_op2 w c (wrap w a) (wrap w b) = RVal (wrap w v).
Proof. exact Fold.fold_agrees_ring. Qed.
Print Assumptions C14_fold_agrees_ring.

Theorem C14_fold_agrees_ring1 : forall w c a, 1 <= w -> In c ring1 ->
  exists v, fold_arith1 c a = FVal v /\ rt_op1 w c (wrap w a) = RVal (wrap w v).
Proof. exact Fold.fold_agrees_ring1. Qed.
Print Assumptions C14_fold_agrees_ring1.

Theorem C14_ring_exprs_invisible : forall w e, 1 <= w -> ring_only e = true ->
  exists v, cfold e = FVal v /\ crt w e = RVal (wrap w v).
Proof. exact Fold.ring_exprs_invisible. Qed.
Print Assumptions C14_ring_exprs_invisible.
Example C14_ring_hyps :
  1 <= 2 /\ ring_only (CBin OMul (CLit 40000) (CUn ONeg (CLit 3))) = true /\
  cfold (CBin OMul (CLit 40000) (CUn ONeg (CLit 3))) = FVal (-120000) /\
  crt 2 (CBin OMul (CLit 40000) (CUn ONeg (CLit 3))) = RVal (wrap 2 (-120000)).
Proof. repeat split; now vm_compute. Qed.

Theorem C14_fold_agrees_inrange : fold_agrees_inrange_stmt.
Proof. exact Fold.fold_agrees_inrange. Qed.
Print Assumptions C14_fold_agrees_inrange.
Example C14_inrange_hyps :
  1 <= 2 /\ In ODiv divmod /\ in_range 2 (-7) /\ in_range 2 2 /\
  fold_arith2 ODiv (-7) 2 = FVal (-4) /\ in_range 2 (-4) /\
  rt_op2 2 ODiv (wrap 2 (-7)) (wrap 2 2) = RVal (wrap 2 (-4)).
Proof. repeat split; vm_compute; auto; discriminate. Qed.
Example C14_compare_hyps :
  1 <= 2 /\ In OLt compare6 /\ in_range 2 (-32768) /\ in_range 2 32767 /\
  fold_bool2 OLt (-32768) 32767 = FVal true /\
  rt_op2 2 OLt (wrap 2 (-32768)) (wrap 2 32767) = RVal 1.
Proof. repeat split; vm_compute; auto; discriminate. Qed.

Theorem C14_fold_bool_agrees :
  (forall w c (x y : bool), In c logic2 ->
     exists r, fold_bool2 c (b2z x) (b2z y) = FVal r /\ rt_op2 w c (b2z x) (b2z y) = RVal (b2z r)) /\
  (forall w (x : bool),
     exists r, fold_bool1 ONot (b2z x) = FVal r /\ rt_op1 w ONot (b2z x) = RVal (b2z r)) /\
  (forall w c (x y : bool), In c (OEq :: ONe :: nil) ->
     exists r, fold_bool2 c (b2z x) (b2z y) = FVal r /\ rt_op2 w c (b2z x) (b2z y) = RVal (b2z r)) /\
  (forall w a, 1 <= w -> in_range w a -> rt_int_to_bool (wrap w a) = fold_int_to_bool a) /\
  (forall b, rt_bool_to_int b = fold_bool_to_int b).
Proof. exact Fold.fold_bool_agrees. Qed.
Print Assumptions C14_fold_bool_agrees.

Theorem C14_fold_rejects_only_faults :
  (forall c a b, In c (ring2 ++ divmod) ->
     is_val (fold_arith2 c a b) = false <-> (In c divmod /\ b = 0)) /\
  (forall c a b, In c divmod -> b = 0 ->
     exists m, fold_arith2 c a b = FErr m /\ assoc opclass_beq c fold_zero_msg = Some m) /\
  (forall c a, In c ring1 -> is_val (fold_arith1 c a) = true) /\
  (forall c a b, In c (compare6 ++ logic2) -> is_val (fold_bool2 c a b) = true) /\
  (forall a, is_val (fold_bool1 ONot a) = true) /\
  (forall w c a b, 1 <= w -> In c (ring2 ++ divmod) -> is_val (fold_arith2 c a b) = false ->
     rt_op2 w c (wrap w a) (wrap w b) = RFault).
Proof. exact Fold.fold_rejects_only_faults. Qed.
Print Assumptions C14_fold_rejects_only_faults.
Example C14_reject_hyps :
  In ODiv (ring2 ++ divmod) /\ is_val (fold_arith2 ODiv 5 0) = false /\
  rt_op2 2 ODiv (wrap 2 5) (wrap 2 0) = RFault.
Proof. repeat split; vm_compute; auto. Qed.

(** refutations (defect F5): the faithful model of the folding code disagrees with run time *)
Theorem C14_fold_div_refuted : exists w c a b v,
  1 <= w /\ In c divmod /\ fold_arith2 c a b = FVal v /\
  rt_op2 w c (wrap w a) (wrap w b) <> RVal (wrap w v).
Proof. exact Fold.fold_div_refuted. Qed.
Print Assumptions C14_fold_div_refuted.

Theorem C14_fold_mod_refuted : exists w a b v,
  1 <= w /\ fold_arith2 OMod a b = FVal v /\ rt_op2 w OMod (wrap w a) (wrap w b) <> RVal (wrap w v).
Proof. exact Fold.fold_mod_refuted. Qed.
Print Assumptions C14_fold_mod_refuted.

Theorem C14_fold_cmp_refuted : exists w c a b r,
  1 <= w /\ In c compare6 /\ fold_bool2 c a b = FVal r /\
  rt_op2 w c (wrap w a) (wrap w b) <> RVal (b2z r).
Proof. exact Fold.fold_cmp_refuted. Qed.
Print Assumptions C14_fold_cmp_refuted.

Theorem C14_fold_int_to_bool_refuted : exists w a,
  1 <= w /\ rt_int_to_bool (wrap w a) <> fold_int_to_bool a.
Proof. exact Fold.fold_int_to_bool_refuted. Qed.
Print Assumptions C14_fold_int_to_bool_refuted.

Theorem C14_fold_misses_fault : exists w a b v,
  1 <= w /\ fold_arith2 ODiv a b = FVal v /\ rt_op2 w ODiv (wrap w a) (wrap w b) = RFault.
Proof. exact Fold.fold_misses_fault. Qed.
Print Assumptions C14_fold_misses_fault.

(* The folded byte cast keeps the low byte: it agrees with the run-time cast for every value and word size. *)
Theorem C14_fold_byte_cast_agrees : forall w a, 1 <= w ->
  rt_int_to_byte (wrap w a) = fold_int_to_byte a.
Proof. exact Fold.fold_byte_cast_agrees. Qed.
Print Assumptions C14_fold_byte_cast_agrees.

Theorem C14_full_statement_refuted : ~ C14_full_statement.
Proof. exact Fold.C14_full_statement_refuted. Qed.
Print Assumptions C14_full_statement_refuted.

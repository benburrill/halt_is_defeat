(* C06 -- flavour and context rules.  ONLY restatements: every theorem is `exact` a lemma of
   HiD/Context.v, followed by Print Assumptions. *)
From Coq Require Import List.
From HidV Require Import GenContext Context.
Import ListNotations.
Import Rules.

(* hidc's context threading (regenerated flag arithmetic) accepts exactly the programs that
   respect the rules. *)
Theorem C06_context_model_iff_rules : forall p : program,
  accepts p = true <-> well_contexted p.
Proof. exact context_model_iff_rules. Qed.
Print Assumptions C06_context_model_iff_rules.

(* In an accepted program every call of a defeat function and every preempt block lies lexically
   inside a try body or inside a defeat function. *)
Theorem C06_defeat_only_in_try : forall p : program,
  accepts p = true ->
  forall path n, occurs p path n -> uses_defeat n -> inside_try_or_defeat_function path.
Proof. exact defeat_only_in_try. Qed.
Print Assumptions C06_defeat_only_in_try.

(* the hypotheses are satisfiable: an accepted program with a defeat call under a try body and a
   preempt in a defeat function, at explicit positions *)
Example C06_defeat_only_in_try_nonvacuous :
  accepts ex_accepted = true
  /\ occurs ex_accepted [FFunc 3 You; FItem 0; FWhileBody; FItem 0; FTryBody; FItem 0; FStmtExpr]
            (NE (ECall Defeat []))
  /\ uses_defeat (NE (ECall Defeat []))
  /\ occurs ex_accepted [FFunc 2 Defeat; FItem 0]
            (NB (BPreempt (BCode [IStmt (SPlain (PExpr (ECall Defeat [])))])))
  /\ uses_defeat (NB (BPreempt (BCode [IStmt (SPlain (PExpr (ECall Defeat [])))]))).
Proof.
  exact (conj ex_accepted_ok
          (conj (proj1 ex_positions)
             (conj (u_call [])
                (conj (proj2 ex_positions) (u_preempt _))))).
Qed.

(* No context value the parser can construct is one BlockContext._missing_ refuses. *)
Theorem C06_contexts_valid : forall c : actx, invalid_ctx (bits c) = false.
Proof. exact bits_valid. Qed.
Print Assumptions C06_contexts_valid.

(* Component `idioms`, the verified idiom classifier.  Recogniser and its soundness proof:
   Sphinx/Patterns.v.  `classify` recognises, at a `j` of a concrete program, the idiom it belongs
   to; `classify_sound` gives the code-shape premises of the corresponding idiom theorem; the
   `P_classified_*` theorems, proved here from `classify_sound` and the idiom theorems of
   Sphinx/Idioms.v, TimeTravel.v, Guards.v, say what follows for a classified jump.  Their
   conclusions are written out in full, so a weakening of `premises_of` or of an idiom theorem
   makes this file fail.  tools/corr_patterns.py checks on every run that every `j` of every
   emitted program classifies.  Serves C01, C02, C03, C05, C15. *)
From Coq Require Import ZArith List.
From HidV Require Import Machine GenTables Driver Idioms TimeTravel Patterns.
Import ListNotations.
Open Scope Z_scope.

Theorem P_classify_sound : forall c code pc i, classify_code c code pc = Some i -> premises_of c code pc i.
Proof. exact classify_sound. Qed.

(* premises_of, unfolded for the idioms every program contains (so that the definition cannot be
   weakened quietly; the remaining constructors are held by the classified_* theorems below) *)
Theorem P_classify_sound_goto : forall c code pc X, classify_code c code pc = Some (Goto X) ->
  code pc = Some (IJ (Imm X)) /\ code (pc + 1) = Some IHalt /\ wrap (cw c) X = X /\ code X <> None.
Proof. exact (fun c code pc X => classify_sound c code pc (Goto X)). Qed.
Theorem P_classify_sound_branch : forall c code pc cc cc' a b L, classify_code c code pc = Some (Branch cc cc' a b L) ->
  code pc = Some (IJ (Imm L)) /\ wrap (cw c) L = L /\ code (pc + 1) = Some (IHc cc a b) /\
  code L = Some (IHc cc' a b) /\ In (cc, cc') halt_inversion.
Proof. exact (fun c code pc cc cc' a b L => classify_sound c code pc (Branch cc cc' a b L)). Qed.
Theorem P_classify_sound_guard : forall c code pc cc a b E, classify_code c code pc = Some (Guard cc a b E) ->
  code pc = Some (IJ (Imm (pc + 4))) /\ wrap (cw c) (pc + 4) = pc + 4 /\
  code (pc + 1) = Some (IHc cc a b) /\ code (pc + 2) = Some (IJ (Imm E)) /\
  code (pc + 3) = Some IHalt /\ wrap (cw c) E = E /\ exists f, code E = Some (IFlag f).
Proof. exact (fun c code pc cc a b E => classify_sound c code pc (Guard cc a b E)). Qed.
Theorem P_classify_sound_stop_install : forall c code pc H h fp ap tfp k,
  classify_code c code pc = Some (StopInstall H h fp ap tfp k) ->
  exists d, cdefeat c = Some d /\
    code (pc - 1) = Some (IMov (St d) (Imm H)) /\ code pc = Some (IJ (Imm (pc + 2))) /\
    wrap (cw c) (pc + 2) = pc + 2 /\ code (pc + 1) = Some (IMov (St d) (Imm h)) /\
    wrap (cw c) H = H /\ wrap (cw c) h = h /\ code h = Some IHalt /\
    code H = Some (IMov (St d) (Imm h)) /\ code (H + 1) = Some (IMov (St fp) (St tfp)) /\
    code (H + 2) = Some (ILoadO WWord SState (St ap) (St fp) (Imm k)).
Proof. exact (fun c code pc H h fp ap tfp k => classify_sound c code pc (StopInstall H h fp ap tfp k)). Qed.

Theorem P_mkcode_nth : forall l a, 0 <= a -> mkcode l a = nth_error l (Z.to_nat a).
Proof. exact mkcode_nth. Qed.
Theorem P_classify_all_complete : forall c prog pc a,
  mkcode prog pc = Some (IJ a) -> In (pc, classify c prog pc) (classify_all c prog).
Proof. exact classify_all_complete. Qed.
Theorem P_all_classified_sound : forall c prog,
  unclassified c prog = [] ->
  forall pc a, mkcode prog pc = Some (IJ a) ->
  exists i, classify c prog pc = Some i /\ premises_of c (mkcode prog) pc i.
Proof. exact all_classified_sound. Qed.

Section P.
Variable c : cfg.
Hypothesis Hw : 2 <= cw c.
Variable code : Z -> option instr.
Variable cmem : mem.
Variable pc : Z.
Notation w := (cw c).
Notation act := (Machine.act w code cmem).
Notation Halts := (HidV.Sphinx.Halts.Halts act).
Notation runs := (HidV.Sphinx.Halts.runs act).
Notation cstep := (HidV.Sphinx.Halts.cstep act).
Notation oval := (Idioms.oval w cmem).
Notation lw := (Machine.lw w).
Notation sw := (Machine.sw w).
Notation cls := (classify_code c code pc).
Notation oval_label := (Idioms.oval_label w cmem).

Theorem P_classified_goto X :
  cls = Some (Goto X) -> forall m, runs (mk pc m) [] (mk X m).
Proof.
  intros H m. destruct (classify_sound _ _ _ _ H) as [Cj [Ch [Wx _]]].
  pose proof (goto_label w code cmem pc m X Cj Ch) as R. now rewrite Wx in R.
Qed.

Theorem P_classified_goto_reg r :
  cls = Some (GotoReg r) ->
  forall m, inb m r w = true -> runs (mk pc m) [] (mk (lw m r) m).
Proof. intros H m I. destruct (classify_sound _ _ _ _ H) as [Cj Ch]. now apply goto_reg. Qed.

Theorem P_classified_branch cc cc' a b L :
  cls = Some (Branch cc cc' a b L) ->
  forall m x y, oval m a = Some x -> oval m b = Some y ->
  runs (mk pc m) [] (if cond_holds w cc x y then mk (L + 1) m else mk (pc + 2) m).
Proof.
  intros H m x y A B. destruct (classify_sound _ _ _ _ H) as [Cj [Wl [Cc [Ct Hin]]]].
  eapply branch_idiom_table; eauto using oval_label.
Qed.

Theorem P_classified_branch_bool v L :
  cls = Some (BranchBool v L) ->
  forall m x, oval m v = Some x ->
  runs (mk pc m) [] (if x =? 0 then mk (pc + 2) m else mk (L + 1) m).
Proof.
  intros H m x A. destruct (classify_sound _ _ _ _ H) as [Cj [Wl [Cc [Ct _]]]].
  eapply branch_bool_idiom; eauto using oval_label.
Qed.

Theorem P_classified_bool_normalise r :
  cls = Some (BoolNormalise r) ->
  forall m, 0 <= r -> inb m r w = true ->
  let x := lw m r in
  let m' := if x <=? 1 then m else sw m r 1 in
  runs (mk pc m) [] (mk (pc + 4) m') /\ (0 <= x -> lw m' r = if x =? 0 then 0 else 1).
Proof.
  intros H m Hr I. destruct (classify_sound _ _ _ _ H) as [Cj [Wl [C1 [C2 [C3 _]]]]].
  eapply bool_normalise; eauto using oval_label.
Qed.

Theorem P_classified_guard cc a b E :
  cls = Some (Guard cc a b E) ->
  forall m x y, oval m a = Some x -> oval m b = Some y ->
  (cond_holds w cc x y = true -> runs (mk pc m) [] (mk (pc + 4) m)) /\
  (cond_holds w cc x y = false -> ~ Halts (mk E m) -> runs (mk pc m) [] (mk E m) /\ ~ Halts (mk pc m)) /\
  (cond_holds w cc x y = false -> (Halts (mk pc m) <-> Halts (mk E m) /\ Halts (mk (pc + 4) m))).
Proof.
  intros H m x y A B. destruct (classify_sound _ _ _ _ H) as [Cj [Wl [Cc [Ce [Ch [We _]]]]]].
  eapply guard_idiom; eauto using oval_label.
Qed.

Theorem P_classified_guard_entry r1 fp ap N E :
  cls = Some (GuardEntry r1 fp ap N E) ->
  forall m, 0 <= r1 -> inb m r1 w = true -> inb m fp w = true -> inb m ap w = true ->
  let g := wrap w (lw m fp - lw m ap) in
  let m1 := sw m r1 (lw m fp - lw m ap) in
  (wrap w N <= g -> runs (mk pc m) [] (mk (pc + 5) m)) /\
  (g < wrap w N -> ~ Halts (mk E m1) -> runs (mk pc m) [] (mk E m1) /\ ~ Halts (mk pc m)) /\
  (g < wrap w N -> (Halts (mk pc m) <-> Halts (mk E m1) /\ Halts (mk (pc + 5) m))).
Proof.
  intros H m Hr I1 I2 I3. destruct (classify_sound _ _ _ _ H) as [Cj [Wl [C1 [C2 [C3 [C4 [We _]]]]]]].
  eapply entry_guard_idiom; eauto using oval_label.
Qed.

Theorem P_classified_guard_vla r1 fp ap N' size E :
  cls = Some (GuardVla r1 fp ap N' size E) ->
  forall m s, 0 <= r1 -> inb m r1 w = true -> inb m fp w = true -> inb m ap w = true ->
  let m1 := sw m r1 (lw m fp - lw m ap) in
  let m2 := sw m1 r1 (wrap w (lw m fp - lw m ap) - wrap w N') in
  let g := wrap w (wrap w (lw m fp - lw m ap) - wrap w N') in
  oval m2 size = Some s ->
  (s <= g -> runs (mk pc m) [] (mk (pc + 6) m)) /\
  (g < s -> ~ Halts (mk E m2) -> runs (mk pc m) [] (mk E m2) /\ ~ Halts (mk pc m)) /\
  (g < s -> (Halts (mk pc m) <-> Halts (mk E m2) /\ Halts (mk (pc + 6) m))).
Proof.
  intros H m s Hr I1 I2 I3 m1 m2 g Sz.
  destruct (classify_sound _ _ _ _ H) as [Cj [Wl [C1 [C2 [C3 [C4 [C5 [We _]]]]]]]].
  eapply vla_space_guard_idiom; eauto using oval_label.
Qed.

Theorem P_classified_undo H :
  cls = Some (Undo H) ->
  forall m,
  (~ Halts (mk (pc + 1) m) -> runs (mk pc m) [] (mk (pc + 1) m) /\ ~ Halts (mk pc m) /\ cstep (mk pc m) None (mk (pc + 1) m)) /\
  (Halts (mk (pc + 1) m) -> runs (mk pc m) [] (mk H m) /\ cstep (mk pc m) None (mk H m)).
Proof.
  intros Hc m. destruct (classify_sound _ _ _ _ Hc) as [Cj [Wl _]].
  eapply undo_idiom; eauto using oval_label.
Qed.

Theorem P_classified_undo_commit H :
  cls = Some (Undo H) ->
  forall m mb evs, runs (mk (pc + 1) m) evs (mk (H - 2) mb) ->
  exists E, code (H - 2) = Some (IJ (Imm E)) /\
  (~ Halts (mk (wrap w E) mb) ->
   runs (mk pc m) evs (mk (wrap w E) mb) /\ ~ Halts (mk pc m) /\ HidV.Sphinx.Halts.csteps act (mk pc m) evs (mk (wrap w E) mb)).
Proof.
  intros Hc m mb evs Rb. destruct (classify_sound _ _ _ _ Hc) as [Cj [Wl [_ [[E Ce] [Ch _]]]]].
  exists E. split; [exact Ce|]. intros N.
  eapply (undo_commit w code cmem pc m (Imm H) H (H - 2) mb evs (Imm E) (wrap w E)); eauto using oval_label.
  all: try (replace (H - 2 + 1) with (H - 1) by ring; exact Ch); try apply oval_imm.
Qed.

Theorem P_classified_preempt_static D E :
  cls = Some (PreemptStatic D E) ->
  forall m,
  (Halts (mk E m) -> runs (mk pc m) [] (mk D m) /\ cstep (mk pc m) None (mk D m)) /\
  (~ Halts (mk E m) -> runs (mk pc m) [] (mk E m) /\ ~ Halts (mk pc m)).
Proof.
  intros H m. destruct (classify_sound _ _ _ _ H) as [Cj [_ [Wd [C1 [C2 [We _]]]]]].
  eapply preempt_idiom_static; eauto using oval_label.
Qed.

Theorem P_classified_preempt_virtual D E h :
  cls = Some (PreemptVirtual D E h) ->
  exists d, cdefeat c = Some d /\ code h = Some IHalt /\
  forall m, inb m d w = true ->
  (lw m d <> h \/ Halts (mk E m) -> runs (mk pc m) [] (mk D m) /\ cstep (mk pc m) None (mk D m)) /\
  (lw m d = h /\ ~ Halts (mk E m) -> runs (mk pc m) [] (mk E m) /\ ~ Halts (mk pc m)).
Proof.
  intros H. destruct (classify_sound _ _ _ _ H) as [d [Hd [Cj [_ [Wd [C1 [C2 [C3 [We [_ [Wh Chh]]]]]]]]]]].
  exists d. split; [exact Hd | split; [exact Chh|]]. intros m I.
  eapply preempt_idiom_virtual; eauto using oval_label, oval_st.
Qed.

Theorem P_classified_defeat_virtual  :
  cls = Some DefeatVirtual ->
  exists d, cdefeat c = Some d /\
  forall m, inb m d w = true -> runs (mk pc m) [] (mk (lw m d) m) /\ cstep (mk pc m) None (mk (lw m d) m).
Proof.
  intros H. destruct (classify_sound _ _ _ _ H) as [d [Hd [Cj Ch]]].
  exists d. split; [exact Hd|]. intros m I. now apply defeat_call_virtual.
Qed.

Theorem P_classified_defeat_virtual_cond cc a b :
  cls = Some (DefeatVirtualCond cc a b) ->
  exists d, cdefeat c = Some d /\
  forall m x y, inb m d w = true -> oval m a = Some x -> oval m b = Some y ->
  let hd := lw m d in
  (cond_holds w cc x y = true -> runs (mk pc m) [] (mk hd m) /\ cstep (mk pc m) None (mk hd m)) /\
  (cond_holds w cc x y = false -> ~ Halts (mk (pc + 2) m) -> runs (mk pc m) [] (mk (pc + 2) m) /\ ~ Halts (mk pc m)) /\
  (cond_holds w cc x y = false -> Halts (mk (pc + 2) m) -> runs (mk pc m) [] (mk hd m) /\ cstep (mk pc m) None (mk hd m)).
Proof.
  intros H. destruct (classify_sound _ _ _ _ H) as [d [Hd [Cj Cc]]].
  exists d. split; [exact Hd|]. intros m x y I A B.
  exact (defeat_call_virtual_cond w code cmem pc m d cc a b x y Cj I Cc A B).
Qed.

Theorem P_classified_speculation E lop rop rout :
  cls = Some (Speculation E lop rop rout) ->
  forall m evs ml l r, runs (mk (pc + 1) m) evs (mk (E - 2) ml) ->
  oval ml lop = Some l -> oval ml rop = Some r -> inb ml rout w = true ->
  let m2 := sw ml rout l in
  (l = r -> runs (mk pc m) [] (mk E m) /\ cstep (mk pc m) None (mk E m)) /\
  (l <> r -> ~ Halts (mk E m2) -> runs (mk pc m) evs (mk E m2) /\ ~ Halts (mk pc m)) /\
  (l <> r -> Halts (mk E m2) -> runs (mk pc m) [] (mk E m) /\ cstep (mk pc m) None (mk E m)).
Proof.
  intros H m evs ml l r Rl Al Ar I. destruct (classify_sound _ _ _ _ H) as [Cj [We [Cq [Cm _]]]].
  pose proof (speculation_idiom w code cmem pc m (Imm E) evs (E - 2) ml lop rop l r rout Cj) as S.
  replace (E - 2 + 2) with E in S by ring. replace (E - 2 + 1) with (E - 1) in S by ring.
  exact (S (oval_label m E We) Rl Cq Al Ar Cm I).
Qed.

Theorem P_classified_speculation_nomov E lop rop :
  cls = Some (SpeculationNoMov E lop rop) ->
  forall m evs ml l r, runs (mk (pc + 1) m) evs (mk (E - 1) ml) ->
  oval ml lop = Some l -> oval ml rop = Some r ->
  (l = r -> runs (mk pc m) [] (mk E m)) /\
  (l <> r -> ~ Halts (mk E ml) -> runs (mk pc m) evs (mk E ml) /\ ~ Halts (mk pc m)) /\
  (l <> r -> Halts (mk E ml) -> runs (mk pc m) [] (mk E m)).
Proof.
  intros H m evs ml l r Rl Al Ar. destruct (classify_sound _ _ _ _ H) as [Cj [We [Cq _]]].
  pose proof (speculation_idiom_nomov w code cmem pc m (Imm E) evs (E - 1) ml lop rop l r Cj) as S.
  replace (E - 1 + 1) with E in S by ring.
  exact (S (oval_label m E We) Rl Cq Al Ar).
Qed.

Theorem P_classified_stop_install H h fp ap tfp k :
  cls = Some (StopInstall H h fp ap tfp k) ->
  exists d, cdefeat c = Some d /\ code h = Some IHalt /\
  (* the install sequence, started one instruction earlier at the `mov [defeat],H` *)
  (forall m, 0 <= d -> inb m d w = true ->
     let m1 := sw m d H in
     let m2 := sw m1 d h in
     (~ Halts (mk (pc + 2) m2) -> runs (mk (pc - 1) m) [] (mk (pc + 2) m2) /\ ~ Halts (mk (pc - 1) m) /\ lw m2 d = h) /\
     (Halts (mk (pc + 2) m2) -> runs (mk (pc - 1) m) [] (mk (pc + 2) m1) /\ lw m1 d = H)) /\
  (* the handler it installs starts by resetting the defeat word to the halt address *)
  (forall mh, inb mh d w = true -> inb mh fp w = true -> inb mh ap w = true -> inb mh tfp w = true ->
     0 <= fp -> 0 <= ap -> 0 <= d -> 0 <= tfp ->
     (fp + w <= ap \/ ap + w <= fp) -> (d + w <= fp \/ fp + w <= d) -> (d + w <= ap \/ ap + w <= d) ->
     (d + w <= tfp \/ tfp + w <= d) ->
     inb mh (sgn w (wrap w (lw mh tfp)) + sgn w (wrap w k)) w = true ->
     exists m', runs (mk H mh) [] (mk (H + 3) m') /\ lw m' d = h /\ lw m' fp = wrap w (lw mh tfp)).
Proof.
  intros Hc. destruct (classify_sound _ _ _ _ Hc) as [d [Hd [C0 [Cj [Wb [C1 [WH [Wh [Chh [CH0 [CH1 CH2]]]]]]]]]]].
  exists d. split; [exact Hd | split; [exact Chh | split]].
  - intros m Hd0 I m1 m2.
    pose proof (stop_idiom w Hw code cmem (pc - 1) m d (Imm H) (Imm (pc + 2)) (Imm h) H h) as S.
    replace (pc - 1 + 1) with pc in S by ring. replace (pc - 1 + 2) with (pc + 1) in S by ring.
    replace (pc - 1 + 3) with (pc + 2) in S by ring.
    specialize (S C0 (oval_label m H WH) Cj C1 Hd0 I (oval_label _ _ Wb) (oval_label _ _ Wh)).
    fold m1 m2 in S. rewrite WH, Wh in S. exact S.
  - intros mh Id If Ia It Hf Ha Hd0 Ht D1 D2 D3 D4 Is.
    destruct (stop_handler_entry w Hw code cmem H mh fp ap tfp k d (Imm h) h CH0 (oval_label mh h Wh)
                CH1 CH2 Id If Ia It Hf Ha Hd0 Ht D1 D2 D3 D4 Is) as [R [L1 [L2 _]]].
    eexists. rewrite Wh in L1. eauto.
Qed.

Theorem P_classified_return_protection N r :
  cls = Some (ReturnProtection N r) ->
  forall m, inb m r w = true ->
  let ra := lw m r in
  (Halts (mk ra m) -> runs (mk pc m) [] (mk N m) /\ cstep (mk pc m) None (mk N m)) /\
  (~ Halts (mk ra m) -> runs (mk pc m) [] (mk ra m) /\ ~ Halts (mk pc m)) /\
  (~ Halts (mk N m) -> ~ Halts (mk pc m)).
Proof.
  intros H m I. destruct (classify_sound _ _ _ _ H) as [Cj [Wn [C1 [C2 _]]]].
  eapply return_protection_idiom; eauto using oval_label.
Qed.

End P.

Print Assumptions P_classify_sound.
Print Assumptions P_classify_sound_goto.
Print Assumptions P_classify_sound_branch.
Print Assumptions P_classify_sound_guard.
Print Assumptions P_classify_sound_stop_install.
Print Assumptions P_mkcode_nth.
Print Assumptions P_classify_all_complete.
Print Assumptions P_all_classified_sound.
Print Assumptions P_classified_goto.
Print Assumptions P_classified_goto_reg.
Print Assumptions P_classified_branch.
Print Assumptions P_classified_branch_bool.
Print Assumptions P_classified_bool_normalise.
Print Assumptions P_classified_guard.
Print Assumptions P_classified_guard_entry.
Print Assumptions P_classified_guard_vla.
Print Assumptions P_classified_undo.
Print Assumptions P_classified_undo_commit.
Print Assumptions P_classified_preempt_static.
Print Assumptions P_classified_preempt_virtual.
Print Assumptions P_classified_defeat_virtual.
Print Assumptions P_classified_defeat_virtual_cond.
Print Assumptions P_classified_speculation.
Print Assumptions P_classified_speculation_nomov.
Print Assumptions P_classified_stop_install.
Print Assumptions P_classified_return_protection.

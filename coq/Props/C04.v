(* C04 - checked builds are memory safe: property theorems only (machine/arith part; the
   Tracker part is in C04_tracker.v).

   Full statement (NOT proved): on the instrumented machine every committed and speculative
   access of every checked build is entitled (frame traffic in [ap, fp), element accesses inside a
   live array or global, registers/try context/other frames never overwritten, pc inside code),
   and insufficient stack ends in stack_overflow.  That needs the whole-generator simulation.
   C04_partial = C04_tracker.v + the theorems below. *)
From Coq Require Import ZArith List Bool.
From HidV Require Import Machine Halts VM WordLemmas GenStdlib OpTables StdlibBase StdlibInt DecimalSpec.
Import ListNotations.
Open Scope Z_scope.

(* a machine fault (access outside a section, pc outside the code, division by zero) is never
   confused with halting, and the VM reports it with its committed trace *)
Theorem C04_fault_is_not_halt : forall act s, act s = AFault -> ~ Halts act s.
Proof. exact halts_fault_inv. Qed.
Theorem C04_vm_reports_faults : forall w code cmem mon watch fuel s evs s' sp,
  run w code cmem mon watch fuel s = OFault evs s' sp ->
  ~ Halts (act w code cmem) s /\ csteps (act w code cmem) s evs s' /\ act w code cmem s' = AFault.
Proof. exact vm_fault_never_halts. Qed.
Print Assumptions C04_vm_reports_faults.

(* index guard: `hltu i, len` accepts exactly the indices 0 <= i < len (signed reading) *)
Theorem C04_index_check_exact : forall w, 1 <= w -> forall i len, inrange w i -> 0 <= len < Machine.W w / 2 ->
  cond_holds w Cltu i len = (0 <=? sgn w i) && (sgn w i <? len).
Proof. exact index_check_exact. Qed.
Print Assumptions C04_index_check_exact.

(* write(int): footprint of the digit buffer on the regenerated stdlib, and the refutation of
   "library routines only use caller-pushed slots" (known finding F3, see known_findings.txt) *)
Theorem C04_write_int_writes_below_frame_refuted : forall w code cmem B, 2 <= w -> lib_at w code B -> lib_range w B ->
  exists sv, - (Machine.W w / 2) <= sv < Machine.W w / 2 /\
  forall m F, frame_ok w m F w -> Machine.sgn w (Machine.lw w m (F - 2 * w)) = sv -> write_int_room w F sv ->
  exists m' x, Halts.runs (Machine.act w code cmem) (mk (B + off_write_int) m) (map EOut (decimal sv)) (mk (Machine.lw w m (F - w)) m') /\
    0 <= x < F - 2 * w /\ write_int_footprint w F sv x /\ 48 <= getb m' x <= 57.
Proof. exact write_int_writes_below_frame. Qed.
Print Assumptions C04_write_int_writes_below_frame_refuted.

(* C13 / C04 - the regenerated layout arithmetic (Gen/GenLayout.v): the theorems of
   Codegen/LayoutProofs.v restated by `exact`; the examples by evaluation. *)
From Coq Require Import ZArith List.
From HidV Require Import Machine GenLayout LayoutProofs.
Import ListNotations.
Open Scope Z_scope.

(* constant bool arrays: (n + 7) / 8 bytes ... *)
Theorem C13_pack_bools_length : forall l, length (pack_bools l) = ((length l + 7) / 8)%nat.
Proof. exact pack_bools_length. Qed.
Print Assumptions C13_pack_bools_length.

(* ... element i is bit (i mod 8) of byte (i / 8) ... *)
Theorem C13_pack_bools_spec : forall l i, Forall (fun b => b = 0 \/ b = 1) l -> (i < length l)%nat ->
  Z.testbit (nth (i / 8) (pack_bools l) 0) (Z.of_nat (i mod 8)) = (nth i l 0 =? 1).
Proof. exact pack_bools_spec. Qed.
Print Assumptions C13_pack_bools_spec.

(* ... every other bit is zero, every byte is a byte ... *)
Theorem C13_pack_bools_other_bits : forall l k t, Forall (fun b => b = 0 \/ b = 1) l ->
  (8 <= t \/ length l <= 8 * k + t)%nat -> Z.testbit (nth k (pack_bools l) 0) (Z.of_nat t) = false.
Proof. exact pack_bools_other_bits. Qed.
Print Assumptions C13_pack_bools_other_bits.
Theorem C13_pack_bools_bytes : forall l, Forall (fun b => b = 0 \/ b = 1) l ->
  Forall (fun x => 0 <= x < 256) (pack_bools l).
Proof. exact pack_bools_bytes. Qed.
Print Assumptions C13_pack_bools_bytes.

(* ... and the result is the clean specification: byte k = sum of element (8k+t) * 2^t, t < 8 *)
Theorem C13_pack_bools_eq_spec : forall l, Forall (fun b => b = 0 \/ b = 1) l ->
  pack_bools l = map (fun k => fold_right (fun t a => nth (8 * k + t) l 0 * 2 ^ Z.of_nat t + a) 0 (seq 0 8))
                     (seq 0 ((length l + 7) / 8)).
Proof. exact pack_bools_eq_spec. Qed.
Print Assumptions C13_pack_bools_eq_spec.
Example C13_pack_bools_example :
  Forall (fun b => b = 0 \/ b = 1) [1;0;1;1;0;1;0;1;1] /\ pack_bools [1;0;1;1;0;1;0;1;1] = [173; 1].
Proof. split; [repeat apply Forall_cons; try apply Forall_nil; auto | vm_compute; reflexivity]. Qed.

(* sizes of arrays of admissible length do not wrap (all element types) *)
Theorem C04_array_size_no_wrap : forall w d len, 2 <= w -> 0 <= len <= max_length w d ->
  0 <= array_size w d len <= max_signed w.
Proof. exact array_size_no_wrap. Qed.
Print Assumptions C04_array_size_no_wrap.
Example C04_array_size_no_wrap_sat : 2 <= 2 /\ 0 <= 16383 <= max_length 2 DINT /\ array_size 2 DINT 16383 = 32766.
Proof. vm_compute. repeat split; congruence. Qed.
Theorem C04_word_limits : forall w, 1 <= w ->
  max_signed w = Machine.W w / 2 - 1 /\ max_unsigned w = Machine.W w - 1.
Proof. intros w Hw. exact (conj (max_signed_eq w Hw) (max_unsigned_eq w Hw)). Qed.
Print Assumptions C04_word_limits.
Theorem C04_array_size_bool : forall w len, 0 <= len -> array_size w DBOOL len = (len + 7) / 8.
Proof. exact array_size_bool. Qed.
Print Assumptions C04_array_size_bool.
Theorem C04_frame_size_values : forall w,
  frame_size w DINT = w /\ frame_size w DSTRING = w /\ frame_size w DBOOL = 1 /\ frame_size w DBYTE = 1 /\
  frame_size w DEMPTY = 0.
Proof. exact frame_size_values. Qed.
Print Assumptions C04_frame_size_values.

(* every stack size the generator admits keeps all state addresses positive signed words *)
Theorem C04_stack_admissible_in_signed_range : forall w stack, stack_size_rejected w stack = false -> 0 <= stack ->
  (stack + 5) * w <= max_signed w.
Proof. exact stack_admissible_in_signed_range. Qed.
Print Assumptions C04_stack_admissible_in_signed_range.
Theorem C04_stack_addresses_positive_signed : forall w stack a, 2 <= w -> stack_size_rejected w stack = false ->
  0 <= stack -> 0 <= a < (stack + 5) * w -> Machine.sgn w a = a.
Proof. exact stack_addresses_positive_signed. Qed.
Print Assumptions C04_stack_addresses_positive_signed.
Example C04_stack_admissible_sat : stack_size_rejected 2 1000 = false /\ stack_size_rejected 2 16379 = true.
Proof. vm_compute. split; reflexivity. Qed.

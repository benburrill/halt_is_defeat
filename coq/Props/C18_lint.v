(* C18 (part) -- `--lint` (option unreachable_error) either rejects a program or leaves the checked
   tree, hence the generated code, unchanged.  Results of HiD/Exit.v restated (`exact`, two with the
   witness supplied here) + Print Assumptions.
   `elab_func ue ...` is the model of FuncDeclaration.evaluate with the option set to `ue`
   (coq/HiD/Exit.v, built from the regenerated Gen/GenExit.v). *)
From Coq Require Import List.
From HidV Require Import GenExit Exit.
Import ListNotations.

Theorem lint_only_rejects : forall d ret body ss m,
  elab_func true d ret body = Accepted ss m -> elab_func false d ret body = Accepted ss m.
Proof. exact Exit.lint_only_rejects. Qed.
Print Assumptions lint_only_rejects.

Example lint_accepts_sat : exists d ret body ss m, elab_func true d ret body = Accepted ss m.
Proof. exists false, RetValue, max_body, max_body, RETURN. exact Exit.max_accepted. Qed.

Theorem lint_rejects_only_unreachable : forall d ret body v,
  elab_func false d ret body = v ->
  elab_func true d ret body = v \/ elab_func true d ret body = Rejected ErrUnreachable.
Proof. exact Exit.lint_rejects_only_unreachable. Qed.
Print Assumptions lint_rejects_only_unreachable.

(* the second alternative does occur: empty f() { return; x = 1; } *)
Example lint_rejects_sat : elab_func true false RetEmpty (sq [ret_e; plain]) = Rejected ErrUnreachable.
Proof. exact Exit.drop1_unreachable_option. Qed.

Theorem diags_lint : forall ret b,
  diags false ret b = filter not_unreachable (diags true ret b).
Proof. exact (fun ret => proj1 (Exit.diags_lint_mutual ret)). Qed.
Print Assumptions diags_lint.

Theorem analyse_independent_of_lint : forall ue d ret body ss m,
  elab_func ue d ret body = Accepted ss m ->
  exists ss0 m0, analyse (BCode body) = (BCode ss0, m0) /\
    ((ss = ss0 /\ m = m0) \/
     (ss = app_stmts ss0 (SAtom (AReturn false false) SNil) /\ m = func_fixup_modes m0)).
Proof. exact Exit.analyse_independent_of_lint. Qed.
Print Assumptions analyse_independent_of_lint.

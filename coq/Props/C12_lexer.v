(* Props/C12_lexer.v -- property C12 "lexing is exact and independent of layout".
   The theorems of HiD/LexerProofs.v restated (`exact lemma`; three examples by evaluation), with
   `Print Assumptions`; the model is HiD/Lexer.v, the regenerated tables Gen/GenLexer.v.
   Every theorem is universally quantified over the three non-ASCII oracles. *)
From Coq Require Import ZArith List String.
From HidV Require Import GenLexer Lexer LexerProofs.
Import ListNotations.
Local Open Scope Z_scope.

(* ties to the source text (DESIGN.md 2.2, (T)): any edit of these items changes Gen/GenLexer.v *)
Theorem C12_enum_tokens_documented : enum_tokens = documented_tokens.
Proof. exact enum_tokens_documented. Qed.
Theorem C12_regex_texts_pinned : regex_texts = pinned_regex_texts.
Proof. exact regex_texts_pinned. Qed.
Theorem C12_reader_order_pinned : reader_order = pinned_reader_order.
Proof. exact reader_order_pinned. Qed.
Theorem C12_int_reader_cases_pinned : int_reader_cases = pinned_int_reader_cases.
Proof. exact int_reader_cases_pinned. Qed.
Theorem C12_int_reader_guards_pinned : int_reader_guards = pinned_int_reader_guards.
Proof. exact int_reader_guards_pinned. Qed.
Theorem C12_chr_excepts_pinned : chr_excepts = pinned_chr_excepts.
Proof. exact chr_excepts_pinned. Qed.
Theorem C12_flavors_pinned : flavors = pinned_flavors.
Proof. exact flavors_pinned. Qed.
Theorem C12_reader_uses_pinned : reader_uses = pinned_reader_uses.
Proof. exact reader_uses_pinned. Qed.
Theorem C12_escape_codes_standard : escape_codes = standard_escapes.
Proof. exact escape_codes_standard. Qed.

(* integer literals *)
Theorem C12_int_literals : forall uni_digit b ds seps,
  ds <> [] -> Forall (valid_digit uni_digit b) ds -> (b = Dec -> len ds <= int_max_str_digits) ->
  lex_int uni_digit (render_int b ds seps) = Some (int_value uni_digit b ds).
Proof. exact lex_int_render. Qed.

Theorem C12_int_literals_in_context : forall uni_digit b d ds seps k,
  Forall (valid_digit uni_digit b) (d :: ds) -> stops uni_digit b k ->
  (b = Dec -> not_letter k /\ len (d :: ds) <= int_max_str_digits) ->
  read_int uni_digit (render_int b (d :: ds) seps ++ k)
  = RTok (TInt (int_value uni_digit b (d :: ds))) k.
Proof. exact read_int_render. Qed.

(* beyond the limit (decimal only): a LexerError at the end of the literal, never a token *)
Theorem C12_int_literals_too_large : forall uni_digit d ds seps k,
  Forall (valid_digit uni_digit Dec) (d :: ds) -> stops uni_digit Dec k -> not_letter k ->
  int_max_str_digits < len (d :: ds) ->
  read_int uni_digit (render_int Dec (d :: ds) seps ++ k) = RErr EIntTooLarge k.
Proof. exact read_int_too_large. Qed.

Theorem C12_int_value_positional : forall uni_digit b ds d,
  int_value uni_digit b [] = 0 /\
  int_value uni_digit b (ds ++ [d]) = int_value uni_digit b ds * radix b + dval uni_digit b d.
Proof. intros. split; [exact (int_value_nil uni_digit b)|exact (int_value_snoc uni_digit b ds d)]. Qed.

Example C12_int_literals_sat :
  lex_int (fun _ => None) (render_int Hex [49; 70; 97] [true; false]) = Some 506    (* 0x1_Fa *)
  /\ lex_int (fun _ => None) (render_int Dec [49; 48; 48; 48] [true]) = Some 1000   (* 1_000 *)
  /\ lex_int (fun _ => None) (render_int Oct [55; 48] []) = Some 56                 (* 0o70 *)
  /\ lex_int (fun _ => None) (render_int Bin [49; 49] [true]) = Some 3.             (* 0b1_1 *)
Proof. vm_compute. repeat split; reflexivity. Qed.

(* escapes, UTF-8, string and character literals *)
Theorem C12_simple_escapes : forall uni_digit c v k, In (c, v) escape_codes ->
  read_escape uni_digit (c :: k) = EOk [v] k.
Proof. exact simple_escape_all. Qed.

Theorem C12_byte_escapes : forall uni_digit b u1 u2 k, 0 <= b < 256 ->
  read_escape uni_digit (120 :: hexdigit u1 (b / 16) :: hexdigit u2 (b mod 16) :: k) = EOk [b] k.
Proof. exact byte_escape_all. Qed.

Theorem C12_utf8_roundtrip : forall c, is_scalar c -> utf8_decode (utf8_encode c) = Some c.
Proof. exact utf8_roundtrip. Qed.

Theorem C12_utf8_bytes : forall c, 0 <= c <= 1114111 ->
  Forall (fun b => 0 <= b < 256) (utf8_encode c) /\
  len (utf8_encode c) = (if c <? 128 then 1 else if c <? 2048 then 2 else if c <? 65536 then 3 else 4).
Proof. exact utf8_encode_bytes. Qed.

Theorem C12_unicode_escapes : forall uni_digit d ds k,
  Forall (hex_valid uni_digit) (d :: ds) ->
  let cp := int_value uni_digit Hex (d :: ds) in
  cp < 1114112 -> is_surrogate cp = false ->
  read_escape uni_digit (117 :: 123 :: d :: ds ++ 125 :: k) = EOk (utf8_encode cp) k.
Proof. exact unicode_escape_value. Qed.

Theorem C12_unicode_escapes_too_large : forall uni_digit d ds k,
  Forall (hex_valid uni_digit) (d :: ds) ->
  let cp := int_value uni_digit Hex (d :: ds) in
  1114112 <= cp ->
  read_escape uni_digit (117 :: 123 :: d :: ds ++ 125 :: k) = EErr (EBadCodepoint cp) k.
Proof. exact unicode_escape_too_large. Qed.

Theorem C12_surrogates_rejected : forall cp r, is_surrogate cp = true ->
  encode_escaped cp r = EErr (ESurrogate cp) r /\ encode_raw cp r = ECrash CEncodeRaw.
Proof. exact surrogate_rejected. Qed.

Theorem C12_string_literals : forall uni_digit items k, Forall (item_ok uni_digit) items ->
  read_string uni_digit (render_string items ++ k) = RTok (TString (items_bytes uni_digit items)) k.
Proof. exact read_string_render. Qed.

Theorem C12_string_hex_roundtrip : forall uni_digit bs, Forall (fun b => 0 <= b < 256) bs ->
  lex_string uni_digit (render_string_hex bs) = Some bs.
Proof. exact lex_string_hex_roundtrip. Qed.

Theorem C12_string_raw_scalars : forall uni_digit cs,
  Forall (fun c => is_scalar c /\ c <> 34 /\ c <> 92) cs ->
  lex_string uni_digit (render_string (map SRaw cs)) = Some (List.concat (map utf8_encode cs)).
Proof. exact lex_string_raw_scalars. Qed.

Theorem C12_char_literals : forall uni_digit it b k,
  item_ok uni_digit it -> item_bytes uni_digit it = [b] -> it <> SRaw 39 ->
  read_char uni_digit (39 :: render_item it ++ 39 :: k) = RTok (TChar b) k.
Proof. exact read_char_render. Qed.

Example C12_string_literals_sat :
  lex_string (fun _ => None) (render_string [SRaw 72; SSimple 110; SHex false true 255; SUni [49; 70; 52; 65; 57]])
  = Some [72; 10; 255; 240; 159; 146; 169].                (* "H\n\xfF\u{1F4A9}" *)
Proof. vm_compute. reflexivity. Qed.

(* symbols: longest match *)
Theorem C12_symbol_longest_match : forall cur s t,
  find_symbol symbol_tokens cur = Some (s, t) ->
  In (s, t) symbol_tokens /\ is_prefix s cur = true /\
  forall s' t', In (s', t') symbol_tokens -> is_prefix s' cur = true ->
                (List.length s' <= List.length s)%nat.
Proof. exact symbol_longest_match. Qed.

Theorem C12_symbol_none : forall cur,
  find_symbol symbol_tokens cur = None ->
  forall s t, In (s, t) symbol_tokens -> is_prefix s cur = false.
Proof. exact symbol_none. Qed.

Theorem C12_symbol_exact : forall s t k,
  In (s, t) symbol_tokens ->
  (forall s' t', In (s', t') symbol_tokens -> is_prefix s' (s ++ k) = true ->
                 (List.length s' <= List.length s)%nat) ->
  read_symbol (s ++ k) = RTok (TEnum t) k.
Proof. exact read_symbol_exact. Qed.

Theorem C12_symbol_table : forall e,
  In e symbol_tokens <-> In e enum_tokens /\ is_ident_ascii (fst e) = false.
Proof. exact symbol_tokens_spec. Qed.

Example C12_symbol_sat :      (* "<=x" reads LE, not LT *)
  read_symbol [60; 61; 120] = RTok (TEnum ("OpToken", "LE")%string) [120].
Proof. vm_compute. reflexivity. Qed.

(* keywords and flavoured identifiers *)
Theorem C12_enum_partition : forall e, In e enum_tokens ->
  (In e keyword_tokens /\ ~ In e symbol_tokens) \/ (In e symbol_tokens /\ ~ In e keyword_tokens).
Proof. exact enum_partition. Qed.

Theorem C12_classify_plain : forall uni_word w k, ident_word uni_word w -> word_end uni_word k ->
  read_ident_kw uni_word (w ++ k) =
  match lookup w keyword_tokens with
  | Some t => RTok (TEnum t) k
  | None => RTok (TIdent FNone w) k
  end.
Proof. exact classify_plain. Qed.

Theorem C12_classify_flavoured : forall uni_word f w k,
  f <> FNone -> ident_word uni_word w -> word_end uni_word k ->
  read_ident_kw uni_word (sigil f ++ w ++ k) =
  match lookup w keyword_tokens with
  | Some _ => RErr (EBadFlavorIdent f) k
  | None => RTok (TIdent f w) k
  end.
Proof. exact classify_flavoured. Qed.

Theorem C12_classify_exclusive : forall uni_word w k, ident_word uni_word w -> word_end uni_word k ->
  (exists t, In (w, t) enum_tokens /\ read_ident_kw uni_word (w ++ k) = RTok (TEnum t) k /\
             forall f, f <> FNone ->
                       read_ident_kw uni_word (sigil f ++ w ++ k) = RErr (EBadFlavorIdent f) k)
  \/
  ((forall t, ~ In (w, t) keyword_tokens) /\
   forall f, read_ident_kw uni_word (sigil f ++ w ++ k) = RTok (TIdent f w) k).
Proof. exact classify_exclusive. Qed.

Theorem C12_keyword_lookup : forall w t,
  lookup w keyword_tokens = Some t <-> In (w, t) keyword_tokens.
Proof. exact keyword_lookup_iff. Qed.

(* layout independence (all five token kinds, with spans) *)
Theorem C12_token_reads : forall uni_space uni_word uni_digit t k,
  tok_ok uni_space uni_word uni_digit t -> follow_ok uni_word uni_digit t k = true ->
  reads uni_space uni_word uni_digit t k.
Proof. exact token_reads. Qed.

Theorem C12_layout_independence_lines : forall uni_space uni_word uni_digit l g tail,
  separable uni_space uni_word uni_digit l (final_text g tail) -> Forall (gap_ok uni_space) g ->
  lex_lines uni_space uni_word uni_digit (to_lines (render l (final_text g tail))) =
  (lexemes uni_digit l 0 0, ODone (last_pos l 0 0 (0, 0))).
Proof. exact layout_independence_lines. Qed.

Theorem C12_layout_independence : forall uni_space uni_word uni_digit l g tail,
  separable uni_space uni_word uni_digit l (final_text g tail) -> Forall (gap_ok uni_space) g ->
  Forall no_lf (to_lines (render l (final_text g tail))) ->
  lex_text uni_space uni_word uni_digit (flatten (render l (final_text g tail))) =
  (lexemes uni_digit l 0 0, ODone (last_pos l 0 0 (0, 0))).
Proof. exact layout_independence. Qed.

Theorem C12_layout_independence_tokens : forall uni_space uni_word uni_digit toks gaps g tail,
  List.length gaps = List.length toks ->
  separable uni_space uni_word uni_digit (combine gaps toks) (final_text g tail) ->
  Forall (gap_ok uni_space) g ->
  map fst (fst (lex_lines uni_space uni_word uni_digit
                  (to_lines (render (combine gaps toks) (final_text g tail))))) =
  map (denote uni_digit) toks.
Proof. exact layout_independence_tokens. Qed.

(* spans, for every input; totality of the model *)
Theorem C12_readers_consume : forall uni_word uni_digit cur t r,
  read_token uni_word uni_digit cur = RTok t r -> ssuffix r cur.
Proof. exact read_token_suffix. Qed.

Theorem C12_spans_exact : forall uni_space uni_word uni_digit lines, lines <> [] ->
  Forall (span_exact uni_word uni_digit lines) (fst (lex_lines uni_space uni_word uni_digit lines)).
Proof. exact lex_spans_exact. Qed.

Theorem C12_model_never_out_of_fuel : forall uni_space uni_word uni_digit lines,
  snd (lex_lines uni_space uni_word uni_digit lines) <> OFuel.
Proof. exact lex_lines_fuel. Qed.

Theorem C12_string_loop_never_out_of_fuel : forall uni_digit fuel cur acc,
  (List.length cur < fuel)%nat -> str_loop uni_digit fuel cur acc <> SFuel.
Proof. exact str_loop_fuel. Qed.

(* whitespace (or the end of the line) after a token is always enough for `separable` *)
Theorem C12_blank_separates : forall uni_space uni_word uni_digit t k,
  tok_ok uni_space uni_word uni_digit t ->
  match k with [] => True | c :: _ => ascii_space c = true end ->
  follow_ok uni_word uni_digit t k = true.
Proof. exact follow_ok_blank. Qed.

(* error discipline: the two former leaks are LexerErrors with kind and position; the one
   leak that is left (lone surrogate in the source str) is reproduced by the faithful model *)
Example C12_huge_codepoint_is_lexer_error :
  lex_text no_space no_word no_digit
    [34; 92; 117; 123; 56; 48; 48; 48; 48; 48; 48; 48; 125; 34]
  = ([], OErr (EBadCodepoint 2147483648) 0 13).
Proof. exact huge_codepoint_is_lexer_error. Qed.
Example C12_long_decimal_is_lexer_error :
  lex_text no_space no_word no_digit (repeat 49 (Z.to_nat 4301)) = ([], OErr EIntTooLarge 0 4301)
  /\ snd (lex_text no_space no_word no_digit (repeat 49 (Z.to_nat 4300))) = ODone (0, 4300).
Proof. exact long_decimal_is_lexer_error. Qed.
Example C12_leak_raw_surrogate :
  snd (lex_text no_space no_word no_digit [34; 55296; 34]) = OCrash CEncodeRaw.
Proof. exact leak_raw_surrogate_witness. Qed.

(* the hypotheses of layout independence are satisfiable: the concrete text of LexerProofs.ex_laid *)
Example C12_layout_independence_sat :
  separable no_space no_word no_digit ex_laid ex_final /\
  lex_text no_space no_word no_digit (flatten (render ex_laid ex_final)) =
  (lexemes no_digit ex_laid 0 0, ODone (last_pos ex_laid 0 0 (0, 0))) /\
  map fst (lexemes no_digit ex_laid 0 0) =
  [ TEnum ("BlockToken", "IF"); TEnum ("BracToken", "LPAREN"); TIdent FYou [120; 49];
    TEnum ("OpToken", "LE"); TInt 31; TEnum ("BracToken", "RPAREN");
    TString [72; 10; 255; 240; 159; 146; 169]; TEnum ("OpToken", "DIV"); TChar 0; TInt 42 ]%string.
Proof. split; [exact ex_separable|split; [exact ex_lexes|vm_compute; reflexivity]]. Qed.

Print Assumptions C12_enum_tokens_documented.
Print Assumptions C12_regex_texts_pinned.
Print Assumptions C12_reader_order_pinned.
Print Assumptions C12_int_reader_cases_pinned.
Print Assumptions C12_int_reader_guards_pinned.
Print Assumptions C12_chr_excepts_pinned.
Print Assumptions C12_flavors_pinned.
Print Assumptions C12_reader_uses_pinned.
Print Assumptions C12_escape_codes_standard.
Print Assumptions C12_int_literals.
Print Assumptions C12_int_literals_in_context.
Print Assumptions C12_int_literals_too_large.
Print Assumptions C12_int_value_positional.
Print Assumptions C12_simple_escapes.
Print Assumptions C12_byte_escapes.
Print Assumptions C12_utf8_roundtrip.
Print Assumptions C12_utf8_bytes.
Print Assumptions C12_unicode_escapes.
Print Assumptions C12_unicode_escapes_too_large.
Print Assumptions C12_surrogates_rejected.
Print Assumptions C12_string_literals.
Print Assumptions C12_string_hex_roundtrip.
Print Assumptions C12_string_raw_scalars.
Print Assumptions C12_char_literals.
Print Assumptions C12_symbol_longest_match.
Print Assumptions C12_symbol_none.
Print Assumptions C12_symbol_exact.
Print Assumptions C12_symbol_table.
Print Assumptions C12_enum_partition.
Print Assumptions C12_classify_plain.
Print Assumptions C12_classify_flavoured.
Print Assumptions C12_classify_exclusive.
Print Assumptions C12_keyword_lookup.
Print Assumptions C12_token_reads.
Print Assumptions C12_layout_independence_lines.
Print Assumptions C12_layout_independence.
Print Assumptions C12_layout_independence_tokens.
Print Assumptions C12_readers_consume.
Print Assumptions C12_spans_exact.
Print Assumptions C12_model_never_out_of_fuel.
Print Assumptions C12_string_loop_never_out_of_fuel.
Print Assumptions C12_blank_separates.
Print Assumptions C12_layout_independence_sat.
Print Assumptions C12_huge_codepoint_is_lexer_error.
Print Assumptions C12_leak_raw_surrogate.
Print Assumptions C12_long_decimal_is_lexer_error.

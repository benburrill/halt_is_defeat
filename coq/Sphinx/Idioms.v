(* Control idioms of the code generator, as machine-level theorems about ARBITRARY surrounding
   code: the code memory is an abstract function `code : Z -> option instr`, constrained only by
   hypotheses `code (p + k) = Some ...` for the instructions of the idiom at position p; what the
   surrounding code does enters only through `Halts`/`runs` of the states entering it.
   All statements are about every word size w >= 2 (their proofs use w >= 1 only) and all operand
   values.

   Source shapes (functions of hidc/codegen/generator.py):
     goto                                j X; halt
     gen_stmts, ReturnStatement          j [r1]; halt
     bool_expr_branch                    j L; hcc a,b; ... L: hcc^-1 a,b
     gen_func (entry), eval_expr (ArrayInitializer), arith_op_reg_arg (division), check_index
                                         j OK; [prelude;] hcc a,b; j ERR; halt; OK:
     eval_expr, IntToBool                j N; hleu [r],1; mov [r],1; N: hgtu [r],1
     un_op_reg_arg                       sub r,0,x / sub r,1,x *)
From Coq Require Import ZArith List Bool Lia.
From HidV Require Import Machine Halts WordLemmas MemLemmas GenTables OpTables.
Import ListNotations.
Open Scope Z_scope.

Section Idioms.
Variable w : Z.
Hypothesis Hw : 2 <= w.

Notation W := (Machine.W w).
Notation wrap := (Machine.wrap w).
Notation sgn := (Machine.sgn w).
Notation lw := (Machine.lw w).
Notation sw := (Machine.sw w).

Let Hw1 : 1 <= w. Proof. lia. Qed.
Notation wrap_lit := (WordLemmas.wrap_lit w Hw1).

(* pure word arithmetic used by stack_monotone_* (stated before `code` enters the context: in
   Coq 8.16 `lia` makes every section variable in scope a dependency of the lemma) *)
Lemma entry_guard_cond_monotone N g g' : 0 <= g <= g' -> g' < W ->
  cond_holds w Cgeu (wrap g) (wrap N) = true -> cond_holds w Cgeu (wrap g') (wrap N) = true.
Proof.
  intros G G' H. cbn [cond_holds] in H |- *. apply Z.leb_le in H. apply Z.leb_le.
  rewrite (wrap_small w g) in H by (unfold inrange; lia).
  rewrite (wrap_small w g') by (unfold inrange; lia). lia.
Qed.
(* the VLA space test with reserve N' (0 <= N' <= g, guaranteed by the entry guard): without
   wrap-around it compares the requested size s with the true remaining gap *)
Lemma space_cond_exact g N' s : 0 <= N' <= g -> g < W ->
  cond_holds w Cgeu (wrap (wrap g - wrap N')) s = (s + N' <=? g).
Proof.
  intros G G'. cbn [cond_holds].
  rewrite (wrap_small w g), (wrap_small w N'), (wrap_small w (g - N')) by (unfold inrange; lia).
  destruct (Z.leb_spec s (g - N')); destruct (Z.leb_spec (s + N') g); try reflexivity; lia.
Qed.
Lemma vla_space_cond_monotone N' s g g' : 0 <= N' <= g -> g <= g' -> g' < W ->
  cond_holds w Cgeu (wrap (wrap g - wrap N')) s = true ->
  cond_holds w Cgeu (wrap (wrap g' - wrap N')) s = true.
Proof. intros G G1 G'. rewrite !space_cond_exact, !Z.leb_le by lia. lia. Qed.

Variable code : Z -> option instr.
Variable cmem : mem.
Notation act := (Machine.act w code cmem).
Notation Halts := (HidV.Sphinx.Halts.Halts act).
Notation runs := (HidV.Sphinx.Halts.runs act).
Notation cstep := (HidV.Sphinx.Halts.cstep act).

(* operand values depend on the memory only *)
Definition oval (m : mem) (o : operand) : option Z := val w cmem (mk 0 m) o.
Lemma val_oval s o : val w cmem s o = oval (mm s) o.
Proof. destruct o; reflexivity. Qed.
Lemma oval_imm m z : oval m (Imm z) = Some (wrap z).
Proof. reflexivity. Qed.
Lemma oval_label m L : wrap L = L -> oval m (Imm L) = Some L.
Proof. intros E. now rewrite oval_imm, E. Qed.
Lemma oval_st m a : inb m a w = true -> oval m (St a) = Some (lw m a).
Proof. intros H. unfold oval, val; cbn [mm]. now rewrite H. Qed.
Lemma oval_st_val m a x : inb m a w = true -> lw m a = x -> oval m (St a) = Some x.
Proof. intros I <-. exact (oval_st m a I). Qed.
Lemma oval_st_inv m a x : oval m (St a) = Some x -> inb m a w = true /\ x = lw m a.
Proof. unfold oval, val; cbn [mm]. destruct (inb m a w); [intros E; inversion E; auto | discriminate]. Qed.

(* `act` at an instruction whose operands evaluate: the idiom theorems step the machine through
   these, never by unfolding `act` *)
Lemma act_at p m i : code p = Some i -> act (mk p m) = exec w cmem i (mk p m).
Proof. intros C. unfold Machine.act; cbn [pc]. now rewrite C. Qed.

Lemma act_halt p m : code p = Some IHalt -> act (mk p m) = AHalt.
Proof. apply act_at. Qed.
Lemma act_hc p m c a b x y : code p = Some (IHc c a b) -> oval m a = Some x -> oval m b = Some y ->
  act (mk p m) = if cond_holds w c x y then AHalt else ANext (mk (p + 1) m) None.
Proof. intros C A B. rewrite (act_at _ _ _ C); cbn [exec]. rewrite !val_oval; cbn [mm]. now rewrite A, B. Qed.
Lemma act_j p m a t : code p = Some (IJ a) -> oval m a = Some t ->
  act (mk p m) = AJump (mk (p + 1) m) (mk t m).
Proof. intros C A. rewrite (act_at _ _ _ C); cbn [exec]. rewrite val_oval; cbn [mm]. now rewrite A. Qed.
Lemma act_yield p m v x : code p = Some (IYield v) -> oval m v = Some x ->
  act (mk p m) = ANext (mk (p + 1) m) (Some (EOut (x mod 256))).
Proof. intros C A. rewrite (act_at _ _ _ C); cbn [exec]. rewrite val_oval; cbn [mm]. now rewrite A. Qed.
Lemma setdest_st p m d v : inb m d w = true ->
  setdest w (mk p m) (St d) v = ANext (mk (p + 1) (sw m d v)) None.
Proof. intros I. unfold setdest; cbn [mm]. now rewrite I. Qed.
Lemma act_mov p m d v x : code p = Some (IMov (St d) v) -> oval m v = Some x -> inb m d w = true ->
  act (mk p m) = ANext (mk (p + 1) (sw m d x)) None.
Proof.
  intros C A I. rewrite (act_at _ _ _ C); cbn [exec]. rewrite val_oval; cbn [mm]. rewrite A.
  now apply setdest_st.
Qed.
Lemma act_arith p m op d a b x y r : code p = Some (IArith op (St d) a b) ->
  oval m a = Some x -> oval m b = Some y -> arith w op x y = Some r -> inb m d w = true ->
  act (mk p m) = ANext (mk (p + 1) (sw m d r)) None.
Proof.
  intros C A B R I. rewrite (act_at _ _ _ C); cbn [exec]. rewrite !val_oval; cbn [mm]. rewrite A, B, R.
  now apply setdest_st.
Qed.
Lemma act_arith_fault p m op d a b x y : code p = Some (IArith op d a b) ->
  oval m a = Some x -> oval m b = Some y -> arith w op x y = None -> act (mk p m) = AFault.
Proof. intros C A B R. rewrite (act_at _ _ _ C); cbn [exec]. rewrite !val_oval; cbn [mm]. now rewrite A, B, R. Qed.
Lemma act_sleep p m v x : code p = Some (ISleep v) -> oval m v = Some x ->
  act (mk p m) = ANext (mk (p + 1) m) (Some (ESleep x)).
Proof. intros C A. rewrite (act_at _ _ _ C); cbn [exec]. rewrite val_oval; cbn [mm]. now rewrite A. Qed.
Lemma act_flag p m f : code p = Some (IFlag f) -> act (mk p m) = ANext (mk (p + 1) m) (Some (EFlag f)).
Proof. apply act_at. Qed.
Lemma load_in p m wd sc a :
  let M := match sc with SState => m | SConst => cmem end in
  inb M a (match wd with WWord => w | WByte => 1 end) = true ->
  load w cmem wd sc (mk p m) a = Some (match wd with WWord => lw M a | WByte => lb M a end).
Proof. intros M I. unfold load; cbn [mm]. fold M. destruct wd; now rewrite I. Qed.
Lemma act_load p m wd sc d a x v : code p = Some (ILoad wd sc (St d) a) -> oval m a = Some x ->
  load w cmem wd sc (mk p m) x = Some v -> inb m d w = true ->
  act (mk p m) = ANext (mk (p + 1) (sw m d v)) None.
Proof.
  intros C A L J. rewrite (act_at _ _ _ C); cbn [exec]. rewrite val_oval; cbn [mm]. rewrite A, L.
  now apply setdest_st.
Qed.
Lemma act_loado p m wd sc d b o x y v : code p = Some (ILoadO wd sc (St d) b o) ->
  oval m b = Some x -> oval m o = Some y -> load w cmem wd sc (mk p m) (sgn x + sgn y) = Some v ->
  inb m d w = true -> act (mk p m) = ANext (mk (p + 1) (sw m d v)) None.
Proof.
  intros C A B L J. rewrite (act_at _ _ _ C); cbn [exec]. rewrite !val_oval; cbn [mm]. rewrite A, B, L.
  now apply setdest_st.
Qed.
Lemma act_lwso p m d b o x y : code p = Some (ILoadO WWord SState (St d) b o) ->
  oval m b = Some x -> oval m o = Some y -> inb m (sgn x + sgn y) w = true -> inb m d w = true ->
  act (mk p m) = ANext (mk (p + 1) (sw m d (lw m (sgn x + sgn y)))) None.
Proof. intros C A B I. exact (act_loado p m _ _ d b o x y _ C A B (load_in p m WWord SState _ I)). Qed.
Lemma act_lbso p m d b o x y : code p = Some (ILoadO WByte SState (St d) b o) ->
  oval m b = Some x -> oval m o = Some y -> inb m (sgn x + sgn y) 1 = true -> inb m d w = true ->
  act (mk p m) = ANext (mk (p + 1) (sw m d (lb m (sgn x + sgn y)))) None.
Proof. intros C A B I. exact (act_loado p m _ _ d b o x y _ C A B (load_in p m WByte SState _ I)). Qed.
Lemma act_lbs p m d a x : code p = Some (ILoad WByte SState (St d) a) -> oval m a = Some x ->
  inb m x 1 = true -> inb m d w = true ->
  act (mk p m) = ANext (mk (p + 1) (sw m d (lb m x))) None.
Proof. intros C A I. exact (act_load p m _ _ d a x _ C A (load_in p m WByte SState _ I)). Qed.
Lemma act_swso p m b o v x y z : code p = Some (IStoreO WWord b o v) ->
  oval m b = Some x -> oval m o = Some y -> oval m v = Some z -> inb m (sgn x + sgn y) w = true ->
  act (mk p m) = ANext (mk (p + 1) (sw m (sgn x + sgn y) z)) None.
Proof.
  intros C A B V I. rewrite (act_at _ _ _ C); cbn [exec]. rewrite !val_oval; cbn [mm]. rewrite A, B, V.
  unfold store; cbn [mm]. now rewrite I.
Qed.
Lemma act_sbso p m b o v x y z : code p = Some (IStoreO WByte b o v) ->
  oval m b = Some x -> oval m o = Some y -> oval m v = Some z -> inb m (sgn x + sgn y) 1 = true ->
  act (mk p m) = ANext (mk (p + 1) (Machine.sb m (sgn x + sgn y) z)) None.
Proof.
  intros C A B V I. rewrite (act_at _ _ _ C); cbn [exec]. rewrite !val_oval; cbn [mm]. rewrite A, B, V.
  unfold store; cbn [mm]. now rewrite I.
Qed.
Lemma act_sbs p m a v x z : code p = Some (IStore WByte a v) -> oval m a = Some x -> oval m v = Some z ->
  inb m x 1 = true -> act (mk p m) = ANext (mk (p + 1) (Machine.sb m x z)) None.
Proof.
  intros C A V I. rewrite (act_at _ _ _ C); cbn [exec]. rewrite !val_oval; cbn [mm]. rewrite A, V.
  unfold store; cbn [mm]. now rewrite I.
Qed.

Lemma oval_st_sw_same m a v : 0 <= a -> inb m a w = true -> oval (sw m a v) (St a) = Some (wrap v).
Proof. intros Ha I. rewrite oval_st by now rewrite inb_sw. now rewrite lw_sw_same. Qed.
Lemma oval_st_sw_other m a v b : 0 <= a -> 0 <= b -> (b + w <= a \/ a + w <= b) ->
  oval (sw m a v) (St b) = oval m (St b).
Proof.
  intros Ha Hb D. unfold oval, val; cbn [mm]. rewrite inb_sw.
  destruct (inb m b w); [|reflexivity]. now rewrite lw_sw_other.
Qed.
Lemma oval_imm_any m m' z : oval m (Imm z) = oval m' (Imm z).
Proof. reflexivity. Qed.

Lemma runs_tau s s' s'' : act s = ANext s' None -> runs s' [] s'' -> runs s [] s''.
Proof. intros A. exact (runs_trans act _ [] _ _ _ (runs_next act _ _ None A)). Qed.
(* Inside an idiom the pc is written p + k with k a literal: the successor p + (k + 1) is again of
   that shape up to conversion, and is the `p + k'` of the idiom's next hypothesis, so consecutive
   steps chain with nothing to normalise. *)
Lemma tau_at p k m m' l s : act (mk (p + k) m) = ANext (mk (p + k + 1) m') None ->
  runs (mk (p + (k + 1)) m') l s -> runs (mk (p + k) m) l s.
Proof. rewrite Z.add_assoc. intros A. exact (runs_trans act _ [] _ l _ (runs_next act _ _ None A)). Qed.

(* a state whose jump targets itself never halts (the shape of every absorbing stub's tail) *)
Lemma goto_self_not_halts p m a : code p = Some (IJ a) -> oval m a = Some p -> ~ Halts (mk p m).
Proof.
  intros C A. apply succ_cycle_not_halts. apply SP_one.
  eapply S_r. apply (act_j p m a p C A).
Qed.

(* Halts.runs_jump at a `j`: the guards below and the theorems of TimeTravel.v are read off it *)
Lemma jump_idiom p m a t l s' : code p = Some (IJ a) -> oval m a = Some t -> runs (mk (p + 1) m) l s' ->
  (Halts s' -> runs (mk p m) [] (mk t m) /\ cstep (mk p m) None (mk t m)) /\
  (~ Halts s' -> (runs (mk p m) l s' /\ ~ Halts (mk p m)) /\ cstep (mk p m) None (mk (p + 1) m)).
Proof. intros C A. exact (runs_jump act _ _ _ l s' (act_j p m a t C A)). Qed.

Theorem goto_idiom p m a t :
  code p = Some (IJ a) -> code (p + 1) = Some IHalt -> oval m a = Some t ->
  runs (mk p m) [] (mk t m).
Proof. intros Cj Ch A. exact (runs_goto act _ _ _ (act_j p m a t Cj A) (act_halt _ m Ch)). Qed.
Lemma goto_at p k m a t :
  code (p + k) = Some (IJ a) -> code (p + (k + 1)) = Some IHalt -> oval m a = Some t ->
  runs (mk (p + k) m) [] (mk t m).
Proof. rewrite Z.add_assoc. apply goto_idiom. Qed.
Corollary goto_label p m X :
  code p = Some (IJ (Imm X)) -> code (p + 1) = Some IHalt -> runs (mk p m) [] (mk (wrap X) m).
Proof. intros Cj Ch. exact (goto_idiom p m _ _ Cj Ch (oval_imm m X)). Qed.
(* return: j [r]; halt *)
Corollary goto_reg p m r :
  code p = Some (IJ (St r)) -> code (p + 1) = Some IHalt -> inb m r w = true ->
  runs (mk p m) [] (mk (lw m r) m).
Proof. intros Cj Ch I. exact (goto_idiom p m _ _ Cj Ch (oval_st m r I)). Qed.

(* two-way branch: j L; hcc a,b; ...   L: hcc' a,b   with cc' the negation of cc *)
Theorem branch_idiom p m l t cc cc' a b x y :
  code p = Some (IJ l) -> code (p + 1) = Some (IHc cc a b) -> oval m l = Some t ->
  code t = Some (IHc cc' a b) ->
  (forall u v, cond_holds w cc' u v = negb (cond_holds w cc u v)) ->
  oval m a = Some x -> oval m b = Some y ->
  runs (mk p m) [] (if cond_holds w cc x y then mk (t + 1) m else mk (p + 2) m).
Proof.
  intros Cj Cc L Ct Inv A B.
  pose proof (act_j p m l t Cj L) as Aj.
  pose proof (act_hc _ m _ _ _ x y Cc A B) as An. pose proof (act_hc _ m _ _ _ x y Ct A B) as At.
  rewrite Inv in At. destruct (cond_holds w cc x y); cbn [negb] in At.
  - exact (runs_branch_taken act _ _ _ _ Aj An At).
  - replace (p + 2) with (p + 1 + 1) by ring. exact (runs_branch_fall act _ _ _ _ Aj An At).
Qed.
Corollary branch_idiom_table p m l t cc cc' a b x y :
  In (cc, cc') halt_inversion ->
  code p = Some (IJ l) -> code (p + 1) = Some (IHc cc a b) -> oval m l = Some t ->
  code t = Some (IHc cc' a b) ->
  oval m a = Some x -> oval m b = Some y ->
  runs (mk p m) [] (if cond_holds w cc x y then mk (t + 1) m else mk (p + 2) m).
Proof.
  intros Hin Cj Cc L Ct. apply (branch_idiom p m l t cc cc' a b x y Cj Cc L Ct).
  exact (proj1 (Forall_forall _ _) (halt_inversion_is_negation w) _ Hin).
Qed.
(* boolean-value form: j T; hne v,0; ...  T: heq v,0 *)
Corollary branch_bool_idiom p m l t v x :
  code p = Some (IJ l) -> code (p + 1) = Some (IHc Cne v (Imm 0)) -> oval m l = Some t ->
  code t = Some (IHc Ceq v (Imm 0)) -> oval m v = Some x ->
  runs (mk p m) [] (if x =? 0 then mk (p + 2) m else mk (t + 1) m).
Proof.
  intros Cj Cc L Ct A.
  pose proof (branch_idiom p m l t Cne Ceq v (Imm 0) x (wrap 0) Cj Cc L Ct
                (fun u v => eq_sym (negb_involutive (u =? v))) A (oval_imm m 0)) as H.
  cbn [cond_holds] in H. rewrite (wrap_lit 0) in H by lia. now destruct (x =? 0).
Qed.

(* guards: j OK; [prelude;] hcc a,b; j ERR; halt; OK:
   General form: the prelude (possibly empty) is given by a `runs` from the fall-through state to
   the state (p + k, m') at the conditional halt.  No inverse at OK: none is needed, because the
   only way the fall-through can avoid halting is to reach ERR.
   (1) condition holds: the fall-through halts, the jump is taken AT ONCE, and whatever the
       prelude wrote is invisible: memory is exactly m;
   (2) condition fails and ERR is absorbing: the run is committed to ERR, carrying the prelude's
       memory, and never halts;
   (3) condition fails: what is true without any assumption on ERR. *)
Theorem guard_with_prelude p k m m' ok err t e cc a b x y :
  code p = Some (IJ ok) -> oval m ok = Some t ->
  runs (mk (p + 1) m) [] (mk (p + k) m') ->
  code (p + k) = Some (IHc cc a b) -> oval m' a = Some x -> oval m' b = Some y ->
  code (p + (k + 1)) = Some (IJ err) -> code (p + (k + 1 + 1)) = Some IHalt -> oval m' err = Some e ->
  (cond_holds w cc x y = true -> runs (mk p m) [] (mk t m)) /\
  (cond_holds w cc x y = false -> ~ Halts (mk e m') -> runs (mk p m) [] (mk e m') /\ ~ Halts (mk p m)) /\
  (cond_holds w cc x y = false -> (Halts (mk p m) <-> Halts (mk e m') /\ Halts (mk t m))).
Proof.
  intros Cj Ok Pre Cc A B Ce Ch Er.
  pose proof (act_hc (p + k) m' cc a b x y Cc A B) as Ac.
  destruct (cond_holds w cc x y).
  - destruct (jump_idiom p m ok t [] _ Cj Ok Pre) as [T _].
    split; [intros _; apply T, H_halt, Ac | split; discriminate].
  - pose proof (runs_silent act _ _ _ _ Pre (tau_at p k m' m' [] _ Ac (goto_at p (k + 1) m' err e Ce Ch Er))) as R.
    destruct (jump_idiom p m ok t [] _ Cj Ok R) as [_ F].
    split; [discriminate | split; intros _].
    + intros N. exact (proj1 (F N)).
    + rewrite (halts_jump_iff act _ _ _ (act_j p m ok t Cj Ok)), (proj1 R). reflexivity.
Qed.

(* the read-only guards (division `hne r,0`, index `hltu i,len`, VLA length `hleu len,max`):
   j OK; hcc a,b; j ERR; halt; OK = p+4.  Memory is unchanged in both outcomes
   (the part of C15 that is proved: Props/C15.v). *)
Theorem guard_idiom p m ok err e cc a b x y :
  code p = Some (IJ ok) -> oval m ok = Some (p + 4) ->
  code (p + 1) = Some (IHc cc a b) -> oval m a = Some x -> oval m b = Some y ->
  code (p + 2) = Some (IJ err) -> code (p + 3) = Some IHalt -> oval m err = Some e ->
  (cond_holds w cc x y = true -> runs (mk p m) [] (mk (p + 4) m)) /\
  (cond_holds w cc x y = false -> ~ Halts (mk e m) -> runs (mk p m) [] (mk e m) /\ ~ Halts (mk p m)) /\
  (cond_holds w cc x y = false -> (Halts (mk p m) <-> Halts (mk e m) /\ Halts (mk (p + 4) m))).
Proof.
  intros Cj Ok Cc A B Ce Ch Er.
  exact (guard_with_prelude p 1 m m ok err _ e cc a b x y Cj Ok (runs_refl act _) Cc A B Ce Ch Er).
Qed.

(* the entry stack guard (gen_func):
     p: j NO; p+1: sub [r1],[fp],[ap]; p+2: hgeu [r1],N; p+3: j SO; p+4: halt; NO = p+5.
   The `sub` comes AFTER the jump, so when the guard passes it was only speculated: memory is
   COMPLETELY unchanged, r1 included.  When it fails the run goes to the stub with r1 changed. *)
Theorem entry_guard_idiom p m no so e r1 fp ap N :
  code p = Some (IJ no) -> oval m no = Some (p + 5) ->
  code (p + 1) = Some (IArith Asub (St r1) (St fp) (St ap)) ->
  code (p + 2) = Some (IHc Cgeu (St r1) (Imm N)) ->
  code (p + 3) = Some (IJ so) -> code (p + 4) = Some IHalt ->
  0 <= r1 -> inb m r1 w = true -> inb m fp w = true -> inb m ap w = true ->
  let g := wrap (lw m fp - lw m ap) in
  let m1 := sw m r1 (lw m fp - lw m ap) in
  oval m1 so = Some e ->
  (wrap N <= g -> runs (mk p m) [] (mk (p + 5) m)) /\
  (g < wrap N -> ~ Halts (mk e m1) -> runs (mk p m) [] (mk e m1) /\ ~ Halts (mk p m)) /\
  (g < wrap N -> (Halts (mk p m) <-> Halts (mk e m1) /\ Halts (mk (p + 5) m))).
Proof.
  intros Cj Ok Cs Cc Ce Ch Hr Ir If Ia g m1 Er.
  assert (Pre : runs (mk (p + 1) m) [] (mk (p + 2) m1)).
  { apply (tau_at p 1 m m1); [|apply runs_refl].
    eapply act_arith; [exact Cs | exact (oval_st m fp If) | exact (oval_st m ap Ia) | reflexivity | exact Ir]. }
  pose proof (guard_with_prelude p 2 m m1 no so _ e Cgeu _ _ g (wrap N) Cj Ok Pre Cc
                (oval_st_sw_same m r1 _ Hr Ir) (oval_imm m1 N) Ce Ch Er) as G.
  cbn [cond_holds] in G. rewrite Z.leb_le, Z.leb_gt in G. exact G.
Qed.

(* the VLA space guard (eval_expr, ArrayInitializer):
     p: j NO; p+1: sub [r1],[fp],[ap]; p+2: sub [r1],[r1],N'; p+3: hgeu [r1],size;
     p+4: j SO; p+5: halt; NO = p+6        (size = [r0] or an immediate) *)
Theorem vla_space_guard_idiom p m no so e r1 fp ap N' size s :
  code p = Some (IJ no) -> oval m no = Some (p + 6) ->
  code (p + 1) = Some (IArith Asub (St r1) (St fp) (St ap)) ->
  code (p + 2) = Some (IArith Asub (St r1) (St r1) (Imm N')) ->
  code (p + 3) = Some (IHc Cgeu (St r1) size) ->
  code (p + 4) = Some (IJ so) -> code (p + 5) = Some IHalt ->
  0 <= r1 -> inb m r1 w = true -> inb m fp w = true -> inb m ap w = true ->
  let m1 := sw m r1 (lw m fp - lw m ap) in
  let m2 := sw m1 r1 (wrap (lw m fp - lw m ap) - wrap N') in
  let g := wrap (wrap (lw m fp - lw m ap) - wrap N') in
  oval m2 size = Some s -> oval m2 so = Some e ->
  (s <= g -> runs (mk p m) [] (mk (p + 6) m)) /\
  (g < s -> ~ Halts (mk e m2) -> runs (mk p m) [] (mk e m2) /\ ~ Halts (mk p m)) /\
  (g < s -> (Halts (mk p m) <-> Halts (mk e m2) /\ Halts (mk (p + 6) m))).
Proof.
  intros Cj Ok Cs1 Cs2 Cc Ce Ch Hr Ir If Ia m1 m2 g Sz Er.
  assert (I1 : inb m1 r1 w = true) by (unfold m1; now rewrite inb_sw).
  assert (Pre : runs (mk (p + 1) m) [] (mk (p + 3) m2)).
  { apply (tau_at p 1 m m1).
    { eapply act_arith; [exact Cs1 | exact (oval_st m fp If) | exact (oval_st m ap Ia) | reflexivity | exact Ir]. }
    apply (tau_at p 2 m1 m2); [|apply runs_refl].
    eapply act_arith; [exact Cs2 | exact (oval_st_sw_same m r1 _ Hr Ir) | apply oval_imm | reflexivity | exact I1]. }
  pose proof (guard_with_prelude p 3 m m2 no so _ e Cgeu _ _ g s Cj Ok Pre Cc
                (oval_st_sw_same m1 r1 _ Hr I1) Sz Ce Ch Er) as G.
  cbn [cond_holds] in G. rewrite Z.leb_le, Z.leb_gt in G. exact G.
Qed.

(* stack_monotone (C18): a guard that passes at gap g passes at every gap g' >= g.  Same code, two
   memories (e.g. the same program point reached with a bigger stack): if the guard passes in m
   it passes in m'.  The second conjunct says so; the first is the guard idiom in m.
   No-wrap side conditions: the true gaps g = fp - ap, g' = fp' - ap' satisfy 0 <= g <= g' < W.
   They follow from ap <= fp <= stack_end < W, and __post_init__ rejects stacks with
   (stack+5)*w > max_signed < W/2 (GenLayout.stack_size_rejected). *)
Theorem stack_monotone_entry p m m' no so r1 fp ap N e e' :
  code p = Some (IJ no) -> oval m no = Some (p + 5) -> oval m' no = Some (p + 5) ->
  code (p + 1) = Some (IArith Asub (St r1) (St fp) (St ap)) ->
  code (p + 2) = Some (IHc Cgeu (St r1) (Imm N)) ->
  code (p + 3) = Some (IJ so) -> code (p + 4) = Some IHalt ->
  0 <= r1 ->
  inb m r1 w = true -> inb m fp w = true -> inb m ap w = true ->
  inb m' r1 w = true -> inb m' fp w = true -> inb m' ap w = true ->
  oval (sw m r1 (lw m fp - lw m ap)) so = Some e ->
  oval (sw m' r1 (lw m' fp - lw m' ap)) so = Some e' ->
  0 <= lw m fp - lw m ap <= lw m' fp - lw m' ap -> lw m' fp - lw m' ap < W ->
  wrap N <= wrap (lw m fp - lw m ap) ->
  runs (mk p m) [] (mk (p + 5) m) /\ runs (mk p m') [] (mk (p + 5) m').
Proof.
  intros Cj Ok Ok' Cs Cc Ce Ch Hr I1 I2 I3 I1' I2' I3' Er Er' G G' Pass.
  split.
  - exact (proj1 (entry_guard_idiom p m no so e r1 fp ap N Cj Ok Cs Cc Ce Ch Hr I1 I2 I3 Er) Pass).
  - apply (entry_guard_idiom p m' no so e' r1 fp ap N Cj Ok' Cs Cc Ce Ch Hr I1' I2' I3' Er').
    apply Z.leb_le, (entry_guard_cond_monotone N (lw m fp - lw m ap)), Z.leb_le; assumption.
Qed.
Theorem stack_monotone_vla p m m' no so r1 fp ap N' size s e e' :
  code p = Some (IJ no) -> oval m no = Some (p + 6) -> oval m' no = Some (p + 6) ->
  code (p + 1) = Some (IArith Asub (St r1) (St fp) (St ap)) ->
  code (p + 2) = Some (IArith Asub (St r1) (St r1) (Imm N')) ->
  code (p + 3) = Some (IHc Cgeu (St r1) size) ->
  code (p + 4) = Some (IJ so) -> code (p + 5) = Some IHalt ->
  0 <= r1 ->
  inb m r1 w = true -> inb m fp w = true -> inb m ap w = true ->
  inb m' r1 w = true -> inb m' fp w = true -> inb m' ap w = true ->
  let mm2 := fun m => sw (sw m r1 (lw m fp - lw m ap)) r1 (wrap (lw m fp - lw m ap) - wrap N') in
  oval (mm2 m) size = Some s -> oval (mm2 m') size = Some s ->   (* same requested size *)
  oval (mm2 m) so = Some e -> oval (mm2 m') so = Some e' ->
  0 <= N' <= lw m fp - lw m ap -> lw m fp - lw m ap <= lw m' fp - lw m' ap -> lw m' fp - lw m' ap < W ->
  s <= wrap (wrap (lw m fp - lw m ap) - wrap N') ->
  runs (mk p m) [] (mk (p + 6) m) /\ runs (mk p m') [] (mk (p + 6) m').
Proof.
  intros Cj Ok Ok' Cs1 Cs2 Cc Ce Ch Hr I1 I2 I3 I1' I2' I3' mm2 Sz Sz' Er Er' G G1 G' Pass.
  split.
  - exact (proj1 (vla_space_guard_idiom p m no so e r1 fp ap N' size s Cj Ok Cs1 Cs2 Cc Ce Ch Hr I1 I2 I3 Sz Er) Pass).
  - apply (vla_space_guard_idiom p m' no so e' r1 fp ap N' size s Cj Ok' Cs1 Cs2 Cc Ce Ch Hr I1' I2' I3' Sz' Er').
    apply Z.leb_le, (vla_space_cond_monotone N' s (lw m fp - lw m ap)), Z.leb_le; assumption.
Qed.

(* IntToBool normalisation
   p: j N; p+1: hleu [r],1; p+2: mov [r],1; N = p+3: hgtu [r],1; continuation p+4 *)
Theorem bool_normalise p m n r :
  code p = Some (IJ n) -> oval m n = Some (p + 3) ->
  code (p + 1) = Some (IHc Cleu (St r) (Imm 1)) ->
  code (p + 2) = Some (IMov (St r) (Imm 1)) ->
  code (p + 3) = Some (IHc Cgtu (St r) (Imm 1)) ->
  0 <= r -> inb m r w = true ->
  let x := lw m r in
  let m' := if x <=? 1 then m else sw m r 1 in
  runs (mk p m) [] (mk (p + 4) m') /\
  (0 <= x -> lw m' r = if x =? 0 then 0 else 1).
Proof.
  intros Cj N C1 C2 C3 Hr I x m'.
  pose proof (wrap_lit 1 ltac:(lia)) as W1.
  pose proof (oval_imm m 1) as B. rewrite W1 in B.
  (* a two-way branch on x <= 1 whose target N is the test after the `mov` *)
  pose proof (branch_idiom p m n (p + 3) Cleu Cgtu (St r) (Imm 1) x 1 Cj C1 N C3
                Z.ltb_antisym (oval_st m r I) B) as R.
  cbn [cond_holds] in R. revert R. unfold m'. destruct (Z.leb_spec x 1) as [Le|Gt]; intros R.
  - (* already 0/1: taken, to N + 1 *)
    split; [replace (p + 4) with (p + 3 + 1) by ring; exact R|].
    intros X0. fold x. destruct (Z.eqb_spec x 0); lia.
  - (* x > 1: not taken; store 1, pass N's test *)
    split.
    + apply (runs_silent act _ _ _ _ R).
      apply (tau_at p 2 m (sw m r 1)); [exact (act_mov _ m _ _ _ C2 B I)|].
      apply (tau_at p 3 (sw m r 1) (sw m r 1)); [|apply runs_refl].
      pose proof (oval_st_sw_same m r 1 Hr I) as A'. rewrite W1 in A'.
      exact (act_hc (p + 3) (sw m r 1) Cgtu _ _ 1 1 C3 A' B).
    + intros X0. rewrite lw_sw_same, W1 by (assumption || lia). destruct (Z.eqb_spec x 0); lia.
Qed.

(* not: sub r,1,x computes 1 - x on {0,1} *)
Theorem not_by_sub p m r xo x :
  code p = Some (IArith Asub (St r) (Imm 1) xo) -> oval m xo = Some x ->
  0 <= r -> inb m r w = true -> (x = 0 \/ x = 1) ->
  let m' := sw m r (1 - x) in
  runs (mk p m) [] (mk (p + 1) m') /\ lw m' r = 1 - x.
Proof.
  intros C A Hr I X m'. pose proof (oval_imm m 1) as B. rewrite (wrap_lit 1) in B by lia.
  split.
  - apply (runs_next act _ _ None). eapply act_arith; [exact C | exact B | exact A | reflexivity | exact I].
  - unfold m'. rewrite lw_sw_same by (assumption || lia). apply wrap_lit. lia.
Qed.
(* neg: sub r,0,x computes the two's-complement negation *)
Theorem neg_by_sub p m r xo x :
  code p = Some (IArith Asub (St r) (Imm 0) xo) -> oval m xo = Some x ->
  0 <= r -> inb m r w = true -> 0 <= x < W ->
  let m' := sw m r (0 - x) in
  runs (mk p m) [] (mk (p + 1) m') /\ lw m' r = wrap (- x) /\
  (sgn x <> - (W / 2) -> sgn (lw m' r) = - sgn x).
Proof.
  intros C A Hr I X m'. pose proof (oval_imm m 0) as B. rewrite (wrap_lit 0) in B by lia.
  assert (L : lw m' r = wrap (0 - x)) by (unfold m'; now rewrite lw_sw_same by (assumption || lia)).
  split; [|split; [exact L|]].
  - apply (runs_next act _ _ None). eapply act_arith; [exact C | exact B | exact A | reflexivity | exact I].
  - intros Nm. pose proof (sgn_range w Hw1 x X). pose proof (half_pos w Hw1). pose proof (W_even w Hw1).
    rewrite L, (wrap_sub_sgn w Hw1 0 x), (sgn_small w 0) by (unfold inrange; lia).
    rewrite (sgn_wrap_small w Hw1) by lia. lia.
Qed.

End Idioms.

(* concrete code memories for the satisfiability examples *)
Definition code_of (l : list instr) : Z -> option instr :=
  fun p => if p <? 0 then None else nth_error l (Z.to_nat p).
Definition zmem (n : nat) : mem := mem_of_list (repeat 0 n).

(* closed arithmetic side conditions of the examples (never applied to a goal about runs/Halts:
   vm_compute on those normalises the whole machine) *)
Ltac zc := match goal with
  | |- _ /\ _ => split; zc
  | |- _ \/ _ => first [left; zc | right; zc]
  | |- _ <= _ => vm_compute; let E := fresh in intro E; discriminate E
  | |- _ <> _ => vm_compute; let E := fresh in intro E; discriminate E
  | |- _ < _ => vm_compute; reflexivity
  | |- _ = true => vm_compute; reflexivity
  | |- inrange _ _ => unfold inrange; zc
  end.

(* Why the inverse at the branch target is an obligation.
   0: j 4; 1: hne 0,0 (false: passes); 2: halt  -- a later halt on the fall-through path
   3: halt; 4: flag 0 (NO inverse `heq 0,0` here); 5: j 4; 6: halt  -- target loops for ever.
   The condition is false, yet the committed step takes the jump, and the state is not
   `runs`-equivalent to the fall-through continuation (p+2). *)
Definition unsound_branch_code : Z -> option instr :=
  code_of [IJ (Imm 4); IHc Cne (Imm 0) (Imm 0); IHalt; IHalt; IFlag 0; IJ (Imm 4); IHalt].

Theorem branch_without_inverse_unsound :
  exists (code : Z -> option instr) (m : mem) (p L : Z) (cc : cond) (a b : operand) (x y : Z),
    code p = Some (IJ (Imm L)) /\ code (p + 1) = Some (IHc cc a b) /\
    val 2 (zmem 0) (mk p m) a = Some x /\ val 2 (zmem 0) (mk p m) b = Some y /\
    cond_holds 2 cc x y = false /\
    cstep (act 2 code (zmem 0)) (mk p m) None (mk L m) /\
    ~ runs (act 2 code (zmem 0)) (mk p m) [] (mk (p + 2) m).
Proof.
  exists unsound_branch_code, (zmem 8), 0, 4, Cne, (Imm 0), (Imm 0), 0, 0.
  set (A := act 2 unsound_branch_code (zmem 0)).
  assert (H2 : Halts A (mk 2 (zmem 8))) by (apply H_halt; reflexivity).
  assert (H1 : Halts A (mk 1 (zmem 8))) by (eapply H_next; [reflexivity | exact H2]).
  assert (N4 : ~ Halts A (mk 4 (zmem 8))).
  { apply succ_cycle_not_halts. eapply SP_more.
    - eapply S_next. reflexivity.
    - apply SP_one. eapply S_r. reflexivity. }
  repeat (split; [reflexivity|]). split.
  - eapply C_take; [reflexivity | exact H1].
  - intros [E _]. apply N4.
    assert (H0 : Halts A (mk 0 (zmem 8))) by (apply E; exact H2).
    eapply halts_jump_inv in H0; [|reflexivity]. exact (proj2 H0).
Qed.

(* Satisfiability examples (w = 2, 16 bytes of state) *)
Section Examples.
Let m16 := zmem 16.
Let cm := zmem 0.

(* the tail of an absorbing stub: `j self` *)
Example stub_absorbing c e m : c e = Some (IJ (Imm e)) -> 0 <= e < 65536 -> ~ Halts (act 2 c cm) (mk e m).
Proof. intros C R. eapply (goto_self_not_halts 2); [exact C|]. cbn. unfold wrap. f_equal. apply Z.mod_small. exact R. Qed.

Example goto_idiom_ex : let c := code_of [IJ (Imm 5); IHalt] in
  runs (act 2 c cm) (mk 0 m16) [] (mk 5 m16).
Proof. intro c. apply (goto_idiom 2 c cm 0 m16 (Imm 5) 5); reflexivity. Qed.
Example goto_reg_ex : let c := code_of [IJ (St 4); IHalt] in
  runs (act 2 c cm) (mk 0 m16) [] (mk 0 m16).
Proof. intro c. apply (goto_reg 2 c cm 0 m16 4); reflexivity. Qed.

(* if ([4] < [6]) with both words 0: condition false, fall-through side *)
Example branch_idiom_ex : let c := code_of [IJ (Imm 4); IHc Clt (St 4) (St 6); IHalt; IHalt; IHc Cge (St 4) (St 6)] in
  runs (act 2 c cm) (mk 0 m16) [] (mk 2 m16).
Proof.
  intro c. apply (branch_idiom_table 2 c cm 0 m16 (Imm 4) 4 Clt Cge (St 4) (St 6) 0 0); try reflexivity; try (cbn; tauto).
Qed.
(* the taken side: [4] = 0 < [6] = 1 *)
Example branch_idiom_ex_taken : let c := code_of [IJ (Imm 4); IHc Clt (St 4) (St 6); IHalt; IHalt; IHc Cge (St 4) (St 6)] in
  let m := sw 2 m16 6 1 in runs (act 2 c cm) (mk 0 m) [] (mk 5 m).
Proof.
  intros c m. apply (branch_idiom_table 2 c cm 0 m (Imm 4) 4 Clt Cge (St 4) (St 6) 0 1); try reflexivity; try (cbn; tauto).
Qed.
Example branch_bool_idiom_ex : let c := code_of [IJ (Imm 3); IHc Cne (St 4) (Imm 0); IHalt; IHc Ceq (St 4) (Imm 0)] in
  runs (act 2 c cm) (mk 0 m16) [] (mk 2 m16).
Proof. intro c. apply (branch_bool_idiom 2 ltac:(lia) c cm 0 m16 (Imm 3) 3 (St 4) 0); reflexivity. Qed.

(* division-style guard with the stub at 6; [4] = 0 so `hne [4],0` does not fire: committed to the stub *)
Example guard_idiom_ex : let c := code_of [IJ (Imm 4); IHc Cne (St 4) (Imm 0); IJ (Imm 6); IHalt; IHalt; IHalt; IJ (Imm 6); IHalt] in
  runs (act 2 c cm) (mk 0 m16) [] (mk 6 m16) /\ ~ Halts (act 2 c cm) (mk 0 m16).
Proof.
  intro c.
  refine (proj1 (proj2 (guard_idiom 2 c cm 0 m16 (Imm 4) (Imm 6) 6 Cne (St 4) (Imm 0) 0 0 _ _ _ _ _ _ _ _)) _ _); try reflexivity.
  apply stub_absorbing; [reflexivity | lia].
Qed.
(* and the passing side with [4] = 0, `heq [4],0` *)
Example guard_idiom_pass_ex : let c := code_of [IJ (Imm 4); IHc Ceq (St 4) (Imm 0); IJ (Imm 6); IHalt] in
  runs (act 2 c cm) (mk 0 m16) [] (mk 4 m16).
Proof.
  intro c.
  refine (proj1 (guard_idiom 2 c cm 0 m16 (Imm 4) (Imm 6) 6 Ceq (St 4) (Imm 0) 0 0 _ _ _ _ _ _ _ _) _); reflexivity.
Qed.

(* entry guard: ap=[0], fp=[2], r1=[6]; fp-ap = 0 >= N = 0 passes; N = 5 fails to the stub at 5 *)
Example entry_guard_pass_ex :
  let c := code_of [IJ (Imm 5); IArith Asub (St 6) (St 2) (St 0); IHc Cgeu (St 6) (Imm 0); IJ (Imm 5); IHalt] in
  runs (act 2 c cm) (mk 0 m16) [] (mk 5 m16).
Proof.
  intro c.
  refine (proj1 (entry_guard_idiom 2 ltac:(lia) c cm 0 m16 (Imm 5) (Imm 5) 5 6 2 0 0 _ _ _ _ _ _ _ _ _ _ _) _); try reflexivity; zc.
Qed.
Example entry_guard_fail_ex :
  let c := code_of [IJ (Imm 5); IArith Asub (St 6) (St 2) (St 0); IHc Cgeu (St 6) (Imm 5); IJ (Imm 5); IHalt; IJ (Imm 5); IHalt] in
  ~ Halts (act 2 c cm) (mk 0 m16).
Proof.
  intro c.
  refine (proj2 (proj1 (proj2 (entry_guard_idiom 2 ltac:(lia) c cm 0 m16 (Imm 5) (Imm 5) 5 6 2 0 5 _ _ _ _ _ _ _ _ _ _ _)) _ _)); try reflexivity; try lia.
  apply stub_absorbing; [reflexivity | lia].
Qed.

(* VLA space guard: fp = [2] = 100, ap = [0] = 10, reserve 20, size [4]: 70 passes, 71 fails *)
Definition m_vla (s : Z) : mem := sw 2 (sw 2 (sw 2 (zmem 16) 2 100) 0 10) 4 s.
Definition c_vla := code_of [IJ (Imm 6); IArith Asub (St 6) (St 2) (St 0); IArith Asub (St 6) (St 6) (Imm 20);
  IHc Cgeu (St 6) (St 4); IJ (Imm 7); IHalt; IFlag 0; IJ (Imm 7); IHalt].
Example vla_space_guard_ex_pass : runs (act 2 c_vla cm) (mk 0 (m_vla 70)) [] (mk 6 (m_vla 70)).
Proof.
  refine (proj1 (vla_space_guard_idiom 2 ltac:(lia) c_vla cm 0 (m_vla 70) (Imm 6) (Imm 7) 7 6 2 0 20 (St 4) 70 _ _ _ _ _ _ _ _ _ _ _ _ _) _);
    try reflexivity; zc.
Qed.
Example vla_space_guard_ex_fail : ~ Halts (act 2 c_vla cm) (mk 0 (m_vla 71)).
Proof.
  refine (proj2 (proj1 (proj2 (vla_space_guard_idiom 2 ltac:(lia) c_vla cm 0 (m_vla 71) (Imm 6) (Imm 7) 7 6 2 0 20 (St 4) 71 _ _ _ _ _ _ _ _ _ _ _ _ _)) _ _));
    try reflexivity; try zc.
  apply stub_absorbing; [reflexivity | lia].
Qed.
(* stack_monotone: the entry guard with N = 50 passes at gap 90 (fp=100, ap=10) and at gap 190 *)
Definition m_gap (fp : Z) : mem := sw 2 (sw 2 (zmem 16) 2 fp) 0 10.
Definition c_entry := code_of [IJ (Imm 5); IArith Asub (St 6) (St 2) (St 0); IHc Cgeu (St 6) (Imm 50); IJ (Imm 6); IHalt; IFlag 0; IJ (Imm 6); IHalt].
Example stack_monotone_entry_ex :
  runs (act 2 c_entry cm) (mk 0 (m_gap 100)) [] (mk 5 (m_gap 100)) /\
  runs (act 2 c_entry cm) (mk 0 (m_gap 200)) [] (mk 5 (m_gap 200)).
Proof.
  apply (stack_monotone_entry 2 ltac:(lia) c_entry cm 0 (m_gap 100) (m_gap 200) (Imm 5) (Imm 6) 6 2 0 50 6 6);
    try reflexivity; zc.
Qed.
Example stack_monotone_vla_ex :
  runs (act 2 c_vla cm) (mk 0 (m_vla 70)) [] (mk 6 (m_vla 70)) /\
  runs (act 2 c_vla cm) (mk 0 (sw 2 (m_vla 70) 2 300)) [] (mk 6 (sw 2 (m_vla 70) 2 300)).
Proof.
  apply (stack_monotone_vla 2 ltac:(lia) c_vla cm 0 (m_vla 70) (sw 2 (m_vla 70) 2 300) (Imm 6) (Imm 7) 6 2 0 20 (St 4) 70 7 7);
    try reflexivity; zc.
Qed.
Example bool_normalise_ex :
  let c := code_of [IJ (Imm 3); IHc Cleu (St 4) (Imm 1); IMov (St 4) (Imm 1); IHc Cgtu (St 4) (Imm 1)] in
  runs (act 2 c cm) (mk 0 m16) [] (mk 4 m16).
Proof. intro c. apply (bool_normalise 2 ltac:(lia) c cm 0 m16 (Imm 3) 4); try reflexivity; lia. Qed.
Example not_by_sub_ex : let c := code_of [IArith Asub (St 4) (Imm 1) (St 4)] in
  lw 2 (sw 2 m16 4 (1 - 0)) 4 = 1.
Proof. intro c. apply (not_by_sub 2 ltac:(lia) c cm 0 m16 4 (St 4) 0); try reflexivity; lia. Qed.
Example neg_by_sub_ex : let c := code_of [IArith Asub (St 4) (Imm 0) (Imm 5)] in
  sgn 2 (lw 2 (sw 2 m16 4 (0 - 5)) 4) = - sgn 2 5.
Proof.
  intro c. refine (proj2 (proj2 (neg_by_sub 2 ltac:(lia) c cm 0 m16 4 (Imm 5) 5 _ _ _ _ _)) _); try reflexivity; zc.
Qed.
End Examples.

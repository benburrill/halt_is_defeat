(* Time-travel idioms of the code generator (try/undo, try/stop, preempt, `??`, defeat calls) as
   machine-level theorems.  Bodies are ARBITRARY code: they enter the statements only through
   `Halts`/`runs` hypotheses about the states entering them; the code memory is an abstract
   function constrained only at the idiom's own instructions.  Every w >= 2, all values.

   Source shapes (hidc/codegen/generator.py: gen_block for try and preempt, eval_expr for `??`,
   eval_func_call and truth_is_defeat for defeat calls):
     try/undo     j H; BODY; j E; halt; H: UNDO; E:
     try/stop     swso [fp],-k,[ap]; mov [try_fp],[fp]; mov [defeat],H; j B;
                  mov [defeat],halt; B: BODY; j E; halt;
                  H: mov [defeat],prev; mov [fp],[try_fp]; lwso [ap],[fp],-k; STOP; E:
     preempt      j DO; [hne [defeat],halt;] j END; halt; DO: BLOCK; END:
     ??           (r_out := right); j E; LEFT; heq l,r; [mov r_out,l;] E:
     defeat call  [j [defeat];] halt   /   [j [defeat];] hcc a,b *)
From Coq Require Import ZArith List Lia.
From HidV Require Import Machine Halts WordLemmas MemLemmas Idioms.
Import ListNotations.
Open Scope Z_scope.

Section TimeTravel.
Variable w : Z.
Hypothesis Hw : 2 <= w.
Variable code : Z -> option instr.
Variable cmem : mem.

Notation W := (Machine.W w).
Notation wrap := (Machine.wrap w).
Notation sgn := (Machine.sgn w).
Notation lw := (Machine.lw w).
Notation sw := (Machine.sw w).
Notation act := (Machine.act w code cmem).
Notation Halts := (HidV.Sphinx.Halts.Halts act).
Notation runs := (HidV.Sphinx.Halts.runs act).
Notation cstep := (HidV.Sphinx.Halts.cstep act).
Notation csteps := (HidV.Sphinx.Halts.csteps act).
Notation oval := (Idioms.oval w cmem).

Notation jump := (jump_idiom w code cmem).
Notation tau_at := (Idioms.tau_at w code cmem).
Notation goto_at := (Idioms.goto_at w code cmem).

(* try/undo:  p: j H; p+1..: BODY (ends with goto E);  H: UNDO...
   sb = state entering the body, sh = state entering the undo block: the SAME memory m, so
   nothing the body did is visible to the undo block. *)
Theorem undo_idiom p m h H :
  code p = Some (IJ h) -> oval m h = Some H ->
  let sb := mk (p + 1) m in
  let sh := mk H m in
  (~ Halts sb -> runs (mk p m) [] sb /\ ~ Halts (mk p m) /\ cstep (mk p m) None sb) /\
  (Halts sb -> runs (mk p m) [] sh /\ cstep (mk p m) None sh).
Proof.
  intros C A sb sh. destruct (jump p m h H [] sb C A (runs_refl act sb)) as [T F].
  split; [intros N; destruct (F N) as [[R N0] Cs]; auto | exact T].
Qed.
(* with the body's own run: it emits evs, reaches its closing `j E; halt` at q with memory mb,
   and the code after the try (at E) does not halt: the body is committed, events and all *)
Corollary undo_commit p m h H q mb evs e E :
  code p = Some (IJ h) -> oval m h = Some H ->
  runs (mk (p + 1) m) evs (mk q mb) ->
  code q = Some (IJ e) -> code (q + 1) = Some IHalt -> oval mb e = Some E ->
  ~ Halts (mk E mb) ->
  runs (mk p m) evs (mk E mb) /\ ~ Halts (mk p m) /\ csteps (mk p m) evs (mk E mb).
Proof.
  intros C A Rb Cq Ch Ev N.
  pose proof (runs_silent act _ _ _ _ Rb (goto_idiom w code cmem q mb e E Cq Ch Ev)) as Rbe.
  destruct (proj2 (jump p m h H evs _ C A Rbe) N) as [[R N0] _].
  exact (conj R (conj N0 (proj2 R N))).
Qed.

(* static defeat (= halt):  p: j DO; p+1: j END; p+2: halt; DO: BLOCK...; END:
   the block runs iff skipping it leads to halting *)
Theorem preempt_idiom_static p m d D e E :
  code p = Some (IJ d) -> oval m d = Some D ->
  code (p + 1) = Some (IJ e) -> code (p + 2) = Some IHalt -> oval m e = Some E ->
  (Halts (mk E m) -> runs (mk p m) [] (mk D m) /\ cstep (mk p m) None (mk D m)) /\
  (~ Halts (mk E m) -> runs (mk p m) [] (mk E m) /\ ~ Halts (mk p m)).
Proof.
  intros Cd Ad Ce Ch Ae.
  destruct (jump p m d D [] _ Cd Ad (goto_at p 1 m e E Ce Ch Ae)) as [T F].
  split; [exact T | intros N; exact (proj1 (F N))].
Qed.
(* virtual defeat:  p: j DO; p+1: hne [defeat],halt; p+2: j END; p+3: halt; DO:...
   the block runs iff [defeat] <> halt address, or skipping it leads to halting *)
Theorem preempt_idiom_virtual p m d D e E dfo hlo dv hv :
  code p = Some (IJ d) -> oval m d = Some D ->
  code (p + 1) = Some (IHc Cne dfo hlo) -> oval m dfo = Some dv -> oval m hlo = Some hv ->
  code (p + 2) = Some (IJ e) -> code (p + 3) = Some IHalt -> oval m e = Some E ->
  (dv <> hv \/ Halts (mk E m) -> runs (mk p m) [] (mk D m) /\ cstep (mk p m) None (mk D m)) /\
  (dv = hv /\ ~ Halts (mk E m) -> runs (mk p m) [] (mk E m) /\ ~ Halts (mk p m)).
Proof.
  intros Cd Ad Cc Adf Ahl Ce Ch Ae.
  pose proof (act_hc w code cmem (p + 1) m Cne dfo hlo dv hv Cc Adf Ahl) as Ac. cbn [cond_holds] in Ac.
  destruct (Z.eqb_spec dv hv) as [Eq|Ne]; cbn [negb] in Ac.
  - (* the test passes: the fall-through is a goto END *)
    destruct (jump p m d D [] _ Cd Ad (tau_at p 1 m m [] _ Ac (goto_at p 2 m e E Ce Ch Ae))) as [T F].
    split; [intros [X|X]; [contradiction | exact (T X)] | intros [_ N]; exact (proj1 (F N))].
  - (* the test halts *)
    destruct (jump p m d D [] _ Cd Ad (runs_refl act _)) as [T _].
    split; [intros _; apply T, H_halt, Ac | intros [Eq _]; contradiction].
Qed.

(* speculation  right ?? left-with-defeat
   ... r_out := right;  p: j E;  LEFT (evs; ends at q with memory ml, left value l, the saved
   right value r);  q: heq l,r;  then silently from q+1 to E with memory m2 (the `mov` below, or
   nothing).  m is the memory at the jump (r_out already holds right).
   (1) LEFT equals RIGHT: the comparison halts, the jump was taken: LEFT never happened;
   (2) LEFT differs and the continuation does not halt: LEFT is committed;
   (3) LEFT differs but the continuation with LEFT's result halts: RIGHT is used although l <> r. *)
Lemma speculation_with_tail p m e E evs q ml lop rop l r m2 :
  code p = Some (IJ e) -> oval m e = Some E ->
  runs (mk (p + 1) m) evs (mk q ml) ->
  code q = Some (IHc Ceq lop rop) -> oval ml lop = Some l -> oval ml rop = Some r ->
  runs (mk (q + 1) ml) [] (mk E m2) ->
  (l = r -> runs (mk p m) [] (mk E m) /\ cstep (mk p m) None (mk E m)) /\
  (l <> r -> ~ Halts (mk E m2) -> runs (mk p m) evs (mk E m2) /\ ~ Halts (mk p m)) /\
  (l <> r -> Halts (mk E m2) -> runs (mk p m) [] (mk E m) /\ cstep (mk p m) None (mk E m)).
Proof.
  intros Cj Ae Rl Cq Al Ar Rt.
  pose proof (act_hc w code cmem q ml Ceq lop rop l r Cq Al Ar) as Ac. cbn [cond_holds] in Ac.
  destruct (Z.eqb_spec l r) as [Eq|Ne].
  - destruct (jump p m e E evs _ Cj Ae Rl) as [T _].
    split; [intros _; apply T, H_halt, Ac | split; intros X; contradiction].
  - destruct (jump p m e E evs _ Cj Ae (runs_silent act _ _ _ _ Rl (Idioms.runs_tau w code cmem _ _ _ Ac Rt))) as [T F].
    split; [intros X; contradiction | split; intros _ X; [exact (proj1 (F X)) | exact (T X)]].
Qed.
(* q+1: mov [r_out],l;  E = q+2: the three cases above, r_out := l in case (2) *)
Theorem speculation_idiom p m e evs q ml lop rop l r rout :
  code p = Some (IJ e) -> oval m e = Some (q + 2) ->
  runs (mk (p + 1) m) evs (mk q ml) ->
  code q = Some (IHc Ceq lop rop) -> oval ml lop = Some l -> oval ml rop = Some r ->
  code (q + 1) = Some (IMov (St rout) lop) -> inb ml rout w = true ->
  let E := q + 2 in
  let m2 := sw ml rout l in
  (l = r -> runs (mk p m) [] (mk E m) /\ cstep (mk p m) None (mk E m)) /\
  (l <> r -> ~ Halts (mk E m2) -> runs (mk p m) evs (mk E m2) /\ ~ Halts (mk p m)) /\
  (l <> r -> Halts (mk E m2) -> runs (mk p m) [] (mk E m) /\ cstep (mk p m) None (mk E m)).
Proof.
  intros Cj Ae Rl Cq Al Ar Cm I E m2.
  apply (speculation_with_tail p m e E evs q ml lop rop l r m2 Cj Ae Rl Cq Al Ar).
  exact (tau_at q 1 ml m2 [] _ (act_mov w code cmem _ ml _ _ _ Cm Al I) (runs_refl act _)).
Qed.
(* the value of the result register: r_out held r at the jump *)
Corollary speculation_value p m e evs q ml lop rop l r rout :
  code p = Some (IJ e) -> oval m e = Some (q + 2) ->
  runs (mk (p + 1) m) evs (mk q ml) ->
  code q = Some (IHc Ceq lop rop) -> oval ml lop = Some l -> oval ml rop = Some r ->
  code (q + 1) = Some (IMov (St rout) lop) -> inb ml rout w = true -> 0 <= rout ->
  lw m rout = r -> 0 <= l < W ->
  ~ Halts (mk (q + 2) (sw ml rout l)) ->
  exists mf evf, runs (mk p m) evf (mk (q + 2) mf) /\
    lw mf rout = (if l =? r then r else l) /\
    (l = r -> mf = m /\ evf = []) /\ (l <> r -> mf = sw ml rout l /\ evf = evs).
Proof.
  intros Cj Ae Rl Cq Al Ar Cm I Hr Rv Lr N.
  destruct (speculation_idiom p m e evs q ml lop rop l r rout Cj Ae Rl Cq Al Ar Cm I) as [S1 [S2 _]].
  destruct (Z.eqb_spec l r) as [Eq|Ne].
  - exists m, []. split; [apply S1, Eq | split; [exact Rv | split; [tauto | contradiction]]].
  - exists (sw ml rout l), evs. split; [apply S2; assumption | split; [| split; [contradiction | tauto]]].
    autorewrite with mem. apply wrap_small. exact Lr.
Qed.
(* variant without the mov (left was computed directly into r_out): E = q+1; of cases (1) and (3)
   only the `runs` is stated *)
Theorem speculation_idiom_nomov p m e evs q ml lop rop l r :
  code p = Some (IJ e) -> oval m e = Some (q + 1) ->
  runs (mk (p + 1) m) evs (mk q ml) ->
  code q = Some (IHc Ceq lop rop) -> oval ml lop = Some l -> oval ml rop = Some r ->
  let E := q + 1 in
  (l = r -> runs (mk p m) [] (mk E m)) /\
  (l <> r -> ~ Halts (mk E ml) -> runs (mk p m) evs (mk E ml) /\ ~ Halts (mk p m)) /\
  (l <> r -> Halts (mk E ml) -> runs (mk p m) [] (mk E m)).
Proof.
  intros Cj Ae Rl Cq Al Ar E.
  destruct (speculation_with_tail p m e E evs q ml lop rop l r ml Cj Ae Rl Cq Al Ar (runs_refl act _)) as [S1 [S2 S3]].
  split; [intros X; apply S1, X | split; [exact S2 | intros X Y; apply (S3 X Y)]].
Qed.

(* static: a bare halt *)
Theorem defeat_call_static p m : code p = Some IHalt -> Halts (mk p m).
Proof. intros C. apply H_halt. now apply act_halt. Qed.
(* virtual, unconditional: j [defeat]; halt  = goto the handler stored in the defeat word *)
Theorem defeat_call_virtual p m defeat :
  code p = Some (IJ (St defeat)) -> code (p + 1) = Some IHalt -> inb m defeat w = true ->
  runs (mk p m) [] (mk (lw m defeat) m) /\ cstep (mk p m) None (mk (lw m defeat) m).
Proof.
  intros Cj Ch I. apply (jump p m _ _ [] _ Cj (oval_st w cmem m defeat I) (runs_refl act _)).
  exact (defeat_call_static _ m Ch).
Qed.
(* static, conditional (truth_is_defeat): hcc a,b alone *)
Theorem defeat_call_static_cond p m cc a b x y :
  code p = Some (IHc cc a b) -> oval m a = Some x -> oval m b = Some y ->
  (cond_holds w cc x y = true -> Halts (mk p m)) /\
  (cond_holds w cc x y = false -> runs (mk p m) [] (mk (p + 1) m)).
Proof.
  intros C A B. pose proof (act_hc w code cmem p m cc a b x y C A B) as Ac.
  destruct (cond_holds w cc x y); split; try discriminate; intros _.
  - exact (H_halt act _ Ac).
  - exact (runs_next act _ _ None Ac).
Qed.
(* virtual, conditional:  p: j [defeat]; p+1: hcc a,b
   (1) cc holds            -> control transfers to the handler address;
   (2) cc fails, continuation does not halt -> continues at p+2;
   (3) cc fails, continuation HALTS -> the jump to the handler is taken although the condition
       is false.  This is why code after a virtual-defeat test must never halt. *)
Theorem defeat_call_virtual_cond p m defeat cc a b x y :
  code p = Some (IJ (St defeat)) -> inb m defeat w = true ->
  code (p + 1) = Some (IHc cc a b) -> oval m a = Some x -> oval m b = Some y ->
  let hd := lw m defeat in
  (cond_holds w cc x y = true -> runs (mk p m) [] (mk hd m) /\ cstep (mk p m) None (mk hd m)) /\
  (cond_holds w cc x y = false -> ~ Halts (mk (p + 2) m) ->
     runs (mk p m) [] (mk (p + 2) m) /\ ~ Halts (mk p m)) /\
  (cond_holds w cc x y = false -> Halts (mk (p + 2) m) ->
     runs (mk p m) [] (mk hd m) /\ cstep (mk p m) None (mk hd m)).
Proof.
  intros Cj I Cc A B hd. pose proof (oval_st w cmem m defeat I) as Ad.
  pose proof (act_hc w code cmem (p + 1) m cc a b x y Cc A B) as Ac.
  destruct (cond_holds w cc x y).
  - destruct (jump p m _ hd [] _ Cj Ad (runs_refl act _)) as [T _].
    split; [intros _; exact (T (H_halt act _ Ac)) | split; discriminate].
  - destruct (jump p m _ hd [] _ Cj Ad (tau_at p 1 m m [] _ Ac (runs_refl act (mk (p + 2) m)))) as [T F].
    split; [discriminate | split; intros _ X; [exact (proj1 (F X)) | exact (T X)]].
Qed.

(* q: mov [defeat],HANDLER; q+1: j BEGIN; q+2: mov [defeat],halt; BEGIN = q+3: BODY...
   (a) the body entered with defeat = halt does not halt: that is the committed run;
   (b) it halts: the body is entered with defeat = HANDLER instead. *)
Theorem stop_idiom q m defeat hdo bg hlo Hd hv :
  code q = Some (IMov (St defeat) hdo) -> oval m hdo = Some Hd ->
  code (q + 1) = Some (IJ bg) ->
  code (q + 2) = Some (IMov (St defeat) hlo) ->
  0 <= defeat -> inb m defeat w = true ->
  let m1 := sw m defeat Hd in
  oval m1 bg = Some (q + 3) -> oval m1 hlo = Some hv ->
  let m2 := sw m1 defeat hv in
  (~ Halts (mk (q + 3) m2) ->
     runs (mk q m) [] (mk (q + 3) m2) /\ ~ Halts (mk q m) /\ lw m2 defeat = wrap hv) /\
  (Halts (mk (q + 3) m2) ->
     runs (mk q m) [] (mk (q + 3) m1) /\ lw m1 defeat = wrap Hd).
Proof.
  intros C0 A0 C1 C2 Hd0 I m1 Ab Ah m2.
  assert (I1 : inb m1 defeat w = true) by (unfold m1; now rewrite inb_sw).
  pose proof (runs_next act _ _ None (act_mov w code cmem q m _ _ _ C0 A0 I)) as R0. fold m1 in R0.
  pose proof (tau_at q 2 m1 m2 [] _ (act_mov w code cmem _ m1 _ _ _ C2 Ah I1) (runs_refl act (mk (q + 3) m2))) as R2.
  (* the jump at q + 1, its fall-through written q + (1 + 1) *)
  pose proof (jump (q + 1) m1 bg (q + 3) [] (mk (q + 3) m2) C1 Ab) as J. rewrite <- Z.add_assoc in J.
  destruct (J R2) as [T F].
  split; intros X.
  - destruct (F X) as [[R1 N1] _]. split; [exact (runs_trans act _ [] _ _ _ R0 R1) | split].
    + now rewrite (proj1 R0).
    + unfold m2. now autorewrite with mem.
  - split; [exact (runs_trans act _ [] _ _ _ R0 (proj1 (T X)))|].
    unfold m1. now autorewrite with mem.
Qed.

(* the prologue before it: save ap in the frame slot, save fp in try_fp *)
Theorem stop_prologue q m fp ap tryfp k :
  code q = Some (IStoreO WWord (St fp) (Imm k) (St ap)) ->
  code (q + 1) = Some (IMov (St tryfp) (St fp)) ->
  inb m fp w = true -> inb m ap w = true -> inb m tryfp w = true ->
  let slot := sgn (lw m fp) + sgn (wrap k) in
  inb m slot w = true -> 0 <= slot -> 0 <= fp -> 0 <= tryfp ->
  (fp + w <= slot \/ slot + w <= fp) ->                 (* the slot is not the fp register *)
  (tryfp + w <= slot \/ slot + w <= tryfp) ->
  let m' := sw (sw m slot (lw m ap)) tryfp (lw m fp) in
  runs (mk q m) [] (mk (q + 2) m') /\
  lw m' tryfp = wrap (lw m fp) /\ lw m' slot = wrap (lw m ap).
Proof.
  intros C0 C1 If Ia It slot Is Hs Hf Ht D1 D2 m'.
  split; [|split].
  - eapply runs_tau; [eapply act_swso; eauto using oval_st; apply oval_imm|].
    apply (tau_at q 1 _ m'); [|apply runs_refl].
    eapply act_mov; [exact C1 | | now rewrite inb_sw].
    rewrite oval_st_sw_other by (assumption || lia). apply oval_st, If.
  - unfold m'. now autorewrite with mem.
  - unfold m'. now autorewrite with mem.
Qed.

(* the fp/ap restoring part of the handler entry:
     H: mov [fp],[try_fp];  H+1: lwso [ap],[fp],-k      (pop(ap_bubble) emits nothing)
   restores fp from try_fp and ap from the frame slot -- and does NOT touch the defeat word: with
   only these two instructions, when the stop handler's block starts the defeat word still holds
   the handler address, not the halt address (defect F2).  hidc emits the reset
   `mov [defeat],prev` in front of them since commit 9d8b1d9 (stop_handler_entry below); this
   theorem is about the entry without it, and says why the reset is needed. *)
Theorem stop_handler_entry_without_reset H mh fp ap tryfp k defeat :
  code H = Some (IMov (St fp) (St tryfp)) ->
  code (H + 1) = Some (ILoadO WWord SState (St ap) (St fp) (Imm k)) ->
  inb mh fp w = true -> inb mh ap w = true -> inb mh tryfp w = true ->
  0 <= fp -> 0 <= ap -> 0 <= defeat ->
  (fp + w <= ap \/ ap + w <= fp) ->
  (defeat + w <= fp \/ fp + w <= defeat) -> (defeat + w <= ap \/ ap + w <= defeat) ->
  let m1 := sw mh fp (lw mh tryfp) in
  let slot := sgn (wrap (lw mh tryfp)) + sgn (wrap k) in
  inb mh slot w = true ->
  let m' := sw m1 ap (lw m1 slot) in
  runs (mk H mh) [] (mk (H + 2) m') /\
  lw m' fp = wrap (lw mh tryfp) /\
  lw m' ap = wrap (lw m1 slot) /\
  (0 <= slot -> (slot + w <= fp \/ fp + w <= slot) -> lw m' ap = wrap (lw mh slot)) /\
  lw m' defeat = lw mh defeat.
Proof.
  intros C0 C1 If Ia It Hf Ha Hdf Dfa Ddf Dda m1 slot Is m'.
  assert (R : runs (mk H mh) [] (mk (H + 2) m')).
  { eapply runs_tau; [eapply act_mov; eauto using oval_st|].
    apply (tau_at H 1 m1 m'); [|apply runs_refl].
    eapply act_lwso; [exact C1 | apply oval_st_sw_same; assumption | apply oval_imm | | ];
      unfold m1; now rewrite inb_sw. }
  split; [exact R | split; [|split; [|split]]].
  - unfold m', m1. now rewrite lw_sw_other, lw_sw_same by (assumption || lia).
  - unfold m'. now rewrite lw_sw_same by (assumption || lia).
  - intros Hs D. unfold m', m1. now rewrite lw_sw_same, lw_sw_other by (assumption || lia).
  - unfold m', m1. now rewrite !lw_sw_other by (assumption || lia).
Qed.

(* A later try/undo whose body reaches a virtual defeat call (`j [defeat]; halt`, e.g.
   !is_defeat() in a defeat function it calls) at c with memory mc.  With the defeat word FRESH
   (= the address hv of the stdlib `halt: halt`) the body halts, so the undo block runs from the
   memory at the jump -- the intended behaviour.  (With the word STALE, = an old stop handler
   whose continuation does not halt, undo_commit applies instead: the body is COMMITTED, events
   included, and control re-enters the old handler.) *)
Theorem undo_with_fresh_defeat p m h HU evs c mc defeat hv :
  code p = Some (IJ h) -> oval m h = Some HU ->
  runs (mk (p + 1) m) evs (mk c mc) ->
  code c = Some (IJ (St defeat)) -> code (c + 1) = Some IHalt -> inb mc defeat w = true ->
  lw mc defeat = hv -> code hv = Some IHalt ->
  runs (mk p m) [] (mk HU m) /\ cstep (mk p m) None (mk HU m).
Proof.
  intros Cj Ah Rb Cc Ch I L Chv.
  apply (jump p m h HU evs _ Cj Ah Rb), (proj1 (defeat_call_virtual c mc defeat Cc Ch I)).
  rewrite L. exact (defeat_call_static _ mc Chv).
Qed.

(* the handler entry as hidc emits it (gen_block; the reset since commit 9d8b1d9)
     H: mov [defeat],prev;  H+1: mov [fp],[try_fp];  H+2: lwso [ap],[fp],-k
   prev = prev_defeat, the `halt` label in a you-function (value hv = the real halt address). *)
Theorem stop_handler_entry H mh fp ap tryfp k defeat pdo hv :
  code H = Some (IMov (St defeat) pdo) -> oval mh pdo = Some hv ->
  code (H + 1) = Some (IMov (St fp) (St tryfp)) ->
  code (H + 2) = Some (ILoadO WWord SState (St ap) (St fp) (Imm k)) ->
  inb mh defeat w = true -> inb mh fp w = true -> inb mh ap w = true -> inb mh tryfp w = true ->
  0 <= fp -> 0 <= ap -> 0 <= defeat -> 0 <= tryfp ->
  (fp + w <= ap \/ ap + w <= fp) ->
  (defeat + w <= fp \/ fp + w <= defeat) -> (defeat + w <= ap \/ ap + w <= defeat) ->
  (defeat + w <= tryfp \/ tryfp + w <= defeat) ->
  let m0 := sw mh defeat hv in
  let m1 := sw m0 fp (lw mh tryfp) in
  let slot := sgn (wrap (lw mh tryfp)) + sgn (wrap k) in
  inb mh slot w = true ->
  let m' := sw m1 ap (lw m1 slot) in
  runs (mk H mh) [] (mk (H + 3) m') /\
  lw m' defeat = wrap hv /\
  lw m' fp = wrap (lw mh tryfp) /\
  lw m' ap = wrap (lw m1 slot) /\
  (0 <= slot -> (slot + w <= fp \/ fp + w <= slot) -> (slot + w <= defeat \/ defeat + w <= slot) ->
     lw m' ap = wrap (lw mh slot)).
Proof.
  intros C0 Ap C1 C2 Id If Ia It Hf Ha Hdf Ht Dfa Ddf Dda Ddt m0 m1 slot Is m'.
  assert (Lt : lw m0 tryfp = lw mh tryfp) by (unfold m0; now rewrite lw_sw_other by (assumption || lia)).
  replace (H + 2) with (H + 1 + 1) in C2 by ring.
  destruct (stop_handler_entry_without_reset (H + 1) m0 fp ap tryfp k defeat C1 C2) as [R [Lf [La [Ls Ld]]]];
    try assumption; try (unfold m0; now rewrite inb_sw).
  { rewrite Lt. unfold m0. now rewrite inb_sw. }
  rewrite Lt in R, Lf, La, Ls, Ld. fold m1 slot m' in R, Lf, La, Ls, Ld.
  replace (H + 1 + 2) with (H + 3) in R by ring.
  split; [|split; [|split; [|split]]].
  - eapply runs_tau; [eapply act_mov; eauto | exact R].
  - rewrite Ld. unfold m0. now rewrite lw_sw_same by (assumption || lia).
  - exact Lf.
  - exact La.
  - intros Hs D1 D2. rewrite (Ls Hs D1). f_equal. unfold m0. now rewrite lw_sw_other by (assumption || lia).
Qed.

(* try/stop fires, then a later try/undo: defeat behaves normally again.
   (1) the stop prologue at q in m0; the body entered with defeat = halt halts, so (stop_idiom b)
       it is entered with defeat = handler; it emits evs1 and reaches a virtual defeat call
       `j [defeat]; halt` at d with memory mb, not having written the defeat word;
   (2) control enters the handler H = wrap Hd, whose entry resets the word to hv = the address of
       the stdlib `halt: halt`, and the stop block starts at H+3;
   (3) any later try/undo (at p, memory m) whose body reaches `j [defeat]; halt` (at c, memory mc)
       with the word as the handler entry left it is undone: its undo block runs from m. *)
Theorem stop_fired_then_undo_behaves
    q m0 defeat hdo bg hlo Hd hv evs1 d mb fp ap tryfp k pdo :
  (* try/stop prologue *)
  code q = Some (IMov (St defeat) hdo) -> oval m0 hdo = Some Hd ->
  code (q + 1) = Some (IJ bg) -> code (q + 2) = Some (IMov (St defeat) hlo) ->
  0 <= defeat -> inb m0 defeat w = true ->
  let m1 := sw m0 defeat Hd in
  oval m1 bg = Some (q + 3) -> oval m1 hlo = Some hv ->
  Halts (mk (q + 3) (sw m1 defeat hv)) ->
  (* the body, second attempt, up to its defeat call *)
  runs (mk (q + 3) m1) evs1 (mk d mb) ->
  code d = Some (IJ (St defeat)) -> code (d + 1) = Some IHalt -> lw mb defeat = wrap Hd ->
  (* the handler entry at H = wrap Hd *)
  let H := wrap Hd in
  code H = Some (IMov (St defeat) pdo) -> oval mb pdo = Some hv ->
  code (H + 1) = Some (IMov (St fp) (St tryfp)) ->
  code (H + 2) = Some (ILoadO WWord SState (St ap) (St fp) (Imm k)) ->
  inb mb defeat w = true -> inb mb fp w = true -> inb mb ap w = true -> inb mb tryfp w = true ->
  0 <= fp -> 0 <= ap -> 0 <= tryfp ->
  (fp + w <= ap \/ ap + w <= fp) ->
  (defeat + w <= fp \/ fp + w <= defeat) -> (defeat + w <= ap \/ ap + w <= defeat) ->
  (defeat + w <= tryfp \/ tryfp + w <= defeat) ->
  let mh1 := sw (sw mb defeat hv) fp (lw mb tryfp) in
  let slot := sgn (wrap (lw mb tryfp)) + sgn (wrap k) in
  inb mb slot w = true ->
  code (wrap hv) = Some IHalt ->
  let m' := sw mh1 ap (lw mh1 slot) in
  (* the stop block starts at H+3 with the defeat word reset ... *)
  runs (mk q m0) evs1 (mk (H + 3) m') /\ lw m' defeat = wrap hv /\
  (* ... and every later try/undo that sees this word is undone by a virtual defeat call *)
  (forall p m h HU evs c mc,
     code p = Some (IJ h) -> oval m h = Some HU ->
     runs (mk (p + 1) m) evs (mk c mc) ->
     code c = Some (IJ (St defeat)) -> code (c + 1) = Some IHalt -> inb mc defeat w = true ->
     lw mc defeat = lw m' defeat ->
     runs (mk p m) [] (mk HU m) /\ cstep (mk p m) None (mk HU m)).
Proof.
  intros C0 A0 C1 C2 Hdf I0 m1 Ab Ah Hb Rb Cd Cdh Lb H CH Ap CH1 CH2 Id If Ia It Hf Ha Ht Dfa Ddf Dda Ddt mh1 slot Is Chv m'.
  destruct (proj2 (stop_idiom q m0 defeat hdo bg hlo Hd hv C0 A0 C1 C2 Hdf I0 Ab Ah) Hb) as [R0 _].
  destruct (defeat_call_virtual d mb defeat Cd Cdh Id) as [Rd _]. rewrite Lb in Rd. fold H in Rd.
  destruct (stop_handler_entry H mb fp ap tryfp k defeat pdo hv CH Ap CH1 CH2 Id If Ia It Hf Ha Hdf Ht Dfa Ddf Dda Ddt Is)
    as [Rh [Ld _]]. fold mh1 slot m' in Rh, Ld.
  split; [|split; [exact Ld|]].
  - exact (runs_trans act _ [] _ _ _ R0 (runs_silent act _ _ _ _ Rb (runs_trans act _ [] _ _ _ Rd Rh))).
  - intros p m h HU evs c mc Cj Au Ru Cc Cch Ic Lc.
    apply (undo_with_fresh_defeat p m h HU evs c mc defeat (wrap hv) Cj Au Ru Cc Cch Ic); congruence.
Qed.

(* return protection of preemptive defeat functions (gen_stmts, ReturnStatement):
     p: j nonlocal_preempt; p+1: j [r1]; p+2: halt
   the stub is entered iff the state after returning halts *)
Theorem return_protection_idiom p m nlp N r :
  code p = Some (IJ nlp) -> oval m nlp = Some N ->
  code (p + 1) = Some (IJ (St r)) -> code (p + 2) = Some IHalt -> inb m r w = true ->
  let ra := lw m r in
  (Halts (mk ra m) -> runs (mk p m) [] (mk N m) /\ cstep (mk p m) None (mk N m)) /\
  (~ Halts (mk ra m) -> runs (mk p m) [] (mk ra m) /\ ~ Halts (mk p m)) /\
  (~ Halts (mk N m) -> ~ Halts (mk p m)).
Proof.
  intros Cj An Cr Ch I ra.
  destruct (preempt_idiom_static p m nlp N (St r) ra Cj An Cr Ch (oval_st w cmem m r I)) as [X Y].
  split; [exact X | split; [exact Y|]].
  rewrite (halts_jump_iff act _ _ _ (act_j w code cmem p m nlp N Cj An)). tauto.
Qed.

End TimeTravel.

(* Satisfiability examples (w = 2, 16 bytes of state, all zero) *)
Section Examples.
Let m16 := zmem 16.
Let cm := zmem 0.
Notation A c := (act 2 c cm).

(* body = `j 1; halt` (loops: never halts) -> body committed; body = `halt` -> undo block *)
Example undo_idiom_ex_commit : let c := code_of [IJ (Imm 3); IJ (Imm 1); IHalt; IHalt] in
  runs (A c) (mk 0 m16) [] (mk 1 m16) /\ ~ Halts (A c) (mk 0 m16).
Proof.
  intro c. destruct (undo_idiom 2 c cm 0 m16 (Imm 3) 3) as [X _]; try reflexivity.
  destruct X as [R [N _]]; [|split; assumption].
  apply stub_absorbing; [reflexivity | lia].
Qed.
Example undo_idiom_ex_undo : let c := code_of [IJ (Imm 3); IHalt; IHalt; IFlag 0] in
  runs (A c) (mk 0 m16) [] (mk 3 m16).
Proof.
  intro c. destruct (undo_idiom 2 c cm 0 m16 (Imm 3) 3) as [_ X]; try reflexivity.
  apply X. apply H_halt. reflexivity.
Qed.
Example undo_commit_ex : let c := code_of [IJ (Imm 4); IYield (Imm 65); IJ (Imm 5); IHalt; IHalt; IJ (Imm 5); IHalt] in
  csteps (A c) (mk 0 m16) [EOut 65] (mk 5 m16).
Proof.
  intro c.
  refine (proj2 (proj2 (undo_commit 2 c cm 0 m16 (Imm 4) 4 2 m16 [EOut 65] (Imm 5) 5 _ _ _ _ _ _ _))); try reflexivity.
  - apply (runs_next (A c) (mk 1 m16) (mk 2 m16) (Some (EOut 65))). reflexivity.
  - apply stub_absorbing; [reflexivity | lia].
Qed.

(* preempt, static: END = 4 halts -> block at 3 runs; END = 4 loops -> skipped *)
Example preempt_static_ex_runs : let c := code_of [IJ (Imm 3); IJ (Imm 4); IHalt; IFlag 0; IHalt] in
  runs (A c) (mk 0 m16) [] (mk 3 m16).
Proof.
  intro c. destruct (preempt_idiom_static 2 c cm 0 m16 (Imm 3) 3 (Imm 4) 4) as [X _]; try reflexivity.
  apply X. apply H_halt. reflexivity.
Qed.
Example preempt_static_ex_skips : let c := code_of [IJ (Imm 3); IJ (Imm 4); IHalt; IFlag 0; IJ (Imm 4); IHalt] in
  runs (A c) (mk 0 m16) [] (mk 4 m16) /\ ~ Halts (A c) (mk 0 m16).
Proof.
  intro c. destruct (preempt_idiom_static 2 c cm 0 m16 (Imm 3) 3 (Imm 4) 4) as [_ X]; try reflexivity.
  apply X. apply stub_absorbing; [reflexivity | lia].
Qed.
(* preempt, virtual: defeat word [8] = 0, halt address 9: 0 <> 9 -> block runs *)
Example preempt_virtual_ex : let c := code_of [IJ (Imm 4); IHc Cne (St 8) (Imm 9); IJ (Imm 5); IHalt; IFlag 0; IFlag 0] in
  runs (A c) (mk 0 m16) [] (mk 4 m16).
Proof.
  intro c. destruct (preempt_idiom_virtual 2 c cm 0 m16 (Imm 4) 4 (Imm 5) 5 (St 8) (Imm 9) 0 9) as [X _]; try reflexivity.
  apply X. left. lia.
Qed.
Example preempt_virtual_ex_skips : let c := code_of [IJ (Imm 4); IHc Cne (St 8) (Imm 0); IJ (Imm 5); IHalt; IFlag 0; IJ (Imm 5); IHalt] in
  runs (A c) (mk 0 m16) [] (mk 5 m16) /\ ~ Halts (A c) (mk 0 m16).
Proof.
  intro c. destruct (preempt_idiom_virtual 2 c cm 0 m16 (Imm 4) 4 (Imm 5) 5 (St 8) (Imm 0) 0 0) as [_ X]; try reflexivity.
  apply X. split; [reflexivity|]. apply stub_absorbing; [reflexivity | lia].
Qed.
Example stale_defeat_forces_preempt_ex :   (* [8] = 0 is "stale" w.r.t. halt address 9; END loops, yet the block runs *)
  let c := code_of [IJ (Imm 4); IHc Cne (St 8) (Imm 9); IJ (Imm 5); IHalt; IFlag 0; IJ (Imm 5); IHalt] in
  cstep (A c) (mk 0 m16) None (mk 4 m16).
Proof.
  intro c. refine (proj2 (proj1 (preempt_idiom_virtual 2 c cm 0 m16 (Imm 4) 4 (Imm 5) 5 (St 8) (Imm 9) 0 9 _ _ _ _ _ _ _ _) _)); try reflexivity.
  left. lia.
Qed.

(* ??: r_out = [4] (0 = right), LEFT = nothing, left = 7 <> right = [6] = 0; continuation loops *)
Example speculation_ex : let c := code_of [IJ (Imm 3); IHc Ceq (Imm 7) (St 6); IMov (St 4) (Imm 7); IJ (Imm 3); IHalt] in
  runs (A c) (mk 0 m16) [] (mk 3 (sw 2 m16 4 7)) /\ ~ Halts (A c) (mk 0 m16).
Proof.
  intro c.
  destruct (speculation_idiom 2 c cm 0 m16 (Imm 3) [] 1 m16 (Imm 7) (St 6) 7 0 4) as [_ [X _]]; try reflexivity.
  - apply runs_refl.
  - apply X; [lia|]. apply stub_absorbing; [reflexivity | lia].
Qed.
Example speculation_ex_equal : let c := code_of [IJ (Imm 3); IHc Ceq (Imm 0) (St 6); IMov (St 4) (Imm 0); IFlag 0] in
  runs (A c) (mk 0 m16) [] (mk 3 m16).
Proof.
  intro c.
  destruct (speculation_idiom 2 c cm 0 m16 (Imm 3) [] 1 m16 (Imm 0) (St 6) 0 0 4) as [X _]; try reflexivity.
  - apply runs_refl.
  - apply X. reflexivity.
Qed.
Example speculation_value_ex : let c := code_of [IJ (Imm 3); IHc Ceq (Imm 7) (St 6); IMov (St 4) (Imm 7); IJ (Imm 3); IHalt] in
  exists mf evf, runs (A c) (mk 0 m16) evf (mk 3 mf) /\ lw 2 mf 4 = 7.
Proof.
  intro c.
  destruct (speculation_value 2 ltac:(lia) c cm 0 m16 (Imm 3) [] 1 m16 (Imm 7) (St 6) 7 0 4) as [mf [evf [R [V _]]]];
    try reflexivity; try zc.
  - apply runs_refl.
  - apply stub_absorbing; [reflexivity | lia].
  - exists mf, evf. split; [exact R | exact V].
Qed.
Example speculation_nomov_ex : let c := code_of [IJ (Imm 2); IHc Ceq (St 4) (St 6); IFlag 0] in
  runs (A c) (mk 0 m16) [] (mk 2 m16).
Proof.
  intro c. destruct (speculation_idiom_nomov 2 c cm 0 m16 (Imm 2) [] 1 m16 (St 4) (St 6) 0 0) as [X _]; try reflexivity.
  - apply runs_refl.
  - apply X. reflexivity.
Qed.
Example speculation_left_defeated_ex : let c := code_of [IJ (Imm 2); IHalt; IFlag 0] in
  runs (A c) (mk 0 m16) [] (mk 2 m16).
Proof.
  intro c. refine (proj1 (proj1 (jump_idiom 2 c cm 0 m16 (Imm 2) 2 [] _ _ _ (runs_refl _ _)) _)); try reflexivity.
  apply H_halt. reflexivity.
Qed.

(* defeat calls: defeat word [8] = 0 -> handler address 0 *)
Example defeat_call_static_ex : let c := code_of [IHalt] in Halts (A c) (mk 0 m16).
Proof. intro c. apply (defeat_call_static 2 c cm). reflexivity. Qed.
Example defeat_call_virtual_ex : let c := code_of [IFlag 0; IJ (St 8); IHalt] in
  runs (A c) (mk 1 m16) [] (mk 0 m16).
Proof. intro c. apply (defeat_call_virtual 2 c cm 1 m16 8); reflexivity. Qed.
Example stale_defeat_reenters_handler_ex : let c := code_of [IFlag 0; IJ (St 8); IHalt] in
  cstep (A c) (mk 1 m16) None (mk 0 m16).
Proof. intro c. apply (defeat_call_virtual 2 c cm 1 m16 8); reflexivity. Qed.
Example defeat_call_virtual_cond_ex_true : let c := code_of [IFlag 0; IJ (St 8); IHc Ceq (St 4) (Imm 0)] in
  runs (A c) (mk 1 m16) [] (mk 0 m16).
Proof.
  intro c. destruct (defeat_call_virtual_cond 2 c cm 1 m16 8 Ceq (St 4) (Imm 0) 0 0) as [X _]; try reflexivity.
  apply X. reflexivity.
Qed.
Example defeat_call_virtual_cond_ex_false : let c := code_of [IFlag 0; IJ (St 8); IHc Cne (St 4) (Imm 0); IJ (Imm 3); IHalt] in
  runs (A c) (mk 1 m16) [] (mk 3 m16) /\ ~ Halts (A c) (mk 1 m16).
Proof.
  intro c. destruct (defeat_call_virtual_cond 2 c cm 1 m16 8 Cne (St 4) (Imm 0) 0 0) as [_ [X _]]; try reflexivity.
  apply X; [reflexivity|]. apply stub_absorbing; [reflexivity | lia].
Qed.
(* third case: the condition is false, the continuation halts: control goes to the handler *)
Example defeat_call_virtual_cond_ex_hijack : let c := code_of [IFlag 0; IJ (St 8); IHc Cne (St 4) (Imm 0); IHalt] in
  cstep (A c) (mk 1 m16) None (mk 0 m16).
Proof.
  intro c. destruct (defeat_call_virtual_cond 2 c cm 1 m16 8 Cne (St 4) (Imm 0) 0 0) as [_ [_ X]]; try reflexivity.
  apply X; [reflexivity|]. apply H_halt. reflexivity.
Qed.

(* try/stop: defeat word [8], handler 7, halt address 9; body at 3 loops -> committed with halt *)
Example stop_idiom_ex_commit : let c := code_of [IMov (St 8) (Imm 7); IJ (Imm 3); IMov (St 8) (Imm 9); IJ (Imm 3); IHalt] in
  let m2 := sw 2 (sw 2 m16 8 7) 8 9 in
  runs (A c) (mk 0 m16) [] (mk 3 m2) /\ lw 2 m2 8 = 9.
Proof.
  intros c m2.
  destruct (stop_idiom 2 ltac:(lia) c cm 0 m16 8 (Imm 7) (Imm 3) (Imm 9) 7 9) as [X _]; try reflexivity; try lia.
  destruct X as [R [_ L]]; [|split; [exact R | exact L]].
  apply stub_absorbing; [reflexivity | lia].
Qed.
(* body at 3 is a static defeat (halt) -> re-entered with defeat = handler *)
Example stop_idiom_ex_handler : let c := code_of [IMov (St 8) (Imm 7); IJ (Imm 3); IMov (St 8) (Imm 9); IHalt] in
  let m1 := sw 2 m16 8 7 in
  runs (A c) (mk 0 m16) [] (mk 3 m1) /\ lw 2 m1 8 = 7.
Proof.
  intros c m1.
  destruct (stop_idiom 2 ltac:(lia) c cm 0 m16 8 (Imm 7) (Imm 3) (Imm 9) 7 9) as [_ X]; try reflexivity; try lia.
  apply X. apply H_halt. reflexivity.
Qed.
(* prologue + handler entry: ap=[0], fp=[2] (=14), try_fp=[10], defeat=[8], slot = fp-2 = 12 *)
Definition m_stop : mem := sw 2 (zmem 16) 2 14.
Example stop_prologue_ex : let c := code_of [IStoreO WWord (St 2) (Imm (-2)) (St 0); IMov (St 10) (St 2)] in
  exists m', runs (A c) (mk 0 m_stop) [] (mk 2 m') /\ lw 2 m' 10 = 14 /\ lw 2 m' 12 = 0.
Proof.
  intro c.
  destruct (stop_prologue 2 ltac:(lia) c cm 0 m_stop 2 0 10 (-2)) as [R [L1 L2]]; try reflexivity; try zc.
  exists (sw 2 (sw 2 m_stop 12 0) 10 14). split; [exact R|]. split; vm_compute; reflexivity.
Qed.
Definition m_hand : mem := sw 2 (sw 2 (zmem 16) 10 14) 8 7.   (* try_fp = 14, defeat = 7 = handler *)
Example stop_leaves_defeat_stale_ex : let c := code_of [IMov (St 2) (St 10); ILoadO WWord SState (St 0) (St 2) (Imm (-2))] in
  exists m', runs (A c) (mk 0 m_hand) [] (mk 2 m') /\ lw 2 m' 8 = 7 /\ lw 2 m' 8 <> 9.
Proof.
  intro c.
  destruct (stop_handler_entry_without_reset 2 ltac:(lia) c cm 0 m_hand 2 0 10 (-2) 8) as [R [_ [_ [_ L]]]];
    try reflexivity; try zc.
  eexists. split; [exact R|]. rewrite L. split; [reflexivity | discriminate].
Qed.
(* a later try/undo whose body yields 'A' and then calls a virtual defeat ([8] = defeat word) *)
Definition c_undo := code_of [IJ (Imm 5); IYield (Imm 65); IJ (St 8); IHalt; IHalt; IFlag 0; IHalt; IJ (Imm 7); IHalt].
Example undo_with_fresh_defeat_ex :   (* defeat word = 6 where `halt` lives: undo block at 5 runs, no output *)
  cstep (A c_undo) (mk 0 (sw 2 m16 8 6)) None (mk 5 (sw 2 m16 8 6)).
Proof.
  refine (proj2 (undo_with_fresh_defeat 2 c_undo cm 0 (sw 2 m16 8 6) (Imm 5) 5 [EOut 65] 2 (sw 2 m16 8 6) 8 6 _ _ _ _ _ _ _ _)); try reflexivity.
  apply (runs_next (A c_undo) (mk 1 _) (mk 2 _) (Some (EOut 65))). reflexivity.
Qed.
Example undo_with_stale_defeat_ex :   (* defeat word = 7, a stale handler that loops: body committed, 'A' is output *)
  csteps (A c_undo) (mk 0 (sw 2 m16 8 7)) [EOut 65] (mk 7 (sw 2 m16 8 7)).
Proof.
  refine (proj2 (proj2 (undo_commit 2 c_undo cm 0 (sw 2 m16 8 7) (Imm 5) 5 2 (sw 2 m16 8 7) [EOut 65] (St 8) 7 _ _ _ _ _ _ _))); try reflexivity.
  - apply (runs_next (A c_undo) (mk 1 _) (mk 2 _) (Some (EOut 65))). reflexivity.
  - apply stub_absorbing; [reflexivity | lia].
Qed.
(* the handler entry with the reset: defeat=[8] (stale 7), halt address 9 *)
Example stop_handler_entry_resets_defeat_ex :
  let c := code_of [IMov (St 8) (Imm 9); IMov (St 2) (St 10); ILoadO WWord SState (St 0) (St 2) (Imm (-2))] in
  exists m', runs (A c) (mk 0 m_hand) [] (mk 3 m') /\ lw 2 m' 8 = wrap 2 9 /\ lw 2 m' 2 = wrap 2 (lw 2 m_hand 10).
Proof.
  intro c.
  destruct (stop_handler_entry 2 ltac:(lia) c cm 0 m_hand 2 0 10 (-2) 8 (Imm 9) 9) as [R [Ld [Lf _]]];
    try reflexivity; try zc.
  eexists. split; [exact R | split; [exact Ld | exact Lf]].
Qed.
(* whole story at w = 2.  ap=[0] fp=[2] defeat=[8] try_fp=[10]; fp = try_fp = 14.
    0 mov [8],5 (handler)   1 j 3   2 mov [8],13 (halt)   3 j [8]; 4 halt   (body = !is_defeat())
    5 mov [8],13   6 mov [2],[10]   7 lwso [0],[2],-2   (handler entry)   8 flag 0 (stop block)
    9 j 12 (a later try/undo)   10 j [8]; 11 halt (its body = !is_defeat())   12 flag 0 (undo block)
   13 halt: halt *)
Definition c_story := code_of [IMov (St 8) (Imm 5); IJ (Imm 3); IMov (St 8) (Imm 13); IJ (St 8); IHalt;
  IMov (St 8) (Imm 13); IMov (St 2) (St 10); ILoadO WWord SState (St 0) (St 2) (Imm (-2)); IFlag 0;
  IJ (Imm 12); IJ (St 8); IHalt; IFlag 0; IHalt].
Definition m_story : mem := sw 2 (sw 2 (zmem 16) 10 14) 2 14.
Definition m_story_end : mem := sw 2 (sw 2 (sw 2 (sw 2 m_story 8 5) 8 13) 2 14) 0 0.
Example stop_fired_then_undo_behaves_ex :
  runs (A c_story) (mk 0 m_story) [] (mk 8 m_story_end) /\ lw 2 m_story_end 8 = 13 /\
  cstep (A c_story) (mk 9 m_story_end) None (mk 12 m_story_end).
Proof.
  destruct (stop_fired_then_undo_behaves 2 ltac:(lia) c_story cm
              0 m_story 8 (Imm 5) (Imm 3) (Imm 13) 5 13 [] 3 (sw 2 m_story 8 5) 2 0 10 (-2) (Imm 13))
    as [R [L U]]; try reflexivity; try zc.
  - (* the body with defeat = halt (13) halts: j [8] -> 13: halt *)
    eapply H_jump; [reflexivity | |]; apply H_halt; reflexivity.
  - apply runs_refl.
  - split; [exact R | split; [exact L|]].
    refine (proj2 (U 9 m_story_end (Imm 12) 12 [] 10 m_story_end _ _ _ _ _ _ _)); try reflexivity.
    apply runs_refl.
Qed.
Example return_protection_ex : let c := code_of [IJ (Imm 3); IJ (St 4); IHalt; IJ (Imm 3); IHalt] in
  ~ Halts (A c) (mk 0 m16).
Proof.
  intro c. refine (proj2 (proj2 (return_protection_idiom 2 c cm 0 m16 (Imm 3) 3 4 _ _ _ _ _)) _); try reflexivity.
  apply stub_absorbing; [reflexivity | lia].
Qed.
End Examples.

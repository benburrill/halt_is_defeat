(* The strict literal grammar of the assembler model (DESIGN §10, Assembler): what a string / character
   literal in the emitted text denotes.  Accepts only printable ASCII other than backslash and
   the quote, and the escapes backslash-backslash, backslash-quote (either quote), backslash-n,
   backslash-r and backslash-x followed by two hex digits.  Mirrors tools/sasm.py:parse_str (the
   harness assembler), which is compared with it by the C13 correspondence.
   `memz`, `hexdigit` and `hex2` are the vocabulary of the other direction: Gen/GenEscape.v, printed
   from hidc/codegen/asm.py:_escape_bytes, is written in them, and Codegen/EscapeProofs.v proves
   that `unescape` undoes it and that it emits only `safe_char`s. *)
From Coq Require Import ZArith List Bool Lia.
Import ListNotations.
Open Scope Z_scope.

Definition memz (b : Z) (l : list Z) : bool := existsb (Z.eqb b) l.

Definition hexdigit (d : Z) : Z := if d <? 10 then 48 + d else 87 + d.   (* lowercase, as %02x *)
Definition hex2 (b : Z) : list Z := [hexdigit (b / 16); hexdigit (b mod 16)].

Definition unhex (c : Z) : option Z :=
  if (48 <=? c) && (c <=? 57) then Some (c - 48)
  else if (97 <=? c) && (c <=? 102) then Some (c - 87)
  else if (65 <=? c) && (c <=? 70) then Some (c - 55)
  else None.

Definition printable (c : Z) : bool := (32 <=? c) && (c <=? 126).

Definition cons_res (v : Z) (o : option (list Z * list Z)) : option (list Z * list Z) :=
  match o with Some (bs, rest) => Some (v :: bs, rest) | None => None end.

(* [unescape q s]: s starts just after the opening quote q; returns the denoted bytes and the
   text after the closing quote, or None if the literal is ill-formed. *)
Fixpoint unescape (q : Z) (s : list Z) : option (list Z * list Z) :=
  match s with
  | [] => None
  | c :: r =>
      if c =? q then Some ([], r)
      else if c =? 92 then
        match r with
        | [] => None
        | n :: r1 =>
            if n =? 120 then
              match r1 with
              | h1 :: h2 :: r2 =>
                  match unhex h1, unhex h2 with
                  | Some a, Some b => cons_res (16 * a + b) (unescape q r2)
                  | _, _ => None
                  end
              | _ => None
              end
            else
              if n =? 110 then cons_res 10 (unescape q r1)
              else if n =? 114 then cons_res 13 (unescape q r1)
              else if (n =? 92) || (n =? 34) || (n =? 39) then cons_res n (unescape q r1)
              else None
        end
      else if printable c then
        cons_res c (unescape q r)
      else None
  end.

(* no raw byte that could break the line/token structure of the assembly file *)
Definition safe_char (q c : Z) : bool := printable c && negb (c =? q).

Lemma unhex_hexdigit d : 0 <= d < 16 -> unhex (hexdigit d) = Some d.
Proof.
  intros H. unfold hexdigit, unhex.
  destruct (d <? 10) eqn:E.
  - apply Z.ltb_lt in E.
    replace ((48 <=? 48 + d) && (48 + d <=? 57)) with true
      by (symmetry; apply andb_true_intro; split; apply Z.leb_le; lia).
    f_equal; lia.
  - apply Z.ltb_ge in E.
    replace ((48 <=? 87 + d) && (87 + d <=? 57)) with false
      by (symmetry; apply andb_false_intro2; apply Z.leb_gt; lia).
    replace ((97 <=? 87 + d) && (87 + d <=? 102)) with true
      by (symmetry; apply andb_true_intro; split; apply Z.leb_le; lia).
    f_equal; lia.
Qed.

Lemma hexdigit_range d : 0 <= d < 16 -> 48 <= hexdigit d <= 102.
Proof. intros H; unfold hexdigit; destruct (d <? 10) eqn:E; [apply Z.ltb_lt in E | apply Z.ltb_ge in E]; lia. Qed.

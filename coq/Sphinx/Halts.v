(* Turing-jump metatheory, for any action function over Machine.state.
   `j X` jumps iff not jumping leads to halting; "leads to halting" is the least fixed point
   Halts below, in which later jumps obey the same rule. *)
From Coq Require Import List.
From HidV Require Import Machine.
Import ListNotations.

Section TJ.
Variable act : state -> action.

Inductive Halts : state -> Prop :=
| H_halt s : act s = AHalt -> Halts s
| H_next s s' e : act s = ANext s' e -> Halts s' -> Halts s
| H_jump s sn sj : act s = AJump sn sj -> Halts sn -> Halts sj -> Halts s.

Inductive cstep : state -> option event -> state -> Prop :=
| C_next s s' e : act s = ANext s' e -> cstep s e s'
| C_fall s sn sj : act s = AJump sn sj -> ~ Halts sn -> cstep s None sn
| C_take s sn sj : act s = AJump sn sj -> Halts sn -> cstep s None sj.

Inductive csteps : state -> list event -> state -> Prop :=
| CS_refl s : csteps s [] s
| CS_tau s s' s'' l : cstep s None s' -> csteps s' l s'' -> csteps s l s''
| CS_ev s s' s'' v l : cstep s (Some v) s' -> csteps s' l s'' -> csteps s (v :: l) s''.

Inductive cplus : state -> state -> Prop :=
| P_one s e s' : cstep s e s' -> cplus s s'
| P_more s e s' s'' : cstep s e s' -> cplus s' s'' -> cplus s s''.

(* any successor, committed or not *)
Inductive succ : state -> state -> Prop :=
| S_next s s' e : act s = ANext s' e -> succ s s'
| S_l s sn sj : act s = AJump sn sj -> succ s sn
| S_r s sn sj : act s = AJump sn sj -> succ s sj.
Inductive splus : state -> state -> Prop :=
| SP_one s s' : succ s s' -> splus s s'
| SP_more s s' s'' : succ s s' -> splus s' s'' -> splus s s''.

Ltac uniq := repeat match goal with
  | H1 : act ?s = _, H2 : act ?s = _ |- _ => rewrite H1 in H2; inversion H2; subst; clear H2 end.

Lemma halts_next_inv s s' e : act s = ANext s' e -> Halts s -> Halts s'.
Proof. intros A H; inversion H; subst; uniq; try congruence; assumption. Qed.
Lemma halts_jump_inv s a b : act s = AJump a b -> Halts s -> Halts a /\ Halts b.
Proof. intros A H; inversion H; subst; uniq; try congruence; tauto. Qed.
Lemma halts_fault_inv s : act s = AFault -> ~ Halts s.
Proof. intros A H; inversion H; subst; congruence. Qed.
Lemma halts_next_iff s s' e : act s = ANext s' e -> (Halts s <-> Halts s').
Proof. intros A; split; [apply (halts_next_inv _ _ _ A) | apply (H_next _ _ _ A)]. Qed.
Lemma halts_jump_iff s a b : act s = AJump a b -> (Halts s <-> Halts a /\ Halts b).
Proof. intros A; split; [apply (halts_jump_inv _ _ _ A) | intros [Ha Hb]; exact (H_jump _ _ _ A Ha Hb)]. Qed.

Lemma halts_cstep s e s' : cstep s e s' -> (Halts s <-> Halts s').
Proof.
  intros [? ? ? A | ? ? ? A N | ? ? ? A H]; [exact (halts_next_iff _ _ _ A) | |];
    apply halts_jump_iff in A; tauto.
Qed.
Lemma halts_csteps s l s' : csteps s l s' -> (Halts s <-> Halts s').
Proof.
  induction 1 as [s|s s' s'' l C _ IH|s s' s'' v l C _ IH]; [reflexivity | |];
    exact (iff_trans (halts_cstep _ _ _ C) IH).
Qed.
Lemma halts_cplus s s' : cplus s s' -> (Halts s <-> Halts s').
Proof.
  induction 1 as [s e s' C|s e s' s'' C _ IH];
    [exact (halts_cstep _ _ _ C) | exact (iff_trans (halts_cstep _ _ _ C) IH)].
Qed.

Lemma cstep_det s e1 a e2 b : cstep s e1 a -> cstep s e2 b -> a = b /\ e1 = e2.
Proof.
  intros A B.
  destruct A as [s a e1 A|s a sj A N|s sn a A H]; destruct B as [s b e2 B|s b sj' B N'|s sn' b B H'];
    rewrite A in B; try discriminate B; injection B as -> ->.
  (* same rule twice, or the fall-through both halts and does not *)
  all: try (split; reflexivity); contradiction.
Qed.

Lemma cstep_succ s e s' : cstep s e s' -> succ s s'.
Proof. inversion 1; subst; eauto using succ. Qed.
Lemma cplus_splus s s' : cplus s s' -> splus s s'.
Proof. induction 1; eauto using splus, cstep_succ. Qed.

Lemma splus_snoc s s' s'' : splus s s' -> succ s' s'' -> splus s s''.
Proof. induction 1; intros; eauto using splus. Qed.
Lemma splus_trans s s' s'' : splus s s' -> splus s' s'' -> splus s s''.
Proof. induction 1; intros; eauto using splus. Qed.
Lemma cplus_snoc s s' e s'' : cplus s s' -> cstep s' e s'' -> cplus s s''.
Proof. induction 1; intros; eauto using cplus. Qed.
Lemma cplus_trans s s' s'' : cplus s s' -> cplus s' s'' -> cplus s s''.
Proof. induction 1; intros; eauto using cplus. Qed.

Lemma csteps_app s l s' l' s'' : csteps s l s' -> csteps s' l' s'' -> csteps s (l ++ l') s''.
Proof. induction 1; simpl; intros; eauto using csteps. Qed.

(* No state on a cycle of successors halts: a halting derivation would contain itself.  The cycle
   through s starts with an edge to a successor s', which lies on the same cycle; the derivation
   of `Halts s` holds one of `Halts s'`, and the induction is on it. *)
Lemma cycle_rotate s : splus s s -> exists s', succ s s' /\ splus s' s'.
Proof.
  intros C. inversion C as [a b S|a b c S R]; subst.
  - exists s. split; assumption.
  - exists b. split; [exact S | exact (splus_snoc _ _ _ R S)].
Qed.
Lemma succ_cycle_not_halts s : splus s s -> ~ Halts s.
Proof.
  intros C H. induction H as [s E|s s' e E H IH|s sn sj E Hn IHn Hj IHj];
    destruct (cycle_rotate s C) as (s1 & S & C1); inversion S; subst; uniq; auto.
Qed.
Lemma cycle_not_halts s : cplus s s -> ~ Halts s.
Proof. intros C; apply succ_cycle_not_halts, cplus_splus, C. Qed.

(* coinduction principle: a set of states closed under "is not a halt and has a successor in the
   set" contains no halting state (angelic choice at jumps). *)
Lemma safe_set (S : state -> Prop) :
  (forall s, S s -> act s <> AHalt /\ exists s', succ s s' /\ S s') ->
  forall s, S s -> ~ Halts s.
Proof.
  intros Hc s Hs Hh. revert Hs. induction Hh; intros Hs;
  destruct (Hc _ Hs) as [Hn [s'' [Hsucc HS]]]; try congruence;
  inversion Hsucc; subst; uniq; auto.
Qed.

(* The judgement in which all code-level proofs compose.  The committed steps are promised only
   if s' does not halt: when it does, a jump on the way from s may have been taken instead of
   fallen through (runs_jump), and no committed step leads through its fall-through. *)
Definition runs (s : state) (l : list event) (s' : state) : Prop :=
  (Halts s <-> Halts s') /\ (~ Halts s' -> csteps s l s').

Lemma runs_refl s : runs s [] s.
Proof. split; [tauto | intros; constructor]. Qed.
Lemma runs_trans s l s' l' s'' : runs s l s' -> runs s' l' s'' -> runs s (l ++ l') s''.
Proof.
  intros [E1 P1] [E2 P2]; split; [tauto|].
  intros N. eapply csteps_app; [apply P1; tauto | apply P2; assumption].
Qed.
Definition evl (e : option event) : list event := match e with Some v => [v] | None => [] end.
Lemma runs_next s s' e : act s = ANext s' e -> runs s (evl e) s'.
Proof.
  intros A; split; [exact (halts_next_iff _ _ _ A)|].
  intros _. destruct e; simpl; [eapply CS_ev | eapply CS_tau]; try (apply C_next; eassumption); constructor.
Qed.
Lemma runs_silent s l s' s'' : runs s l s' -> runs s' [] s'' -> runs s l s''.
Proof. intros A B. rewrite <- (app_nil_r l). exact (runs_trans s l s' [] s'' A B). Qed.

(* The Turing jump against a run of its fall-through.  Where that run ends decides the jump: if
   the end state halts, the jump is taken and nothing of the run is committed; if it does not,
   the run is the committed one. *)
Lemma runs_jump s sn sj l s' : act s = AJump sn sj -> runs sn l s' ->
  (Halts s' -> runs s [] sj /\ cstep s None sj) /\
  (~ Halts s' -> (runs s l s' /\ ~ Halts s) /\ cstep s None sn).
Proof.
  intros A [E P]. pose proof (halts_jump_iff _ _ _ A) as J. split; intros X.
  - assert (C : cstep s None sj) by (eapply C_take; [exact A | tauto]).
    split; [split; [tauto | intros _; exact (CS_tau _ _ _ _ C (CS_refl _))] | exact C].
  - assert (C : cstep s None sn) by (eapply C_fall; [exact A | tauto]).
    split; [split; [split; [tauto | intros _; exact (CS_tau _ _ _ _ C (P X))] | tauto] | exact C].
Qed.
(* a jump whose target halts is invisible: the run of its fall-through is its own *)
Lemma runs_jump_dead s sn sj l s' : act s = AJump sn sj -> Halts sj -> runs sn l s' -> runs s l s'.
Proof.
  intros A Hj [E P]. pose proof (halts_jump_iff _ _ _ A) as J. split; [tauto|].
  intros N. assert (Nn : ~ Halts sn) by tauto. exact (CS_tau _ _ _ _ (C_fall _ _ _ A Nn) (P N)).
Qed.

(* `j X; halt` *)
Lemma runs_goto s sn sj : act s = AJump sn sj -> act sn = AHalt -> runs s [] sj.
Proof. intros A B. exact (proj1 (proj1 (runs_jump s sn sj [] sn A (runs_refl sn)) (H_halt sn B))). Qed.
(* branch taken: the fall-through halts at once; the target's first instruction (the inverse
   condition) passes *)
Lemma runs_branch_taken s sn sj sj' : act s = AJump sn sj -> act sn = AHalt ->
  act sj = ANext sj' None -> runs s [] sj'.
Proof. intros A B C. exact (runs_trans s [] sj [] sj' (runs_goto s sn sj A B) (runs_next sj sj' None C)). Qed.
(* branch not taken: the fall-through's conditional halt passes; the target's inverse halts.
   The inverse at the target is what makes Halts propagate backwards (<-): without it a later
   halt on the fall-through path would make the jump escape to the target instead. *)
Lemma runs_branch_fall s sn sj sn' : act s = AJump sn sj -> act sn = ANext sn' None ->
  act sj = AHalt -> runs s [] sn'.
Proof. intros A B C. exact (runs_jump_dead s sn sj [] sn' A (H_halt sj C) (runs_next sn sn' None B)). Qed.

Lemma runs_not_halts s l s' : runs s l s' -> ~ Halts s' -> ~ Halts s /\ csteps s l s'.
Proof. intros [E P] N; split; [tauto | auto]. Qed.

End TJ.

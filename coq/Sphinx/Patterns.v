(* Verified idiom classifier: the tie between the idiom theorems (Idioms.v, TimeTravel.v,
   Guards.v) and the code the generator emits TODAY.

   `classify cfg prog pc` is an executable recogniser: at a `j` instruction of a concrete program
   (code address = index in `prog`, looked up through Driver.mkcode) it names the idiom the jump
   belongs to, with its parameters -- or answers None.  Every side condition that matters for
   soundness is CHECKED by the recogniser: the conditional halt of a branch is directly at pc+1;
   the branch target carries the inverse condition on the SAME operands, the pair taken from the
   regenerated table GenTables.halt_inversion; the `halt` of a goto really follows; the
   continuation label of a guard is exactly the instruction after its `halt`; error targets
   start with `flag`; label immediates are code addresses inside the program and below W.

   `classify_sound : classify_code cfg code pc = Some i -> premises_of cfg code pc i`, where
   `premises_of` is, constructor by constructor, the code-shape hypothesis list of the
   corresponding idiom theorem.  Props/Patterns_props.v (and C08_restore.v for `Call`) applies
   those theorems to classified jumps, so that what remains to be assumed about one is only
   semantic (Halts / runs of the surrounding code, in-bounds registers), never the shape of the
   code.

   tools/corr_patterns.py runs the extracted recogniser over every `j` of every program hidc
   emits in its streams (checked and unchecked, several word sizes): each must classify. *)
From Coq Require Import ZArith List Bool Lia FMapPositive.
From HidV Require Import Machine MemLemmas GenTables OpTables Driver.
Import ListNotations.
Open Scope Z_scope.

Inductive idiom :=
| Goto (X : Z)                                             (* j X; halt *)
| GotoReg (r : Z)                                          (* j [r]; halt  (return) *)
| Branch (cc cc' : cond) (a b : operand) (L : Z)           (* j L; hcc a,b ...  L: hcc' a,b *)
| BranchBool (v : operand) (L : Z)                         (* j L; hne v,0 ...  L: heq v,0 *)
| BoolNormalise (r : Z)                                    (* j N; hleu [r],1; mov [r],1; N: hgtu [r],1 *)
| Guard (cc : cond) (a b : operand) (E : Z)                (* j OK; hcc a,b; j E; halt; OK: *)
| GuardEntry (r1 fp ap N E : Z)                            (* j OK; sub r1,fp,ap; hgeu r1,N; j E; halt; OK: *)
| GuardVla (r1 fp ap N' : Z) (size : operand) (E : Z)      (* ... two subs ... hgeu r1,size *)
| Undo (H : Z)                                             (* j H; BODY; j E; halt; H: *)
| PreemptStatic (D E : Z)                                  (* j D; j E; halt; D: *)
| PreemptVirtual (D E h : Z)                               (* j D; hne [defeat],h; j E; halt; D: *)
| Speculation (E : Z) (lop rop : operand) (rout : Z)       (* j E; LEFT; heq l,r; mov [rout],l; E: *)
| SpeculationNoMov (E : Z) (lop rop : operand)             (* j E; LEFT; heq l,r; E: *)
| DefeatVirtual                                            (* j [defeat]; halt *)
| DefeatVirtualCond (cc : cond) (a b : operand)            (* j [defeat]; hcc a,b *)
| StopInstall (H h fp ap tfp k : Z)                        (* mov [defeat],H; j B; mov [defeat],h; B:
                                                              with H: mov [defeat],h; mov [fp],[tfp]; lwso [ap],[fp],k *)
| ReturnProtection (N r : Z)                               (* j N; j [r]; halt *)
| Call (F fp off : Z).                                     (* add [fp],[fp],-off; j F; halt; add [fp],[fp],off *)

(* what the recogniser is told about the program: word size, address of the `defeat` word *)
Record cfg := mkcfg { cw : Z; cdefeat : option Z }.

Definition operand_eqb (a b : operand) : bool :=
  match a, b with
  | Imm x, Imm y => x =? y | St x, St y => x =? y | Cn x, Cn y => x =? y
  | _, _ => false
  end.
Lemma operand_eqb_eq a b : operand_eqb a b = true -> a = b.
Proof. destruct a, b; cbn; intros H; try discriminate; apply Z.eqb_eq in H; now subst. Qed.
Lemma cond_eqb_eq a b : cond_eqb a b = true -> a = b.
Proof. destruct a, b; cbn; intros H; try discriminate; reflexivity. Qed.

Definition in_inv (cc cc' : cond) : bool :=
  existsb (fun e => cond_eqb (fst e) cc && cond_eqb (snd e) cc') halt_inversion.
Lemma in_inv_In cc cc' : in_inv cc cc' = true -> In (cc, cc') halt_inversion.
Proof.
  unfold in_inv. rewrite existsb_exists. intros [[x y] [Hin H]]. cbn [fst snd] in H.
  apply andb_prop in H. destruct H as [H1 H2]. apply cond_eqb_eq in H1, H2. now subst.
Qed.

Definition inW (w L : Z) : bool := (0 <=? L) && (L <? 2 ^ (8 * w)).
Lemma inW_wrap w L : inW w L = true -> wrap w L = L.
Proof.
  unfold inW. intros H. apply andb_prop in H. destruct H as [H1 H2].
  apply Z.leb_le in H1. apply Z.ltb_lt in H2. unfold wrap, W. apply Z.mod_small. lia.
Qed.

Definition is_defeat (c : cfg) (r : Z) : bool :=
  match cdefeat c with Some d => d =? r | None => false end.
Lemma is_defeat_eq c r : is_defeat c r = true -> cdefeat c = Some r.
Proof. unfold is_defeat. destruct (cdefeat c); [|discriminate]. intros H. apply Z.eqb_eq in H. now subst. Qed.

Definition is_flag (o : option instr) : bool := match o with Some (IFlag _) => true | _ => false end.
Lemma is_flag_ex o : is_flag o = true -> exists f, o = Some (IFlag f).
Proof. destruct o as [[]|]; try discriminate. eauto. Qed.
Definition is_halt (o : option instr) : bool := match o with Some IHalt => true | _ => false end.
Lemma is_halt_eq o : is_halt o = true -> o = Some IHalt.
Proof. destruct o as [[]|]; try discriminate. reflexivity. Qed.
Definition present (o : option instr) : bool := match o with Some _ => true | None => false end.
Lemma present_ne o : present o = true -> o <> None.
Proof. destruct o; [discriminate | discriminate]. Qed.

Definition orelse (x y : option idiom) : option idiom := match x with Some _ => x | None => y end.
Lemma orelse_some x y i : orelse x y = Some i -> x = Some i \/ y = Some i.
Proof. destruct x; cbn; auto. Qed.

Section Classify.
Variable c : cfg.
Variable code : Z -> option instr.
Variable pc : Z.
Notation w := (cw c).

(* j X; halt -- and, when it is bracketed by the frame-pointer rebase of eval_func_call
   (pc-1: add [fp],[fp],-off ... pc+2: add [fp],[fp],off, same register, opposite offsets), a call *)
Definition try_goto (L : Z) : option idiom :=
  if is_halt (code (pc + 1)) then
    match code (pc - 1), code (pc + 2) with
    | Some (IArith Aadd (St f) (St f') (Imm n)), Some (IArith Aadd (St g) (St g') (Imm n')) =>
        if (f =? f') && (f =? g) && (f =? g') && (n + n' =? 0) then Some (Call L f n') else Some (Goto L)
    | _, _ => Some (Goto L)
    end
  else None.

(* j N; hleu [r],1; mov [r],1; N = pc+3: hgtu [r],1 *)
Definition try_boolnorm (L : Z) : option idiom :=
  match code (pc + 1), code (pc + 2), code (pc + 3) with
  | Some (IHc Cleu (St r) (Imm 1)), Some (IMov (St r') (Imm 1)), Some (IHc Cgtu (St r'') (Imm 1)) =>
      if (L =? pc + 3) && (r =? r') && (r =? r'') && in_inv Cleu Cgtu then Some (BoolNormalise r) else None
  | _, _, _ => None
  end.

(* j L; hcc a,b ... L: hcc' a,b  with (cc,cc') in the regenerated table *)
Definition try_branch (L : Z) : option idiom :=
  match code (pc + 1), code L with
  | Some (IHc cc a b), Some (IHc cc' a' b') =>
      if operand_eqb a a' && operand_eqb b b' && in_inv cc cc' then
        if cond_eqb cc Cne && cond_eqb cc' Ceq && operand_eqb b (Imm 0)
        then Some (BranchBool a L) else Some (Branch cc cc' a b L)
      else None
  | _, _ => None
  end.

(* j OK; hcc a,b; j E; halt; OK = pc+4   (E starts an error stub: `flag`)
   j D;  hne [defeat],h; j E; halt; D = pc+4   (virtual preempt; h is the address of `halt: halt`) *)
Definition try_guard (L : Z) : option idiom :=
  match code (pc + 1), code (pc + 2) with
  | Some (IHc cc a b), Some (IJ (Imm E)) =>
      if is_halt (code (pc + 3)) && (L =? pc + 4) && inW w E then
        match cc, a, b with
        | Cne, St d, Imm h =>
            if is_defeat c d then
              if inW w h && is_halt (code h) && present (code E) then Some (PreemptVirtual L E h) else None
            else if is_flag (code E) then Some (Guard cc a b E) else None
        | _, _, _ => if is_flag (code E) then Some (Guard cc a b E) else None
        end
      else None
  | _, _ => None
  end.

(* j N; j [r]; halt  (N a stub)   /   j D; j E; halt; D = pc+3 *)
Definition try_jj (L : Z) : option idiom :=
  match code (pc + 1) with
  | Some (IJ (St r)) =>
      if is_halt (code (pc + 2)) && is_flag (code L) then Some (ReturnProtection L r) else None
  | Some (IJ (Imm E)) =>
      if is_halt (code (pc + 2)) && (L =? pc + 3) && inW w E && present (code E) then Some (PreemptStatic L E) else None
  | _ => None
  end.

(* j OK; sub [r1],[fp],[ap]; hgeu [r1],N; j E; halt; OK = pc+5 *)
Definition try_entry (L : Z) : option idiom :=
  match code (pc + 1), code (pc + 2), code (pc + 3) with
  | Some (IArith Asub (St r1) (St fp) (St ap)), Some (IHc Cgeu (St r1') (Imm N)), Some (IJ (Imm E)) =>
      if (r1 =? r1') && is_halt (code (pc + 4)) && (L =? pc + 5) && inW w E && is_flag (code E)
      then Some (GuardEntry r1 fp ap N E) else None
  | _, _, _ => None
  end.

(* j OK; sub [r1],[fp],[ap]; sub [r1],[r1],N'; hgeu [r1],size; j E; halt; OK = pc+6 *)
Definition try_vla (L : Z) : option idiom :=
  match code (pc + 1), code (pc + 2), code (pc + 3), code (pc + 4) with
  | Some (IArith Asub (St r1) (St fp) (St ap)), Some (IArith Asub (St r1') (St r1'') (Imm N')),
    Some (IHc Cgeu (St r1''') size), Some (IJ (Imm E)) =>
      if (r1 =? r1') && (r1 =? r1'') && (r1 =? r1''') && is_halt (code (pc + 5)) && (L =? pc + 6)
         && inW w E && is_flag (code E)
      then Some (GuardVla r1 fp ap N' size E) else None
  | _, _, _, _ => None
  end.

(* pc-1: mov [defeat],H; pc: j B; pc+1: mov [defeat],h; B = pc+2;
   h is the address of `halt: halt`; the handler H starts with the reset `mov [defeat],h`
   followed by `mov [fp],[tfp]; lwso [ap],[fp],k` *)
Definition try_stop (L : Z) : option idiom :=
  match code (pc - 1), code (pc + 1) with
  | Some (IMov (St d) (Imm H)), Some (IMov (St d') (Imm h)) =>
      if is_defeat c d && (d =? d') && (L =? pc + 2) && inW w H && inW w h && is_halt (code h) then
        match code H, code (H + 1), code (H + 2) with
        | Some (IMov (St d'') (Imm h')), Some (IMov (St fp) (St tfp)), Some (ILoadO WWord SState (St ap) (St fp') (Imm k)) =>
            if (d =? d'') && (h =? h') && (fp =? fp') then Some (StopInstall H h fp ap tfp k) else None
        | _, _, _ => None
        end
      else None
  | _, _ => None
  end.

(* j E; LEFT; heq l,r; [mov [rout],l;] E: *)
Definition try_spec (L : Z) : option idiom :=
  if pc + 1 <? L then
    match code (L - 1) with
    | Some (IHc Ceq lop rop) => Some (SpeculationNoMov L lop rop)
    | Some (IMov (St rout) lop') =>
        match code (L - 2) with
        | Some (IHc Ceq lop rop) =>
            if operand_eqb lop lop' && (pc + 2 <? L) then Some (Speculation L lop rop rout) else None
        | _ => None
        end
    | _ => None
    end
  else None.

(* j H; BODY; j E; halt; H:
   This is the loosest shape (only the body's closing goto before H is seen), so it must not
   swallow a damaged branch: `j L; hcc a,b; ...; j E; halt; L: hcc'' c,d` whose target does not
   carry the inverse on the same operands is REFUSED here (an undo block never starts with a bare
   conditional halt: defeat calls are not allowed there), and therefore stays unclassified. *)
Definition looks_like_branch (L : Z) : bool :=
  match code (pc + 1), code L with
  | Some (IHc _ _ _), Some (IHc _ _ _) => true
  | _, _ => false
  end.
Definition try_undo (L : Z) : option idiom :=
  match code (L - 2) with
  | Some (IJ (Imm _)) =>
      if (pc + 2 <? L) && is_halt (code (L - 1)) && negb (looks_like_branch L) then Some (Undo L) else None
  | _ => None
  end.

Definition classify_imm (L : Z) : option idiom :=
  orelse (try_goto L) (orelse (try_boolnorm L) (orelse (try_branch L) (orelse (try_guard L)
  (orelse (try_jj L) (orelse (try_entry L) (orelse (try_vla L) (orelse (try_stop L)
  (orelse (try_spec L) (try_undo L))))))))).

Definition classify_code : option idiom :=
  match code pc with
  | Some (IJ (St r)) =>
      match code (pc + 1) with
      | Some IHalt => if is_defeat c r then Some DefeatVirtual else Some (GotoReg r)
      | Some (IHc cc a b) => if is_defeat c r then Some (DefeatVirtualCond cc a b) else None
      | _ => None
      end
  | Some (IJ (Imm L)) => if inW w L && present (code L) then classify_imm L else None
  | _ => None
  end.

Definition premises_of (i : idiom) : Prop :=
  match i with
  | Goto X => code pc = Some (IJ (Imm X)) /\ code (pc + 1) = Some IHalt /\ wrap w X = X /\ code X <> None
  | GotoReg r => code pc = Some (IJ (St r)) /\ code (pc + 1) = Some IHalt
  | Branch cc cc' a b L =>
      code pc = Some (IJ (Imm L)) /\ wrap w L = L /\ code (pc + 1) = Some (IHc cc a b) /\
      code L = Some (IHc cc' a b) /\ In (cc, cc') halt_inversion
  | BranchBool v L =>
      code pc = Some (IJ (Imm L)) /\ wrap w L = L /\ code (pc + 1) = Some (IHc Cne v (Imm 0)) /\
      code L = Some (IHc Ceq v (Imm 0)) /\ In (Cne, Ceq) halt_inversion
  | BoolNormalise r =>
      code pc = Some (IJ (Imm (pc + 3))) /\ wrap w (pc + 3) = pc + 3 /\
      code (pc + 1) = Some (IHc Cleu (St r) (Imm 1)) /\ code (pc + 2) = Some (IMov (St r) (Imm 1)) /\
      code (pc + 3) = Some (IHc Cgtu (St r) (Imm 1)) /\ In (Cleu, Cgtu) halt_inversion
  | Guard cc a b E =>
      code pc = Some (IJ (Imm (pc + 4))) /\ wrap w (pc + 4) = pc + 4 /\
      code (pc + 1) = Some (IHc cc a b) /\ code (pc + 2) = Some (IJ (Imm E)) /\
      code (pc + 3) = Some IHalt /\ wrap w E = E /\ exists f, code E = Some (IFlag f)
  | GuardEntry r1 fp ap N E =>
      code pc = Some (IJ (Imm (pc + 5))) /\ wrap w (pc + 5) = pc + 5 /\
      code (pc + 1) = Some (IArith Asub (St r1) (St fp) (St ap)) /\
      code (pc + 2) = Some (IHc Cgeu (St r1) (Imm N)) /\
      code (pc + 3) = Some (IJ (Imm E)) /\ code (pc + 4) = Some IHalt /\
      wrap w E = E /\ exists f, code E = Some (IFlag f)
  | GuardVla r1 fp ap N' size E =>
      code pc = Some (IJ (Imm (pc + 6))) /\ wrap w (pc + 6) = pc + 6 /\
      code (pc + 1) = Some (IArith Asub (St r1) (St fp) (St ap)) /\
      code (pc + 2) = Some (IArith Asub (St r1) (St r1) (Imm N')) /\
      code (pc + 3) = Some (IHc Cgeu (St r1) size) /\
      code (pc + 4) = Some (IJ (Imm E)) /\ code (pc + 5) = Some IHalt /\
      wrap w E = E /\ exists f, code E = Some (IFlag f)
  | Undo H =>
      code pc = Some (IJ (Imm H)) /\ wrap w H = H /\ code H <> None /\
      (exists E, code (H - 2) = Some (IJ (Imm E))) /\ code (H - 1) = Some IHalt /\ pc + 2 < H
  | PreemptStatic D E =>
      code pc = Some (IJ (Imm D)) /\ D = pc + 3 /\ wrap w D = D /\
      code (pc + 1) = Some (IJ (Imm E)) /\ code (pc + 2) = Some IHalt /\ wrap w E = E /\ code E <> None
  | PreemptVirtual D E h =>
      exists d, cdefeat c = Some d /\
      code pc = Some (IJ (Imm D)) /\ D = pc + 4 /\ wrap w D = D /\
      code (pc + 1) = Some (IHc Cne (St d) (Imm h)) /\ code (pc + 2) = Some (IJ (Imm E)) /\
      code (pc + 3) = Some IHalt /\ wrap w E = E /\ code E <> None /\ wrap w h = h /\ code h = Some IHalt
  | Speculation E lop rop rout =>
      code pc = Some (IJ (Imm E)) /\ wrap w E = E /\
      code (E - 2) = Some (IHc Ceq lop rop) /\ code (E - 1) = Some (IMov (St rout) lop) /\ pc + 2 < E
  | SpeculationNoMov E lop rop =>
      code pc = Some (IJ (Imm E)) /\ wrap w E = E /\ code (E - 1) = Some (IHc Ceq lop rop) /\ pc + 1 < E
  | DefeatVirtual =>
      exists d, cdefeat c = Some d /\ code pc = Some (IJ (St d)) /\ code (pc + 1) = Some IHalt
  | DefeatVirtualCond cc a b =>
      exists d, cdefeat c = Some d /\ code pc = Some (IJ (St d)) /\ code (pc + 1) = Some (IHc cc a b)
  | StopInstall H h fp ap tfp k =>
      exists d, cdefeat c = Some d /\
      code (pc - 1) = Some (IMov (St d) (Imm H)) /\ code pc = Some (IJ (Imm (pc + 2))) /\
      wrap w (pc + 2) = pc + 2 /\ code (pc + 1) = Some (IMov (St d) (Imm h)) /\
      wrap w H = H /\ wrap w h = h /\ code h = Some IHalt /\
      code H = Some (IMov (St d) (Imm h)) /\ code (H + 1) = Some (IMov (St fp) (St tfp)) /\
      code (H + 2) = Some (ILoadO WWord SState (St ap) (St fp) (Imm k))
  | ReturnProtection N r =>
      code pc = Some (IJ (Imm N)) /\ wrap w N = N /\ code (pc + 1) = Some (IJ (St r)) /\
      code (pc + 2) = Some IHalt /\ exists f, code N = Some (IFlag f)
  | Call F fp off =>
      code (pc - 1) = Some (IArith Aadd (St fp) (St fp) (Imm (- off))) /\
      code pc = Some (IJ (Imm F)) /\ code (pc + 1) = Some IHalt /\
      code (pc + 2) = Some (IArith Aadd (St fp) (St fp) (Imm off)) /\ wrap w F = F /\ code F <> None
  end.

(* break a successful attempt `H : match ... end = Some i` into its boolean facts, outermost test
   first *)
Ltac brk H :=
  repeat match type of H with
  | match ?x with _ => _ end = _ => destruct x eqn:?; try discriminate H
  end.
(* every boolean test of the recogniser through its reflection lemma: which test yields which
   premise is all there is to the try_*_sound proofs below *)
Ltac facts :=
  repeat match goal with
  | H : _ && _ = true |- _ => apply andb_prop in H; destruct H
  | H : (_ =? _) = true |- _ => apply Z.eqb_eq in H
  | H : (_ <? _) = true |- _ => apply Z.ltb_lt in H
  | H : operand_eqb _ _ = true |- _ => apply operand_eqb_eq in H
  | H : cond_eqb _ _ = true |- _ => apply cond_eqb_eq in H
  | H : in_inv _ _ = true |- _ => apply in_inv_In in H
  | H : inW _ _ = true |- _ => apply inW_wrap in H
  | H : is_halt _ = true |- _ => apply is_halt_eq in H
  | H : is_flag _ = true |- _ => apply is_flag_ex in H
  | H : present _ = true |- _ => apply present_ne in H
  | H : is_defeat _ _ = true |- _ => apply is_defeat_eq in H
  end.

(* each attempt: if it answers, the answer's premises hold -- given the facts classify_code
   established before calling it (Hj, HL, HP) *)
Section Attempts.
Variable L : Z.
Hypothesis Hj : code pc = Some (IJ (Imm L)).
Hypothesis HL : wrap w L = L.
Hypothesis HP : code L <> None.

Lemma try_goto_sound i : try_goto L = Some i -> premises_of i.
Proof.
  unfold try_goto. destruct (is_halt (code (pc + 1))) eqn:Hh; [apply is_halt_eq in Hh | discriminate].
  (* every way of not being a call answers Goto *)
  assert (G : premises_of (Goto L)) by (cbn; auto).
  intros H. brk H; injection H as <-; try exact G.
  facts; subst; cbn; repeat split; auto.
  match goal with E : ?n + ?n' = 0 |- _ => replace (- n') with n by lia end. assumption.
Qed.

Lemma try_boolnorm_sound i : try_boolnorm L = Some i -> premises_of i.
Proof.
  unfold try_boolnorm. intros H. brk H. injection H as <-. facts. subst. cbn.
  repeat split; auto.
Qed.

Lemma try_branch_sound i : try_branch L = Some i -> premises_of i.
Proof.
  unfold try_branch. intros H. brk H; injection H as <-; facts; subst; cbn; repeat split; auto.
Qed.

(* the answer Guard, reached from every shape of test that is not the virtual preempt's *)
Lemma guard_leaf cc a b E : code (pc + 1) = Some (IHc cc a b) -> code (pc + 2) = Some (IJ (Imm E)) ->
  is_halt (code (pc + 3)) && (L =? pc + 4) && inW w E = true -> is_flag (code E) = true ->
  premises_of (Guard cc a b E).
Proof. intros C1 C2 T F. facts. subst. cbn. repeat split; auto. Qed.

Lemma try_guard_sound i : try_guard L = Some i -> premises_of i.
Proof.
  unfold try_guard. intros H. brk H; injection H as <-; try (eapply guard_leaf; eassumption).
  facts; subst; cbn. eexists; repeat split; eauto.
Qed.

Lemma try_jj_sound i : try_jj L = Some i -> premises_of i.
Proof.
  unfold try_jj. intros H. brk H; injection H as <-; facts; subst; cbn; repeat split; auto.
Qed.

Lemma try_entry_sound i : try_entry L = Some i -> premises_of i.
Proof.
  unfold try_entry. intros H. brk H; injection H as <-; facts; subst; cbn; repeat split; auto.
Qed.

Lemma try_vla_sound i : try_vla L = Some i -> premises_of i.
Proof.
  unfold try_vla. intros H. brk H; injection H as <-; facts; subst; cbn; repeat split; auto.
Qed.

Lemma try_stop_sound i : try_stop L = Some i -> premises_of i.
Proof.
  unfold try_stop. intros H. brk H; injection H as <-; facts; subst; cbn.
  eexists; repeat split; eauto.
Qed.

Lemma try_spec_sound i : try_spec L = Some i -> premises_of i.
Proof.
  unfold try_spec. intros H. brk H; injection H as <-; facts; subst; cbn; repeat split; auto; lia.
Qed.

Lemma try_undo_sound i : try_undo L = Some i -> premises_of i.
Proof.
  unfold try_undo. intros H. brk H; injection H as <-; facts; subst; cbn; repeat split; eauto.
Qed.

Lemma classify_imm_sound i : classify_imm L = Some i -> premises_of i.
Proof.
  unfold classify_imm. intros H.
  repeat (apply orelse_some in H; destruct H as [H|H]);
    eauto using try_goto_sound, try_boolnorm_sound, try_branch_sound, try_guard_sound, try_jj_sound,
      try_entry_sound, try_vla_sound, try_stop_sound, try_spec_sound, try_undo_sound.
Qed.
End Attempts.

Theorem classify_sound i : classify_code = Some i -> premises_of i.
Proof.
  unfold classify_code. intros H. brk H.
  - (* immediate *) facts. eapply classify_imm_sound; eauto.
  - (* DefeatVirtual *) injection H as <-. facts. cbn. eauto.
  - (* GotoReg *) injection H as <-. cbn. auto.
  - (* DefeatVirtualCond *) injection H as <-. facts. cbn. eauto.
Qed.

End Classify.

Definition classify (c : cfg) (prog : list instr) (pc : Z) : option idiom :=
  classify_code c (mkcode prog) pc.

Fixpoint jumps_from (l : list instr) (pc : Z) : list Z :=
  match l with
  | [] => []
  | IJ _ :: r => pc :: jumps_from r (pc + 1)
  | _ :: r => jumps_from r (pc + 1)
  end.
Definition classify_all (c : cfg) (prog : list instr) : list (Z * option idiom) :=
  let code := mkcode prog in
  map (fun pc => (pc, classify_code c code pc)) (jumps_from prog 0).
Definition unclassified (c : cfg) (prog : list instr) : list Z :=
  map fst (filter (fun x => match snd x with None => true | Some _ => false end) (classify_all c prog)).

(* the idioms of the sequential core: no time travel *)
Definition sequential_idiom (i : idiom) : bool :=
  match i with
  | Goto _ | GotoReg _ | Branch _ _ _ _ _ | BranchBool _ _ | BoolNormalise _
  | Guard _ _ _ _ | GuardEntry _ _ _ _ _ | GuardVla _ _ _ _ _ _ | Call _ _ _ => true
  | _ => false
  end.
Definition sequential_only (c : cfg) (prog : list instr) : bool :=
  forallb (fun x => match snd x with Some i => sequential_idiom i | None => false end) (classify_all c prog).

(* mkcode is list indexing: classify_all misses no jump *)
Lemma fillc_below l : forall s t a, 0 <= a < s ->
  PositiveMap.find (key a) (fillc l s t) = PositiveMap.find (key a) t.
Proof.
  induction l as [|i r IH]; intros s t a H; cbn [fillc]; [reflexivity|].
  rewrite IH by lia. apply PositiveMap.gso. intro E; apply key_inj in E; lia.
Qed.
Lemma find_fillc l : forall s t n, 0 <= s ->
  PositiveMap.find (key (s + Z.of_nat n)) (fillc l s t) =
  match nth_error l n with Some i => Some i | None => PositiveMap.find (key (s + Z.of_nat n)) t end.
Proof.
  induction l as [|i r IH]; intros s t n Hs; cbn [fillc]; [now destruct n|].
  destruct n as [|n]; cbn [nth_error].
  - rewrite Z.add_0_r, fillc_below by lia. apply PositiveMap.gss.
  - replace (s + Z.of_nat (S n)) with (s + 1 + Z.of_nat n) by lia. rewrite IH by lia.
    destruct (nth_error r n); [reflexivity|]. apply PositiveMap.gso. intro E; apply key_inj in E; lia.
Qed.
Lemma mkcode_nth l a : 0 <= a -> mkcode l a = nth_error l (Z.to_nat a).
Proof.
  intros Ha. unfold mkcode. destruct (Z.ltb_spec a 0); [lia|].
  rewrite <- (Z2Nat.id a Ha) at 1. rewrite (find_fillc l 0 _ (Z.to_nat a)) by lia.
  destruct (nth_error l (Z.to_nat a)); [reflexivity | apply PositiveMap.gempty].
Qed.
Lemma mkcode_neg l a : a < 0 -> mkcode l a = None.
Proof. intros Ha. unfold mkcode. now replace (a <? 0) with true by (symmetry; apply Z.ltb_lt; lia). Qed.

Lemma jumps_from_complete l : forall s n a, nth_error l n = Some (IJ a) -> In (s + Z.of_nat n) (jumps_from l s).
Proof.
  induction l as [|i r IH]; intros s n a H; [destruct n; discriminate|].
  destruct n as [|n].
  - cbn in H. inversion H; subst. cbn [jumps_from]. left. cbn. lia.
  - cbn [nth_error] in H. specialize (IH (s + 1) n a H).
    replace (s + Z.of_nat (S n)) with (s + 1 + Z.of_nat n) by lia.
    cbn [jumps_from]. destruct i; try exact IH. right. exact IH.
Qed.
Theorem classify_all_complete c prog pc a :
  mkcode prog pc = Some (IJ a) -> In (pc, classify c prog pc) (classify_all c prog).
Proof.
  intros H. destruct (Z_lt_le_dec pc 0) as [Neg|Pos]; [rewrite mkcode_neg in H by assumption; discriminate|].
  rewrite mkcode_nth in H by assumption.
  unfold classify_all, classify. apply (in_map (fun pc => (pc, classify_code c (mkcode prog) pc))).
  replace pc with (0 + Z.of_nat (Z.to_nat pc)) by lia. eapply jumps_from_complete; eauto.
Qed.
Theorem all_classified_sound c prog :
  unclassified c prog = [] ->
  forall pc a, mkcode prog pc = Some (IJ a) ->
  exists i, classify c prog pc = Some i /\ premises_of c (mkcode prog) pc i.
Proof.
  intros U pc a H. pose proof (classify_all_complete c prog pc a H) as Hin.
  destruct (classify c prog pc) as [i|] eqn:E.
  - exists i. split; [reflexivity|]. apply classify_sound. exact E.
  - exfalso. unfold unclassified in U.
    assert (Hu : In pc (map fst (filter (fun x => match snd x with None => true | Some _ => false end) (classify_all c prog)))).
    { apply in_map_iff. exists (pc, None). split; [reflexivity|]. apply filter_In. split; [exact Hin | reflexivity]. }
    rewrite U in Hu. destruct Hu.
Qed.

(* a branch, a goto and `j [r]; halt`, classified by computation *)
Example classify_ex :
  let prog := [IJ (Imm 4); IHc Clt (St 4) (St 6); IJ (Imm 6); IHalt; IHc Cge (St 4) (St 6); IJ (St 4); IHalt] in
  map snd (classify_all (mkcfg 2 None) prog) =
    [Some (Branch Clt Cge (St 4) (St 6) 4); Some (Goto 6); Some (GotoReg 4)]
  /\ sequential_only (mkcfg 2 None) prog = true /\ unclassified (mkcfg 2 None) prog = [].
Proof. repeat split; vm_compute; reflexivity. Qed.
(* a call: the goto bracketed by the fp rebase *)
Example classify_ex_call :
  classify (mkcfg 2 None) [IArith Aadd (St 2) (St 2) (Imm (-6)); IJ (Imm 4); IHalt; IArith Aadd (St 2) (St 2) (Imm 6); IHalt] 1
    = Some (Call 4 2 6).
Proof. vm_compute. reflexivity. Qed.
(* a branch whose target tests the operands in the other order does not classify *)
Example classify_ex_swapped :
  classify (mkcfg 2 None) [IJ (Imm 3); IHc Clt (St 4) (St 6); IHalt; IHc Cge (St 6) (St 4)] 0 = None.
Proof. vm_compute. reflexivity. Qed.
(* ... nor does it fall back to Undo when an unrelated goto happens to precede the target *)
Example classify_ex_wrong_inverse :
  classify (mkcfg 2 None) [IJ (Imm 5); IHc Clt (St 4) (St 6); IFlag 0; IJ (Imm 6); IHalt; IHc Cle (St 4) (St 6); IFlag 0] 0 = None.
Proof. vm_compute. reflexivity. Qed.
(* a goto without its halt does not classify *)
Example classify_ex_nohalt :
  classify (mkcfg 2 None) [IJ (Imm 2); IFlag 0; IFlag 0] 0 = None.
Proof. vm_compute. reflexivity. Qed.

(* The call protocol and the array-pointer discipline of the code generator, as machine-level
   theorems over ABSTRACT code (DESIGN §4: C01 item 4, C08).  Every w >= 2, all values.

   Source shapes (hidc/codegen/generator.py):
     eval_func_call            swso [fp],-(off+w),E   (RA)   pushes of the arguments below it
                               add [fp],[fp],-off;  j F;  halt;  E: add [fp],[fp],off
     ReturnStatement           (value in r0)  lwso [r1],[fp],-w;  swso|sbso [fp],-size,[r0]
                               [mov [defeat],..]  [lwso [ap],[fp],-k0]  [j nonlocal_preempt]
                               j [r1];  halt
     ArrayLiteral/Initializer  swso [fp],-k,[ap]  (origin slot := ap)  ...  add [ap],[ap],size
     pop / reset_ap            static: sub [ap],[ap],S      dynamic: lwso [ap],[fp],-k(first)
     break / continue          reset_ap(restore point) then goto

   The callee is a HYPOTHESIS (a specification for the entry state at hand), so call_idiom says
   what the caller may conclude from it; return_idiom is what a callee body ends with. *)
From Coq Require Import ZArith List Lia.
From HidV Require Import Machine Halts WordLemmas MemLemmas Idioms TimeTravel.
Import ListNotations.
Open Scope Z_scope.

Section CallProtocol.
Variable w : Z.
Hypothesis Hw : 2 <= w.

Notation W := (Machine.W w).
Notation wrap := (Machine.wrap w).
Notation sgn := (Machine.sgn w).
Notation lw := (Machine.lw w).
Notation sw := (Machine.sw w).
Notation inrange := (WordLemmas.inrange w).

Let Hw1 : 1 <= w. Proof. lia. Qed.

(* add fp,-off ... add fp,off is the identity on the fp word, modulo W -- for EVERY off
   (no 0 <= off < W/2 needed) and every in-range fp *)
Theorem fp_rebase_arith x noff off : wrap noff = wrap (- off) ->
  wrap (wrap (x + wrap noff) + wrap off) = wrap x.
Proof.
  intros E. rewrite E, wrap_add_l, wrap_add_r.
  replace (x + wrap (- off) + off) with (x + off + wrap (- off)) by ring.
  rewrite wrap_add_r. f_equal. ring.
Qed.
(* the addresses the protocol uses are the plain ones when the frame lies in [0, W/2) *)
Theorem frame_addresses fp0 off : 0 <= off -> off + w <= fp0 -> fp0 < W / 2 ->
  wrap (fp0 + wrap (- off)) = fp0 - off /\
  sgn fp0 + sgn (wrap (- (off + w))) = fp0 - off - w /\
  sgn (fp0 - off) + sgn (wrap (- w)) = fp0 - off - w.
Proof.
  intros O F H. pose proof (W_even w Hw1). pose proof (half_pos w Hw1).
  split; [|split].
  - rewrite wrap_add_r. apply wrap_small. unfold WordLemmas.inrange. lia.
  - rewrite (sgn_small w fp0) by lia.
    rewrite (sgn_neg_imm w Hw1 (off + w)) by lia. lia.
  - rewrite (sgn_small w (fp0 - off)) by lia. rewrite (sgn_neg_imm w Hw1 w) by lia. lia.
Qed.

Lemma getb_sw_other m a v x : 0 <= a -> 0 <= x -> (x < a \/ a + w <= x) -> getb (sw m a v) x = getb m x.
Proof. exact (lb_sw_other w Hw1 m a v x). Qed.
#[local] Hint Rewrite getb_sw_other using solve [assumption | lia] : mem.
Lemma sw_frame m d v : 0 <= d ->
  (forall a, 0 <= a -> (a + w <= d \/ d + w <= a) -> lw (sw m d v) a = lw m a) /\
  (forall a, 0 <= a -> (a < d \/ d + w <= a) -> getb (sw m d v) a = getb m a).
Proof. intros Hd. split; intros a A0 D; [apply lw_sw_other | apply getb_sw_other]; assumption || lia. Qed.
Lemma lw_agree m m' a : (forall x, a <= x < a + w -> getb m' x = getb m x) -> lw m' a = lw m a.
Proof. intros H. now apply lw_ext. Qed.

Variable ap : Z.                       (* address of the ap register *)

Definition keeps (A : list Z) (m m' : mem) : Prop := forall a, In a A -> lw m' a = lw m a.
(* one allocation, with whatever the generator interleaves (size computation, guards, element
   stores): the origin slot receives ap, ap advances by the size, earlier origin slots survive *)
Definition alloc_step (A : list Z) (slot s : Z) (m m' : mem) : Prop :=
  lw m' slot = lw m ap /\ lw m' ap = wrap (lw m ap + s) /\ keeps A m m'.
(* the allocations of a scope in order, as (origin slot, size); A = origin slots of enclosing
   allocations that must survive; the code after the last allocation keeps ap and the slots *)
Inductive scope_allocs : list (Z * Z) -> list Z -> mem -> mem -> Prop :=
| SA_nil A m m' : keeps (ap :: A) m m' -> scope_allocs [] A m m'
| SA_cons slot s l A m m1 m2 :
    alloc_step A slot s m m1 -> scope_allocs l (slot :: A) m1 m2 -> scope_allocs ((slot, s) :: l) A m m2.
Definition sizes_sum (l : list (Z * Z)) : Z := fold_right (fun e acc => snd e + acc) 0 l.

Theorem scope_allocs_spec L : forall A m m', scope_allocs L A m m' -> inrange (lw m ap) ->
  lw m' ap = wrap (lw m ap + sizes_sum L) /\ keeps A m m' /\
  (forall slot s l, L = (slot, s) :: l -> lw m' slot = lw m ap).
Proof.
  induction L as [|[slot s] l IH]; intros A m m' H R.
  - inversion H as [A' ma mb Hk|]; subst. cbn [sizes_sum fold_right]. rewrite Z.add_0_r.
    split; [|split].
    + rewrite (wrap_small w _ R). apply Hk. now left.
    + intros a Ha. apply Hk. now right.
    + intros; discriminate.
  - inversion H as [|slot' s' l' A' ma m1 mb Hstep Hrest]; subst. destruct Hstep as [Hs [Ha Hk]].
    assert (R1 : inrange (lw m1 ap)) by (rewrite Ha; apply (wrap_range w Hw1)).
    destruct (IH _ _ _ Hrest R1) as [Ia [Ik _]].
    split; [|split].
    + rewrite Ia, Ha, wrap_add_l. cbn [sizes_sum fold_right snd]. now rewrite Z.add_assoc.
    + intros a Hin. rewrite (Ik a) by now right. now apply Hk.
    + intros slot'' s'' l'' E. inversion E; subst. rewrite (Ik slot'') by now left. exact Hs.
Qed.
(* the static total undoes the allocations exactly, modulo W (no no-wrap condition is needed for
   the RESTORE; `ap + sum <= fp < W/2`, which the space guard maintains (Guards.vla_space_sound), is
   what keeps the arrays themselves apart) *)
Theorem static_pop_arith a0 S D : inrange a0 -> wrap D = wrap S -> wrap (wrap (a0 + S) - wrap D) = a0.
Proof.
  intros R E. rewrite E, wrap_sub_l, wrap_sub_r. replace (a0 + S - S) with a0 by ring. now apply wrap_small.
Qed.

(* the no-wrap condition under which "ap advanced by the sum" is literally ap0 + sum *)
Theorem allocs_no_wrap L A m0 mf fpv : scope_allocs L A m0 mf -> inrange (lw m0 ap) ->
  0 <= sizes_sum L -> lw m0 ap + sizes_sum L <= fpv -> fpv < W / 2 ->
  lw mf ap = lw m0 ap + sizes_sum L.
Proof.
  intros SA R S0 Le Hf. destruct (scope_allocs_spec _ _ _ _ SA R) as [La _]. rewrite La.
  apply wrap_small. unfold WordLemmas.inrange in *. pose proof (W_even w Hw1). lia.
Qed.

Variable code : Z -> option instr.
Variable cmem : mem.
Notation act := (Machine.act w code cmem).
Notation Halts := (HidV.Sphinx.Halts.Halts act).
Notation runs := (HidV.Sphinx.Halts.runs act).
Notation oval := (Idioms.oval w cmem).

Definition stm (wd : width) (m : mem) (a v : Z) : mem :=
  match wd with WWord => sw m a v | WByte => Machine.sb m a v end.
Definition wdsz (wd : width) : Z := match wd with WWord => w | WByte => 1 end.
Lemma act_storeo p m wd b o vo x y z : code p = Some (IStoreO wd b o vo) ->
  oval m b = Some x -> oval m o = Some y -> oval m vo = Some z -> inb m (sgn x + sgn y) (wdsz wd) = true ->
  act (mk p m) = ANext (mk (p + 1) (stm wd m (sgn x + sgn y) z)) None.
Proof. destruct wd; [apply act_swso | apply act_sbso]. Qed.
Lemma getb_stm_other wd m a v x : 0 <= a -> 0 <= x -> (x < a \/ a + wdsz wd <= x) ->
  getb (stm wd m a v) x = getb m x.
Proof.
  intros Ha Hx D. destruct wd; cbn [stm wdsz] in *.
  - now apply getb_sw_other.
  - unfold Machine.sb. apply getb_setb_other; lia.
Qed.
Lemma inb_stm wd m a v b n : inb (stm wd m a v) b n = inb m b n.
Proof. destruct wd; cbn [stm]; [apply inb_sw | reflexivity]. Qed.
Lemma lw_stm_other wd m a v b : 0 <= a -> 0 <= b -> (b + w <= a \/ a + wdsz wd <= b) ->
  lw (stm wd m a v) b = lw m b.
Proof. intros Ha Hb D. apply lw_agree. intros x Hx. apply getb_stm_other; lia. Qed.
Lemma lw_stm_same m a v : 0 <= a -> lw (stm WWord m a v) a = wrap v.
Proof. intros Ha. cbn [stm]. now apply lw_sw_same. Qed.
Lemma lb_stm_same m a v : Machine.lb (stm WByte m a v) a = v mod 256.
Proof. cbn [stm]. apply lb_sb_same. Qed.

Theorem fp_rebase_identity p q m fp noff off m2 :
  code p = Some (IArith Aadd (St fp) (St fp) (Imm noff)) ->
  code q = Some (IArith Aadd (St fp) (St fp) (Imm off)) ->
  wrap noff = wrap (- off) -> 0 <= fp -> inb m fp w = true -> inrange (lw m fp) ->
  let m1 := sw m fp (lw m fp + wrap noff) in
  (* whatever happens in between keeps the fp word and the size of the state section *)
  lw m2 fp = lw m1 fp -> msize m2 = msize m1 ->
  let m3 := sw m2 fp (lw m2 fp + wrap off) in
  runs (mk p m) [] (mk (p + 1) m1) /\ runs (mk q m2) [] (mk (q + 1) m3) /\
  lw m3 fp = lw m fp /\
  (forall a, 0 <= a -> (a < fp \/ fp + w <= a) -> getb m1 a = getb m a) /\
  (forall a, 0 <= a -> (a < fp \/ fp + w <= a) -> getb m3 a = getb m2 a).
Proof.
  intros Cp Cq E Hf I R m1 L2 S2 m3.
  assert (I2 : inb m2 fp w = true).
  { unfold inb in *. rewrite S2. unfold m1. now rewrite msize_sw. }
  split; [|split; [|split; [|split]]].
  - apply (runs_next act _ _ None).
    eapply act_arith; [exact Cp | apply oval_st, I | apply oval_imm | reflexivity | exact I].
  - apply (runs_next act _ _ None).
    eapply act_arith; [exact Cq | apply oval_st, I2 | apply oval_imm | reflexivity | exact I2].
  - unfold m3. rewrite L2. unfold m1. autorewrite with mem.
    rewrite (fp_rebase_arith _ _ _ E). now apply wrap_small.
  - intros a Ha D. unfold m1. now apply getb_sw_other.
  - intros a Ha D. unfold m3. now apply getb_sw_other.
Qed.

(* p: add [fp],[fp],-off;  p+1: j F;  p+2: halt;  E = p+3: add [fp],[fp],off;  continuation p+4.
   Callee specification (for the entry state m1 at hand): it runs, emitting evs, to the return
   address stored just below its frame pointer, with fp back at its entry value, and preserves
   the bytes in P.  P is any set of byte addresses away from the fp register. *)
Theorem call_idiom p m0 fp noff off F Fv evs m2 (P : Z -> Prop) :
  code p = Some (IArith Aadd (St fp) (St fp) (Imm noff)) ->
  code (p + 1) = Some (IJ F) -> code (p + 2) = Some IHalt ->
  code (p + 3) = Some (IArith Aadd (St fp) (St fp) (Imm off)) ->
  wrap noff = wrap (- off) ->
  0 <= fp -> inb m0 fp w = true -> inrange (lw m0 fp) ->
  let fpc := wrap (lw m0 fp + wrap noff) in
  let m1 := sw m0 fp (lw m0 fp + wrap noff) in
  oval m1 F = Some Fv ->
  lw m1 (fpc - w) = p + 3 ->                                   (* the pushed return address *)
  runs (mk Fv m1) evs (mk (lw m1 (fpc - w)) m2) ->             (* callee: returns there ... *)
  msize m2 = msize m1 -> lw m2 fp = fpc ->                     (* ... with fp as at its entry *)
  (forall a, P a -> getb m2 a = getb m1 a) ->                  (* ... preserving P *)
  (forall a, P a -> 0 <= a /\ (a < fp \/ fp + w <= a)) ->
  let m3 := sw m2 fp (fpc + wrap off) in
  runs (mk p m0) evs (mk (p + 4) m3) /\
  lw m3 fp = lw m0 fp /\                                        (* fp restored *)
  (forall a, P a -> getb m3 a = getb m0 a) /\                   (* P preserved across the call *)
  (* what the callee left (its results) is readable: only the fp register differs from m2 *)
  (forall a, 0 <= a -> (a < fp \/ fp + w <= a) -> getb m3 a = getb m2 a).
Proof.
  intros C0 C1 C2 C3 E Hf I R fpc m1 AF RA Rc S2 L2 HP PD m3.
  assert (L1 : lw m1 fp = fpc) by (unfold m1, fpc; now autorewrite with mem).
  rewrite <- L1 in L2.
  destruct (fp_rebase_identity p (p + 3) m0 fp noff off m2 C0 C3 E Hf I R L2 S2) as [R0 [R3 [Lf [F1 F3]]]].
  fold m1 in R0, F1. rewrite L2, L1 in R3, Lf, F3. fold m3 in R3, Lf, F3.
  rewrite RA in Rc.
  split; [|split; [exact Lf | split; [|exact F3]]].
  - replace (p + 4) with (p + 3 + 1) by ring.
    apply (runs_trans act _ [] _ _ _ R0), (runs_trans act _ [] _ _ _ (goto_at w code cmem p 1 m1 F Fv C1 C2 AF)).
    exact (runs_silent act _ _ _ _ Rc R3).
  - intros a Pa. destruct (PD a Pa) as [A0 AD]. rewrite (F3 a A0 AD), (HP a Pa). now apply F1.
Qed.
(* instance with the regions the property names: the caller's frame (bytes at or above the
   callee's fp) and the live arrays [ss, ap) except what the callee may write through array
   references it was given; ap itself unchanged; the result at the callee's slot 0 readable *)
Corollary call_idiom_frame p m0 fp apr noff off F Fv evs m2 ss (may_write : Z -> Prop) :
  code p = Some (IArith Aadd (St fp) (St fp) (Imm noff)) ->
  code (p + 1) = Some (IJ F) -> code (p + 2) = Some IHalt ->
  code (p + 3) = Some (IArith Aadd (St fp) (St fp) (Imm off)) ->
  wrap noff = wrap (- off) ->
  0 <= fp -> inb m0 fp w = true -> inrange (lw m0 fp) ->
  0 <= apr -> (apr + w <= fp \/ fp + w <= apr) ->
  let fpc := wrap (lw m0 fp + wrap noff) in
  let m1 := sw m0 fp (lw m0 fp + wrap noff) in
  oval m1 F = Some Fv ->
  fp + w <= ss -> ss <= fpc - w ->
  lw m1 (fpc - w) = p + 3 ->
  runs (mk Fv m1) evs (mk (lw m1 (fpc - w)) m2) ->
  msize m2 = msize m1 -> lw m2 fp = fpc -> lw m2 apr = lw m1 apr ->
  (forall a, fpc <= a -> getb m2 a = getb m1 a) ->
  (forall a, ss <= a < lw m1 apr -> ~ may_write a -> getb m2 a = getb m1 a) ->
  let m3 := sw m2 fp (fpc + wrap off) in
  runs (mk p m0) evs (mk (p + 4) m3) /\
  lw m3 fp = lw m0 fp /\ lw m3 apr = lw m0 apr /\
  (forall a, fpc <= a -> getb m3 a = getb m0 a) /\
  (forall a, ss <= a < lw m0 apr -> ~ may_write a -> getb m3 a = getb m0 a) /\
  lw m3 (fpc - w) = lw m2 (fpc - w).
Proof.
  intros C0 C1 C2 C3 E Hf I R Ha Da fpc m1 AF S1 S2 RA Rc Sz L2 La Hfr Har m3.
  assert (La1 : lw m1 apr = lw m0 apr) by (unfold m1; now autorewrite with mem).
  set (P := fun a => fpc <= a \/ (ss <= a < lw m1 apr /\ ~ may_write a)).
  destruct (call_idiom p m0 fp noff off F Fv evs m2 P C0 C1 C2 C3 E Hf I R AF RA Rc Sz L2) as [Rr [Lf [HP F3]]].
  - intros a [X|[X Y]]; [now apply Hfr | now apply Har].
  - intros a [X|[X Y]]; lia.
  - fold m3 in Rr, Lf, HP, F3.
    split; [exact Rr | split; [exact Lf | split; [|split; [|split]]]].
    + rewrite <- La1, <- La. apply lw_agree. intros x Hx. apply F3; lia.
    + intros a X. apply HP. now left.
    + intros a X Y. apply HP. right. rewrite La1. tauto.
    + apply lw_agree. intros x Hx. apply F3; lia.
Qed.

(* q: lwso [r1],[fp],kra;  q+1: swso|sbso [fp],kv,VAL;  q+2: lwso [ap],[fp],ko;  then the tail.
   Addresses: sra = return-address slot, sv = the callee's slot 0 (result), so = origin slot of
   the function's first array.
   This is the `return` with a value in a function that has an array in scope, so that
   reset_ap(0) emits the lwso, and whose effective_defeat is func_defeat, so that no
   `mov [defeat]` is emitted; return_idiom_void is the one without value and without arrays.
   The other combinations of the header's optional parts are not stated. *)
Section Return.
Variables (q : Z) (m : mem) (fp apr r1 kra kv ko : Z) (wd : width) (vo : operand) (v : Z).
Hypothesis C0 : code q = Some (ILoadO WWord SState (St r1) (St fp) (Imm kra)).
Hypothesis C1 : code (q + 1) = Some (IStoreO wd (St fp) (Imm kv) vo).
Hypothesis C2 : code (q + 2) = Some (ILoadO WWord SState (St apr) (St fp) (Imm ko)).
Let fpv := lw m fp.
Let sra := sgn fpv + sgn (wrap kra).
Let sv := sgn fpv + sgn (wrap kv).
Let so := sgn fpv + sgn (wrap ko).
Hypothesis If : inb m fp w = true.
Hypothesis Ir : inb m r1 w = true.
Hypothesis Ia : inb m apr w = true.
Hypothesis Isra : inb m sra w = true.
Hypothesis Isv : inb m sv (wdsz wd) = true.
Hypothesis Iso : inb m so w = true.
Hypothesis N0 : 0 <= fp /\ 0 <= r1 /\ 0 <= apr /\ 0 <= sv /\ 0 <= so.
(* registers pairwise apart; the result slot and the origin slot are stack slots, apart from the
   registers and from each other *)
Hypothesis Drf : r1 + w <= fp \/ fp + w <= r1.
Hypothesis Daf : apr + w <= fp \/ fp + w <= apr.
Hypothesis Dra : r1 + w <= apr \/ apr + w <= r1.
Hypothesis Dvf : fp + w <= sv \/ sv + wdsz wd <= fp.
Hypothesis Dvr : r1 + w <= sv \/ sv + wdsz wd <= r1.
Hypothesis Dor : so + w <= r1 \/ r1 + w <= so.
Hypothesis Dov : so + w <= sv \/ sv + wdsz wd <= so.
Let m1 := sw m r1 (lw m sra).
Hypothesis Av : oval m1 vo = Some v.
Let m2 := stm wd m1 sv v.
Let m3 := sw m2 apr (lw m2 so).

Lemma return_prefix :
  runs (mk q m) [] (mk (q + 3) m3) /\
  lw m3 r1 = wrap (lw m sra) /\ lw m3 fp = fpv /\ lw m3 apr = wrap (lw m so) /\
  (sv + wdsz wd <= apr \/ apr + w <= sv ->
     match wd with WWord => lw m3 sv = wrap v | WByte => Machine.lb m3 sv = v mod 256 end) /\
  (forall a, 0 <= a -> (a < r1 \/ r1 + w <= a) -> (a < apr \/ apr + w <= a) -> (a < sv \/ sv + wdsz wd <= a) ->
     getb m3 a = getb m a) /\
  inb m3 r1 w = true.
Proof.
  destruct N0 as [Hf [Hr [Ha [Hsv Hso]]]].
  assert (Sz : 1 <= wdsz wd <= w) by (destruct wd; cbn; lia).
  assert (I1 : forall b n, inb m1 b n = inb m b n) by (intros; apply inb_sw).
  assert (I2 : forall b n, inb m2 b n = inb m b n) by (intros; unfold m2; now rewrite inb_stm).
  assert (L1f : lw m1 fp = fpv) by (unfold m1; now rewrite lw_sw_other by (assumption || lia)).
  assert (L2f : lw m2 fp = fpv) by (unfold m2; rewrite lw_stm_other by (assumption || lia); exact L1f).
  split; [|split; [|split; [|split; [|split; [|split]]]]].
  - eapply runs_tau.
    { eapply act_lwso; [exact C0 | apply oval_st, If | apply oval_imm | exact Isra | exact Ir]. }
    apply (tau_at w code cmem q 1 m1 m2).
    { eapply act_storeo; [exact C1 | apply (oval_st_val w cmem m1 fp fpv); [now rewrite I1 | exact L1f]
                         | apply oval_imm | exact Av | now rewrite I1]. }
    apply (tau_at w code cmem q 2 m2 m3); [|apply runs_refl].
    eapply act_lwso; [exact C2 | apply (oval_st_val w cmem m2 fp fpv); [now rewrite I2 | exact L2f]
                     | apply oval_imm | now rewrite I2 | now rewrite I2].
  - unfold m3, m2, m1. now rewrite lw_sw_other, lw_stm_other, lw_sw_same by (assumption || lia).
  - unfold m3. rewrite lw_sw_other by (assumption || lia). exact L2f.
  - unfold m3, m2, m1. now rewrite lw_sw_same, lw_stm_other, lw_sw_other by (assumption || lia).
  - intros Dva. unfold m3, m2. destruct wd; cbn [wdsz] in *.
    + rewrite lw_sw_other by (assumption || lia). now apply lw_stm_same.
    + unfold Machine.lb. rewrite getb_sw_other by (assumption || lia). apply lb_stm_same.
  - intros a A0 D1 D2 D3. unfold m3, m2, m1.
    now rewrite getb_sw_other, getb_stm_other, getb_sw_other by (assumption || lia).
  - unfold m3. now rewrite inb_sw, I2.
Qed.

(* plain tail: q+3: j [r1]; q+4: halt *)
Theorem return_idiom :
  code (q + 3) = Some (IJ (St r1)) -> code (q + 4) = Some IHalt ->
  let ra := wrap (lw m sra) in
  runs (mk q m) [] (mk ra m3) /\
  lw m3 fp = fpv /\ lw m3 apr = wrap (lw m so) /\
  (sv + wdsz wd <= apr \/ apr + w <= sv ->
     match wd with WWord => lw m3 sv = wrap v | WByte => Machine.lb m3 sv = v mod 256 end) /\
  (forall a, 0 <= a -> (a < r1 \/ r1 + w <= a) -> (a < apr \/ apr + w <= a) -> (a < sv \/ sv + wdsz wd <= a) ->
     getb m3 a = getb m a).
Proof.
  intros C3 C4 ra. destruct return_prefix as [R [Lr [Lf [La [Lv [Fr I3]]]]]].
  split; [|auto].
  unfold ra. rewrite <- Lr.
  exact (runs_silent act _ _ _ _ R (goto_at w code cmem q 3 m3 _ _ C3 C4 (oval_st w cmem m3 r1 I3))).
Qed.
(* protected tail (preemptive defeat functions): q+3: j nonlocal_preempt; q+4: j [r1]; q+5: halt *)
Theorem return_idiom_protected nlp N :
  code (q + 3) = Some (IJ nlp) -> oval m3 nlp = Some N ->
  code (q + 4) = Some (IJ (St r1)) -> code (q + 5) = Some IHalt ->
  let ra := wrap (lw m sra) in
  (~ Halts (mk ra m3) -> runs (mk q m) [] (mk ra m3)) /\          (* returning is fine: return *)
  (Halts (mk ra m3) -> runs (mk q m) [] (mk N m3)) /\             (* the caller would be defeated: stub *)
  (* stub absorbing: never halts *)
  (~ Halts (mk N m3) -> ~ Halts (mk q m)).
Proof.
  intros C3 AN C4 C5 ra. destruct return_prefix as [R [Lr [_ [_ [_ [_ I3]]]]]].
  replace (q + 4) with (q + 3 + 1) in C4 by ring. replace (q + 5) with (q + 3 + 2) in C5 by ring.
  destruct (return_protection_idiom w code cmem (q + 3) m3 nlp N r1 C3 AN C4 C5 I3) as [X [Y Z]].
  rewrite Lr in X, Y. fold ra in X, Y.
  split; [|split].
  - intros Nh. exact (runs_silent act _ _ _ _ R (proj1 (Y Nh))).
  - intros Hh. exact (runs_silent act _ _ _ _ R (proj1 (X Hh))).
  - intros Nn Hq. apply (Z Nn). apply (proj1 R). exact Hq.
Qed.
End Return.

(* a function without value and without arrays: lwso [r1],[fp],kra; j [r1]; halt *)
Theorem return_idiom_void q m fp r1 kra :
  code q = Some (ILoadO WWord SState (St r1) (St fp) (Imm kra)) ->
  code (q + 1) = Some (IJ (St r1)) -> code (q + 2) = Some IHalt ->
  let sra := sgn (lw m fp) + sgn (wrap kra) in
  inb m fp w = true -> inb m r1 w = true -> inb m sra w = true -> 0 <= r1 ->
  let m1 := sw m r1 (lw m sra) in
  runs (mk q m) [] (mk (wrap (lw m sra)) m1) /\
  (forall a, 0 <= a -> (a < r1 \/ r1 + w <= a) -> getb m1 a = getb m a).
Proof.
  intros C0 C1 C2 sra If Ir Is Hr m1. split.
  - eapply runs_tau.
    { eapply act_lwso; [exact C0 | apply oval_st, If | apply oval_imm | exact Is | exact Ir]. }
    apply (goto_at w code cmem q 1 m1 (St r1) _ C1 C2).
    apply oval_st_val; unfold m1; now autorewrite with mem.
  - intros a A0 D. unfold m1. now apply getb_sw_other.
Qed.

(* allocation and the resets, as instructions.  Origin store: swso [fp],k,[ap] *)
Theorem alloc_origin_store p m fp k :
  code p = Some (IStoreO WWord (St fp) (Imm k) (St ap)) ->
  inb m fp w = true -> inb m ap w = true ->
  let slot := sgn (lw m fp) + sgn (wrap k) in
  inb m slot w = true -> 0 <= slot ->
  let m' := sw m slot (lw m ap) in
  runs (mk p m) [] (mk (p + 1) m') /\
  (inrange (lw m ap) -> lw m' slot = lw m ap) /\
  (forall a, 0 <= a -> (a + w <= slot \/ slot + w <= a) -> lw m' a = lw m a) /\
  (forall a, 0 <= a -> (a < slot \/ slot + w <= a) -> getb m' a = getb m a).
Proof.
  intros C If Ia slot Is Hs m'. split; [|split; [|exact (sw_frame m slot _ Hs)]].
  - apply (runs_next act _ _ None). eapply (act_storeo p m WWord); eauto using oval_st; apply oval_imm.
  - intros R. unfold m'. autorewrite with mem. now apply wrap_small.
Qed.
(* bump: add [ap],[ap],size *)
Theorem alloc_bump p m so s :
  code p = Some (IArith Aadd (St ap) (St ap) so) -> oval m so = Some s ->
  inb m ap w = true -> 0 <= ap ->
  let m' := sw m ap (lw m ap + s) in
  runs (mk p m) [] (mk (p + 1) m') /\ lw m' ap = wrap (lw m ap + s) /\
  (forall a, 0 <= a -> (a + w <= ap \/ ap + w <= a) -> lw m' a = lw m a) /\
  (forall a, 0 <= a -> (a < ap \/ ap + w <= a) -> getb m' a = getb m a).
Proof.
  intros C A Ia Ha m'. split; [|split; [|exact (sw_frame m ap _ Ha)]].
  - apply (runs_next act _ _ None). eapply act_arith; eauto using oval_st; reflexivity.
  - unfold m'. now autorewrite with mem.
Qed.
(* the two together (ArrayLiteral emits them back to back; ArrayInitializer puts the size
   computation and the guards in between, which write only r0/r1) give an alloc_step for every
   set A of enclosing origin slots lying apart from this slot and from the ap register *)
Theorem array_alloc_idiom p m fp k so s A :
  code p = Some (IStoreO WWord (St fp) (Imm k) (St ap)) ->
  code (p + 1) = Some (IArith Aadd (St ap) (St ap) so) ->
  inb m fp w = true -> inb m ap w = true -> 0 <= ap -> inrange (lw m ap) ->
  let slot := sgn (lw m fp) + sgn (wrap k) in
  inb m slot w = true -> 0 <= slot -> (slot + w <= ap \/ ap + w <= slot) ->
  let m1 := sw m slot (lw m ap) in
  oval m1 so = Some s ->
  (forall a, In a A -> 0 <= a /\ (a + w <= slot \/ slot + w <= a) /\ (a + w <= ap \/ ap + w <= a)) ->
  let m2 := sw m1 ap (lw m ap + s) in
  runs (mk p m) [] (mk (p + 2) m2) /\ alloc_step A slot s m m2.
Proof.
  intros C0 C1 If Ia Ha R slot Is Hs D m1 As HA m2.
  destruct (alloc_origin_store p m fp k C0 If Ia Is Hs) as [R0 [L0 [F0 _]]]. fold slot m1 in R0, L0, F0.
  assert (La : lw m1 ap = lw m ap) by (apply F0; assumption || lia).
  destruct (alloc_bump (p + 1) m1 so s C1 As) as [R1 [L1 [F1 _]]]; [unfold m1; now rewrite inb_sw | exact Ha |].
  rewrite La in R1, L1, F1. fold m2 in R1, L1, F1.
  split.
  - replace (p + 2) with (p + 1 + 1) by ring. exact (runs_silent act _ _ _ _ R0 R1).
  - split; [|split].
    + rewrite F1 by (assumption || lia). now apply L0.
    + exact L1.
    + intros a Hin. destruct (HA a Hin) as [A0 [D1 D2]]. rewrite F1 by (assumption || lia). now apply F0.
Qed.

(* dynamic reset (scope exit, break, continue, return): lwso [ap],[fp],k with k the origin slot of
   the FIRST array of the scope being left: ap is exactly what it was at scope entry *)
Theorem reset_ap_restores p m0 mf fp k slot1 s1 l A :
  scope_allocs ((slot1, s1) :: l) A m0 mf -> inrange (lw m0 ap) ->
  code p = Some (ILoadO WWord SState (St ap) (St fp) (Imm k)) ->
  slot1 = sgn (lw mf fp) + sgn (wrap k) ->
  inb mf fp w = true -> inb mf ap w = true -> inb mf slot1 w = true -> 0 <= ap ->
  let m' := sw mf ap (lw mf slot1) in
  runs (mk p mf) [] (mk (p + 1) m') /\ lw m' ap = lw m0 ap /\
  (forall a, In a A -> (a + w <= ap \/ ap + w <= a) -> 0 <= a -> lw m' a = lw m0 a) /\
  (forall a, 0 <= a -> (a < ap \/ ap + w <= a) -> getb m' a = getb mf a).
Proof.
  intros SA R C Es If Ia Is Ha m'.
  destruct (scope_allocs_spec _ _ _ _ SA R) as [_ [Kp Sl]]. specialize (Sl slot1 s1 l eq_refl).
  split; [|split; [|split]].
  - apply (runs_next act _ _ None). subst slot1.
    eapply act_lwso; [exact C | apply oval_st, If | apply oval_imm | exact Is | exact Ia].
  - unfold m'. autorewrite with mem. rewrite Sl. now apply wrap_small.
  - intros a Hin D A0. unfold m'. autorewrite with mem. now apply Kp.
  - exact (proj2 (sw_frame mf ap _ Ha)).
Qed.
(* static pop: sub [ap],[ap],S with S the sum of the (static) sizes *)
Theorem static_pop_restores p m0 mf L A D :
  scope_allocs L A m0 mf -> inrange (lw m0 ap) ->
  code p = Some (IArith Asub (St ap) (St ap) (Imm D)) -> wrap D = wrap (sizes_sum L) ->
  inb mf ap w = true -> 0 <= ap ->
  let m' := sw mf ap (lw mf ap - wrap D) in
  runs (mk p mf) [] (mk (p + 1) m') /\ lw m' ap = lw m0 ap /\
  (forall a, In a A -> (a + w <= ap \/ ap + w <= a) -> 0 <= a -> lw m' a = lw m0 a) /\
  (forall a, 0 <= a -> (a < ap \/ ap + w <= a) -> getb m' a = getb mf a).
Proof.
  intros SA R C E Ia Ha m'.
  destruct (scope_allocs_spec _ _ _ _ SA R) as [La [Kp _]].
  split; [|split; [|split]].
  - apply (runs_next act _ _ None).
    eapply act_arith; [exact C | apply oval_st, Ia | apply oval_imm | reflexivity | exact Ia].
  - unfold m'. autorewrite with mem. rewrite La. now apply static_pop_arith.
  - intros a Hin Dd A0. unfold m'. autorewrite with mem. now apply Kp.
  - exact (proj2 (sw_frame mf ap _ Ha)).
Qed.
End CallProtocol.

(* Satisfiability examples (w = 2; ap=[0] fp=[2] r0=[4] r1=[6]; 40 bytes of state) *)
Section Examples.
Let cm := zmem 0.
Notation A c := (act 2 c cm).

(* caller at 0..4 (frame offset 6, fp = 30, RA slot 22 holds 3), callee at 5: a void function *)
Definition c_call := code_of [IArith Aadd (St 2) (St 2) (Imm (-6)); IJ (Imm 5); IHalt; IArith Aadd (St 2) (St 2) (Imm 6); IFlag 0;
                              ILoadO WWord SState (St 6) (St 2) (Imm (-2)); IJ (St 6); IHalt].
Definition m_call : mem := sw 2 (sw 2 (sw 2 (zmem 40) 2 30) 0 10) 22 3.
Definition m_call1 : mem := sw 2 m_call 2 (30 + wrap 2 (-6)).
Definition m_call2 : mem := sw 2 m_call1 6 3.
Example return_idiom_void_ex : runs (A c_call) (mk 5 m_call1) [] (mk 3 m_call2).
Proof.
  exact (proj1 (return_idiom_void 2 ltac:(lia) c_call cm 5 m_call1 2 6 (-2) eq_refl eq_refl eq_refl eq_refl eq_refl eq_refl ltac:(lia))).
Qed.
Example call_idiom_ex :
  let m3 := sw 2 m_call2 2 (24 + wrap 2 6) in
  runs (A c_call) (mk 0 m_call) [] (mk 4 m3) /\ lw 2 m3 2 = 30 /\
  (forall a, 24 <= a < 40 -> getb m3 a = getb m_call a).
Proof.
  intro m3.
  destruct (call_idiom 2 ltac:(lia) c_call cm 0 m_call 2 (-6) 6 (Imm 5) 5 [] m_call2 (fun a => 24 <= a < 40))
    as [R [L [P _]]]; try reflexivity; try zc; try lia.
  - exact return_idiom_void_ex.
  - intros a Ha. cbv beta in Ha. unfold m_call2. apply (getb_sw_other 2 ltac:(lia)); lia.
  - split; [exact R | split; [exact L | exact P]].
Qed.
Example fp_rebase_arith_ex : wrap 2 (wrap 2 (30 + wrap 2 (-6)) + wrap 2 6) = wrap 2 30
  /\ wrap 2 (wrap 2 (30 + wrap 2 (-40000)) + wrap 2 40000) = wrap 2 30.
Proof. split; [apply (fp_rebase_arith 2 30 (-6) 6) | apply (fp_rebase_arith 2 30 (-40000) 40000)]; reflexivity. Qed.
Example frame_addresses_ex : wrap 2 (30 + wrap 2 (-6)) = 24 /\ sgn 2 30 + sgn 2 (wrap 2 (-(6 + 2))) = 22.
Proof. destruct (frame_addresses 2 ltac:(lia) 30 6) as (A1 & A2 & _); [lia | lia | zc |]. split; [exact A1 | exact A2]. Qed.

(* return with a value: fp = 30; RA slot 28 holds 9; result slot 28 (size 2: it overwrites the RA
   slot, as the generator does); origin slot 26 holds 12; value 77 in r0 *)
Definition c_ret := code_of [ILoadO WWord SState (St 6) (St 2) (Imm (-2)); IStoreO WWord (St 2) (Imm (-2)) (St 4);
                             ILoadO WWord SState (St 0) (St 2) (Imm (-4)); IJ (St 6); IHalt].
Definition m_ret : mem := sw 2 (sw 2 (sw 2 (sw 2 (sw 2 (zmem 40) 2 30) 0 20) 4 77) 28 9) 26 12.
Example return_idiom_ex :
  exists m3, runs (A c_ret) (mk 0 m_ret) [] (mk 9 m3) /\ lw 2 m3 0 = 12 /\ lw 2 m3 28 = 77 /\ lw 2 m3 2 = 30.
Proof.
  pose proof (return_idiom 2 ltac:(lia) c_ret cm 0 m_ret 2 0 6 (-2) (-2) (-4) WWord (St 4) 77) as H. cbv zeta in H.
  destruct H as [R [Lf [La [Lv _]]]]; try reflexivity; try zc.
  eexists. split; [exact R | split; [exact La | split; [|exact Lf]]].
  apply Lv. zc.
Qed.
(* protected: 3: j 6 (stub); 4: j [r1]; 5: halt; 6: stub; the return address 9 loops (8..9) *)
Definition c_retp := code_of [ILoadO WWord SState (St 6) (St 2) (Imm (-2)); IStoreO WWord (St 2) (Imm (-2)) (St 4);
                              ILoadO WWord SState (St 0) (St 2) (Imm (-4)); IJ (Imm 6); IJ (St 6); IHalt;
                              IJ (Imm 6); IHalt; IHalt; IJ (Imm 9); IHalt].
Example return_idiom_protected_ex : ~ Halts (A c_retp) (mk 0 m_ret).
Proof.
  pose proof (return_idiom_protected 2 ltac:(lia) c_retp cm 0 m_ret 2 0 6 (-2) (-2) (-4) WWord (St 4) 77) as H. cbv zeta in H.
  destruct H with (nlp := Imm 6) (N := 6) as [_ [_ Zz]]; try reflexivity; try zc.
  apply Zz. apply stub_absorbing; [reflexivity | lia].
Qed.

(* two allocations (sizes 6 and 4; origin slots 26 and 24), then either reset *)
Definition c_alloc := code_of [IStoreO WWord (St 2) (Imm (-4)) (St 0); IArith Aadd (St 0) (St 0) (Imm 6);
                               IStoreO WWord (St 2) (Imm (-6)) (St 0); IArith Aadd (St 0) (St 0) (Imm 4);
                               ILoadO WWord SState (St 0) (St 2) (Imm (-4)); IArith Asub (St 0) (St 0) (Imm 10)].
Definition m_al0 : mem := sw 2 (sw 2 (zmem 40) 2 30) 0 10.
Definition m_al1 : mem := sw 2 (sw 2 m_al0 26 10) 0 (10 + 6).
Definition m_al2 : mem := sw 2 (sw 2 m_al1 24 16) 0 (16 + 4).
Example array_alloc_idiom_ex :
  runs (A c_alloc) (mk 0 m_al0) [] (mk 4 m_al2) /\ scope_allocs 2 0 [(26, 6); (24, 4)] [] m_al0 m_al2.
Proof.
  destruct (array_alloc_idiom 2 ltac:(lia) 0 c_alloc cm 0 m_al0 2 (-4) (Imm 6) 6 []) as [R1 S1]; try reflexivity; try zc.
  { intros a []. }
  destruct (array_alloc_idiom 2 ltac:(lia) 0 c_alloc cm 2 m_al1 2 (-6) (Imm 4) 4 [26]) as [R2 S2]; try reflexivity; try zc.
  { intros a [<-|[]]. zc. }
  split.
  - exact (runs_silent _ _ _ _ _ R1 R2).
  - eapply SA_cons; [exact S1|]. eapply SA_cons; [exact S2|]. apply SA_nil. intros a _. reflexivity.
Qed.
Example reset_ap_restores_ex :
  exists m', runs (A c_alloc) (mk 4 m_al2) [] (mk 5 m') /\ lw 2 m' 0 = 10.
Proof.
  destruct (reset_ap_restores 2 ltac:(lia) 0 c_alloc cm 4 m_al0 m_al2 2 (-4) 26 6 [(24, 4)] []) as [R [L _]];
    try reflexivity; try zc.
  - exact (proj2 array_alloc_idiom_ex).
  - eexists. split; [exact R | exact L].
Qed.
Example static_pop_restores_ex :
  exists m', runs (A c_alloc) (mk 5 m_al2) [] (mk 6 m') /\ lw 2 m' 0 = 10.
Proof.
  destruct (static_pop_restores 2 ltac:(lia) 0 c_alloc cm 5 m_al0 m_al2 [(26, 6); (24, 4)] [] 10) as [R [L _]];
    try reflexivity; try zc.
  - exact (proj2 array_alloc_idiom_ex).
  - eexists. split; [exact R | exact L].
Qed.
End Examples.

(* Word arithmetic facts: W = 2^(8w), wrap, sgn. *)
From Coq Require Import ZArith Lia.
From HidV Require Import Machine.
Open Scope Z_scope.
(* lia is to know x / y and x mod y by their equations; the setting reaches every file that
   requires this one *)
Ltac Zify.zify_post_hook ::= Z.to_euclidean_division_equations.

Section Word.
Variable w : Z.
Hypothesis Hw : 1 <= w.
Notation W := (Machine.W w).
Notation wrap := (Machine.wrap w).
Notation sgn := (Machine.sgn w).

Lemma W_eq : W = 2 * 2 ^ (8 * w - 1).
Proof. unfold Machine.W. rewrite <- Z.pow_succ_r by lia. f_equal; lia. Qed.
Lemma W_half : W / 2 = 2 ^ (8 * w - 1).
Proof. rewrite W_eq. rewrite Z.mul_comm, Z.div_mul; lia. Qed.
Lemma W_ge_pow k : k <= w -> 2 ^ (8 * k) <= W.
Proof. intros H. apply Z.pow_le_mono_r; lia. Qed.
Lemma W_ge : 256 <= W.
Proof. exact (W_ge_pow 1 Hw). Qed.
Lemma W_pos : 0 < W.
Proof. pose proof W_ge; lia. Qed.
Lemma W_even : W = 2 * (W / 2).
Proof. rewrite W_half. apply W_eq. Qed.
Lemma half_pos : 128 <= W / 2.
Proof. pose proof W_ge. pose proof W_even. lia. Qed.

Definition inrange (x : Z) := 0 <= x < W.

Lemma wrap_range x : inrange (wrap x).
Proof. unfold inrange, Machine.wrap. apply Z.mod_pos_bound, W_pos. Qed.
Lemma wrap_small x : inrange x -> wrap x = x.
Proof. unfold inrange, Machine.wrap. intros; apply Z.mod_small; assumption. Qed.
Lemma wrap_wrap x : wrap (wrap x) = wrap x.
Proof. apply wrap_small, wrap_range. Qed.

Lemma sgn_small x : 0 <= x < W / 2 -> sgn x = x.
Proof. intros H; unfold Machine.sgn. destruct (Z.ltb_spec x (W / 2)); lia. Qed.
Lemma sgn_big x : W / 2 <= x -> sgn x = x - W.
Proof. intros H; unfold Machine.sgn. destruct (Z.ltb_spec x (W / 2)); lia. Qed.
Lemma wrap_lit z : 0 <= z < 256 -> wrap z = z.
Proof. intros H. apply wrap_small. unfold inrange. pose proof W_ge. lia. Qed.
Lemma sgn_lit z : 0 <= z < 128 -> sgn z = z.
Proof. intros H. apply sgn_small. pose proof half_pos. lia. Qed.
Lemma W_256 : exists K, 1 <= K /\ W = 256 * K.
Proof.
  exists (2 ^ (8 * w - 8)). split.
  - assert (0 < 2 ^ (8 * w - 8)) by (apply Z.pow_pos_nonneg; lia). lia.
  - unfold Machine.W. replace (8 * w) with (8 + (8 * w - 8)) at 1 by ring.
    rewrite Z.pow_add_r by lia. reflexivity.
Qed.

Lemma sgn_range x : inrange x -> - (W / 2) <= sgn x < W / 2.
Proof.
  unfold inrange, Machine.sgn. intros Hx. pose proof W_even as E. revert E.
  (* of W / 2 only W = 2 * (W / 2) matters *)
  generalize (W / 2). intros h E. destruct (Z.ltb_spec x h); lia.
Qed.
Lemma sgn_cases x : inrange x -> (x < W / 2 /\ sgn x = x) \/ (W / 2 <= x /\ sgn x = x - W).
Proof.
  intros [H0 _]. destruct (Z_lt_le_dec x (W / 2)); [left | right]; auto using sgn_small, sgn_big.
Qed.
Lemma wrap_sgn x : inrange x -> wrap (sgn x) = x.
Proof.
  intros H. destruct (sgn_cases x H) as [[_ E]|[_ E]]; rewrite E; unfold Machine.wrap.
  - apply Z.mod_small, H.
  - unfold inrange in H. pose proof W_pos.
    replace (x - W) with (x + (-1) * W) by ring. rewrite Z.mod_add by lia. apply Z.mod_small, H.
Qed.
Lemma sgn_inj x y : inrange x -> inrange y -> sgn x = sgn y -> x = y.
Proof. intros Hx Hy E. rewrite <- (wrap_sgn x Hx), <- (wrap_sgn y Hy), E. reflexivity. Qed.
Lemma sgn_wrap_small z : - (W / 2) <= z < W / 2 -> sgn (wrap z) = z.
Proof.
  intros H. pose proof W_even. pose proof W_pos. unfold Machine.sgn, Machine.wrap.
  destruct (Z_lt_le_dec z 0).
  - replace (z mod W) with (z + W).
    + destruct (Z.ltb_spec (z + W) (W / 2)); lia.
    + apply Z.mod_unique_pos with (q := -1); lia.
  - rewrite Z.mod_small by lia. destruct (Z.ltb_spec z (W / 2)); lia.
Qed.
Lemma wrap_add_l x y : wrap (wrap x + y) = wrap (x + y).
Proof. unfold Machine.wrap. apply Zplus_mod_idemp_l. Qed.
Lemma wrap_add_r x y : wrap (x + wrap y) = wrap (x + y).
Proof. unfold Machine.wrap. apply Zplus_mod_idemp_r. Qed.
Lemma wrap_sub_l x y : wrap (wrap x - y) = wrap (x - y).
Proof. unfold Machine.wrap. apply Zminus_mod_idemp_l. Qed.
Lemma wrap_sub_r x y : wrap (x - wrap y) = wrap (x - y).
Proof. unfold Machine.wrap. apply Zminus_mod_idemp_r. Qed.
Lemma wrap_add_sgn x y : inrange x -> inrange y -> wrap (x + y) = wrap (sgn x + sgn y).
Proof. intros Hx Hy. now rewrite <- (wrap_add_l (sgn x)), <- (wrap_add_r _ (sgn y)), !wrap_sgn. Qed.
Lemma wrap_sub_sgn x y : inrange x -> inrange y -> wrap (x - y) = wrap (sgn x - sgn y).
Proof. intros Hx Hy. now rewrite <- (wrap_sub_l (sgn x)), <- (wrap_sub_r _ (sgn y)), !wrap_sgn. Qed.
End Word.

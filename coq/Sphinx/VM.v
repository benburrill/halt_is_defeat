(* The verification VM: a fuelled interpreter with backtracking, proved sound with respect to
   Halts / the committed timeline.  Every run the harness performs on the extracted VM therefore
   carries a theorem instance: OHalt is a proof that the machine halts on its committed
   timeline, OAbsorbed/OFault a proof that it never halts together with its committed event
   trace.  OFuel / OStop are "no verdict".

   The pending Turing jumps are kept on an explicit stack (so the extracted code is a loop, not a
   deep recursion) and the fuel bounds the TOTAL number of executed instructions, speculative
   ones included. *)
From Coq Require Import ZArith List.
From HidV Require Import Machine Halts.
Import ListNotations.
Open Scope Z_scope.

Inductive outcome :=
| OHalt
| OAbsorbed (evs : list event) (s : state) (snaps : list state)
| OFault (evs : list event) (s : state) (snaps : list state)
| OStop (evs : list event) (s : state) (snaps : list state)   (* monitor said stop: no verdict *)
| OFuel (evs : list event) (snaps : list state).

Lemma tree_eqb_eq a : forall b, tree_eqb a b = true -> a = b.
Proof.
  induction a as [|l IHl o r IHr]; intros [|l2 o2 r2] H; simpl in H; try discriminate; [reflexivity|].
  apply andb_prop in H; destruct H as [H Hr]. apply andb_prop in H; destruct H as [Ho Hl].
  rewrite (IHl _ Hl), (IHr _ Hr). f_equal.
  destruct o as [x|], o2 as [y|]; try discriminate; [|reflexivity].
  apply Z.eqb_eq in Ho; now subst.
Qed.
Lemma mem_eqb_eq a b : mem_eqb a b = true -> a = b.
Proof.
  destruct a as [sa da], b as [sb db]; unfold mem_eqb; simpl; intro H.
  apply andb_prop in H; destruct H as [H1 H2]. apply Z.eqb_eq in H1. apply tree_eqb_eq in H2. now subst.
Qed.
Definition state_eqb (a b : state) : bool := Z.eqb (pc a) (pc b) && mem_eqb (mm a) (mm b).
Lemma state_eqb_eq a b : state_eqb a b = true -> a = b.
Proof.
  destruct a as [pa ma], b as [pb mb]; unfold state_eqb; simpl; intro H.
  apply andb_prop in H; destruct H as [H1 H2]. apply Z.eqb_eq in H1. apply mem_eqb_eq in H2. now subst.
Qed.

(* a pending Turing jump: the state at the jump, its two successors, and what had been
   accumulated when it was reached *)
Record frame := mkframe {
  fs : state; fsn : state; fsj : state;
  facc : list event; fsnaps : list state; flast : option state }.

Section VM.
Variable w : Z.
Variable code : Z -> option instr.
Variable cmem : mem.
Variable mon : state -> bool.            (* monitor: false = stop here (speculative paths included) *)
Variable watch : state -> bool.          (* committed states to record *)
Notation act := (Machine.act w code cmem).
Notation Halts := (Halts.Halts act).
Notation csteps := (Halts.csteps act).
Notation cstep := (Halts.cstep act).
Notation cplus := (Halts.cplus act).
Notation splus := (Halts.splus act).

(* where to compare whole states: only a heuristic for *when* to look; soundness rests on the
   comparison itself and succ_cycle_not_halts *)
Definition is_sleep (s : state) : bool :=
  match code (pc s) with Some (ISleep _) => true | _ => false end.
Definition cons_ev (e : option event) (acc : list event) : list event :=
  match e with Some v => v :: acc | None => acc end.
Definition snap (s : state) (sn : list state) : list state := if watch s then s :: sn else sn.

Fixpoint vm (fuel : nat) (s : state) (acc : list event) (sn : list state) (last : option state)
         (stk : list frame) : outcome :=
  match fuel with
  | O => OFuel (rev acc) (rev sn)
  | S f =>
      if negb (mon s) then OStop (rev acc) s (rev sn) else
      match act s with
      | AHalt =>
          match stk with
          | [] => OHalt
          | fr :: rest =>
              (* the fall-through of the most recent pending jump halts: the jump is taken *)
              if state_eqb (fsj fr) (fs fr) then OAbsorbed (rev (facc fr)) (fs fr) (rev (fsnaps fr))
              else vm f (fsj fr) (facc fr) (fsnaps fr) (flast fr) rest
          end
      | AFault => OFault (rev acc) s (rev sn)
      | ANext s' e =>
          if is_sleep s then
            match last with
            | Some l => if state_eqb l s then OAbsorbed (rev acc) s (rev sn)
                        else vm f s' (cons_ev e acc) (snap s sn) (Some s) stk
            | None => vm f s' (cons_ev e acc) (snap s sn) (Some s) stk
            end
          else vm f s' (cons_ev e acc) (snap s sn) last stk
      | AJump s1 sj =>
          vm f s1 acc (snap s sn) last (mkframe s s1 sj acc (snap s sn) last :: stk)
      end
  end.

Lemma csteps_snoc s l s' e s'' : csteps s l s' -> cstep s' e s'' -> csteps s (l ++ evl e) s''.
Proof.
  intros A B. eapply csteps_app; [exact A|].
  destruct e; simpl; [eapply CS_ev | eapply CS_tau]; eauto; constructor.
Qed.
Lemma rev_cons_ev e acc : rev (cons_ev e acc) = rev acc ++ evl e.
Proof. destruct e; simpl; [reflexivity | now rewrite app_nil_r]. Qed.

Section Sound.
Variable s0 : state.                      (* the state the whole run started from *)

(* what is known about the current state c, its accumulated events and the last sleep the run
   passed, with which later sleeps are compared *)
Definition good (c : state) (acc : list event) (last : option state) : Prop :=
  (~ Halts c -> csteps s0 (rev acc) c) /\
  (forall l, last = Some l -> splus l c /\ (~ Halts c -> cplus l c)).

(* the pending jumps: c is being explored as (a descendant of) the fall-through of the top
   frame's jump, and haltingness is transported along the whole chain down to s0 *)
Fixpoint stk_ok (c : state) (stk : list frame) : Prop :=
  match stk with
  | [] => Halts c <-> Halts s0
  | fr :: rest =>
      (Halts c <-> Halts (fsn fr)) /\ act (fs fr) = AJump (fsn fr) (fsj fr) /\
      good (fs fr) (facc fr) (flast fr) /\ stk_ok (fs fr) rest
  end.

Lemma stk_ok_iff a b stk : (Halts a <-> Halts b) -> stk_ok a stk -> stk_ok b stk.
Proof. destruct stk as [|fr rest]; simpl; intros E H; [tauto|]. destruct H as (H1 & H2 & H3 & H4). tauto. Qed.

Lemma stk_not_halts : forall stk c, stk_ok c stk -> ~ Halts c -> ~ Halts s0.
Proof.
  induction stk as [|fr rest IH]; simpl; intros c H N; [tauto|].
  destruct H as (H1 & H2 & H3 & H4). apply (IH (fs fr) H4).
  intro Hs. exact (N (proj2 H1 (proj1 (halts_jump_inv act _ _ _ H2 Hs)))).
Qed.

(* The recorded states `snaps` come with no guarantee: they are what `watch` selected, for the
   harness to look at. *)
Definition verdict_ok (o : outcome) : Prop :=
  match o with
  | OHalt => Halts s0
  | OAbsorbed evs s' _ => ~ Halts s0 /\ csteps s0 evs s' /\ cplus s' s'
  | OFault evs s' _ => ~ Halts s0 /\ csteps s0 evs s' /\ act s' = AFault
  | OStop _ _ _ | OFuel _ _ => True
  end.

(* one step to a successor c' that is the committed one whenever c' does not halt *)
Lemma good_succ c c' e acc last : succ act c c' -> (~ Halts c' -> cstep c e c') ->
  good c acc last -> good c' (cons_ev e acc) last.
Proof.
  intros S C [Hacc Hlast].
  assert (Hn : ~ Halts c' -> ~ Halts c) by (intros N; now rewrite (halts_cstep act _ _ _ (C N))).
  split.
  - intros N. rewrite rev_cons_ev. eapply csteps_snoc; eauto.
  - intros l El. destruct (Hlast l El) as [P1 P2]. split.
    + eapply splus_snoc; eauto.
    + intros N. eapply cplus_snoc; eauto.
Qed.
(* the same step from a sleep: the cycle check restarts from c *)
Lemma good_next_mark c c' e acc last : act c = ANext c' e -> good c acc last -> good c' (cons_ev e acc) (Some c).
Proof.
  intros A G. pose proof (C_next act _ _ _ A) as Cst.
  split; [exact (proj1 (good_succ c c' e acc last (cstep_succ act _ _ _ Cst) (fun _ => Cst) G))|].
  intros l El. injection El as <-. split; [exact (SP_one act _ _ (cstep_succ act _ _ _ Cst)) | intros _; exact (P_one act _ _ _ Cst)].
Qed.

Lemma vm_sound_gen fuel : forall c acc sp last stk,
  good c acc last -> stk_ok c stk -> verdict_ok (vm fuel c acc sp last stk).
Proof.
  induction fuel as [|f IH]; intros c acc sp last stk G K; cbn [vm]; [exact I|].
  destruct (mon c); cbn [negb]; [|exact I].
  destruct (act c) as [|c' e|s1 sj|] eqn:A.
  - (* halt *)
    assert (Hc : Halts c) by (now apply H_halt).
    destruct stk as [|fr rest]; [simpl in *; tauto|].
    simpl in K. destruct K as (K1 & K2 & K3 & K4).
    assert (Hsn : Halts (fsn fr)) by tauto.
    destruct (state_eqb (fsj fr) (fs fr)) eqn:Eq.
    + apply state_eqb_eq in Eq.
      assert (N : ~ Halts (fs fr)).
      { apply succ_cycle_not_halts. apply SP_one. eapply S_r. rewrite <- Eq at 2. exact K2. }
      simpl. split; [exact (stk_not_halts rest (fs fr) K4 N)|]. split; [apply K3; exact N|].
      eapply P_one. rewrite <- Eq at 2. eapply C_take; eauto.
    + apply IH.
      * exact (good_succ _ _ None _ _ (S_r act _ _ _ K2) (fun _ => C_take act _ _ _ K2 Hsn) K3).
      * apply (stk_ok_iff (fs fr)); [|exact K4]. rewrite (halts_jump_iff act _ _ _ K2). tauto.
  - (* next *)
    assert (K' : stk_ok c' stk) by (eapply stk_ok_iff; [exact (halts_next_iff act _ _ _ A) | exact K]).
    destruct (is_sleep c).
    + destruct last as [l|].
      * destruct (state_eqb l c) eqn:Eq.
        -- apply state_eqb_eq in Eq. subst l. destruct G as [G1 G2]. destruct (G2 c eq_refl) as [P1 P2].
           assert (N : ~ Halts c) by (now apply succ_cycle_not_halts).
           simpl. split; [exact (stk_not_halts stk c K N)|]. split; [apply G1; exact N | apply P2; exact N].
        -- apply IH; [eapply good_next_mark; eauto | exact K'].
      * apply IH; [eapply good_next_mark; eauto | exact K'].
    + apply IH; [exact (good_succ _ _ e _ _ (S_next act _ _ _ A) (fun _ => C_next act _ _ _ A) G) | exact K'].
  - (* jump: explore the fall-through with the jump pending *)
    apply IH.
    + exact (good_succ _ _ None _ _ (S_l act _ _ _ A) (C_fall act _ _ _ A) G).
    + simpl. split; [tauto|]. split; [exact A|]. split; [exact G | exact K].
  - (* fault *)
    assert (N : ~ Halts c) by (now apply halts_fault_inv).
    destruct G as [G1 G2]. simpl. split; [exact (stk_not_halts stk c K N)|]. split; [apply G1; exact N | exact A].
Qed.
End Sound.

Definition run (fuel : nat) (s : state) : outcome := vm fuel s [] [] None [].

Theorem vm_sound fuel s : verdict_ok s (run fuel s).
Proof.
  apply vm_sound_gen.
  - split; [intros _; constructor | intros l E; discriminate].
  - simpl. tauto.
Qed.

Corollary vm_halt_is_committed_halt fuel s : run fuel s = OHalt -> Halts s.
Proof. intro E. pose proof (vm_sound fuel s) as V. now rewrite E in V. Qed.
Corollary vm_absorbed_never_halts fuel s evs s' sp :
  run fuel s = OAbsorbed evs s' sp -> ~ Halts s /\ csteps s evs s' /\ cplus s' s'.
Proof. intro E. pose proof (vm_sound fuel s) as V. now rewrite E in V. Qed.
Corollary vm_fault_never_halts fuel s evs s' sp :
  run fuel s = OFault evs s' sp -> ~ Halts s /\ csteps s evs s' /\ act s' = AFault.
Proof. intro E. pose proof (vm_sound fuel s) as V. now rewrite E in V. Qed.

End VM.

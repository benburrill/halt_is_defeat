(* Load/store algebra for the trie memory. *)
From Coq Require Import ZArith Lia FMapPositive.
From HidV Require Import Machine WordLemmas.
Open Scope Z_scope.

(* Addresses and word values stay as written under `simpl` and `cbn`, here and in every file that
   imports this one. *)
Arguments Z.mul : simpl never.
Arguments Z.add : simpl never.
Arguments Z.pow : simpl never.
Arguments Z.modulo : simpl never.
Arguments Z.div : simpl never.
Arguments Z.of_nat : simpl never.

Lemma key_inj a b : 0 <= a -> 0 <= b -> key a = key b -> a = b.
Proof. unfold key; intros Ha Hb H. apply Z2Pos.inj in H; lia. Qed.

Lemma getb_setb_same m a v : getb (setb m a v) a = v.
Proof. unfold getb, setb; simpl. now rewrite PositiveMap.gss. Qed.
Lemma getb_setb_other m a v x : 0 <= a -> 0 <= x -> x <> a -> getb (setb m a v) x = getb m x.
Proof.
  intros Ha Hx N. unfold getb, setb; simpl. rewrite PositiveMap.gso; [reflexivity|].
  intro E. apply N. now apply key_inj.
Qed.
Lemma msize_setb m a v : msize (setb m a v) = msize m.
Proof. reflexivity. Qed.

Lemma msize_storen n : forall m a v, msize (storen n m a v) = msize m.
Proof. induction n as [|k IH]; intros; cbn [storen]; [reflexivity|]. now rewrite IH. Qed.

Lemma storen_outside n : forall m a v x, 0 <= a -> 0 <= x -> (x < a \/ a + Z.of_nat n <= x) ->
  getb (storen n m a v) x = getb m x.
Proof.
  induction n as [|k IH]; intros m a v x Ha Hx H; cbn [storen]; [reflexivity|].
  rewrite IH by lia. apply getb_setb_other; lia.
Qed.
Lemma loadn_ext n : forall m m' a, (forall x, a <= x < a + Z.of_nat n -> getb m x = getb m' x) ->
  loadn n m a = loadn n m' a.
Proof.
  induction n as [|k IH]; intros m m' a H; cbn [loadn]; [reflexivity|].
  rewrite (H a) by lia. f_equal. f_equal. apply IH; intros; apply H; lia.
Qed.
Lemma loadn_storen n : forall m a v, 0 <= a -> 0 <= v < 256 ^ Z.of_nat n -> loadn n (storen n m a v) a = v.
Proof.
  induction n as [|k IH]; intros m a v Ha H; cbn [loadn storen].
  - change (Z.of_nat 0) with 0 in H. rewrite Z.pow_0_r in H. lia.
  - rewrite storen_outside by lia. rewrite getb_setb_same.
    rewrite Nat2Z.inj_succ, Z.pow_succ_r in H by lia.
    rewrite IH.
    + pose proof (Z.div_mod v 256); lia.
    + lia.
    + split; [apply Z.div_pos; lia | apply Z.div_lt_upper_bound; lia].
Qed.
(* bytes of a well-formed memory are in [0,256): loaded words are in range *)
Definition wf_mem (m : mem) : Prop := forall a, 0 <= getb m a < 256.
Lemma loadn_range n : forall m a, wf_mem m -> 0 <= loadn n m a < 256 ^ Z.of_nat n.
Proof.
  induction n as [|k IH]; intros m a Hm; cbn [loadn].
  - change (Z.of_nat 0) with 0. rewrite Z.pow_0_r. lia.
  - rewrite Nat2Z.inj_succ, Z.pow_succ_r by lia. pose proof (Hm a). pose proof (IH m (a + 1) Hm). lia.
Qed.
Lemma wf_setb m a v : wf_mem m -> 0 <= a -> 0 <= v < 256 -> wf_mem (setb m a v).
Proof.
  intros Hm Ha Hv x. destruct (Z.eq_dec x a) as [->|N]; [now rewrite getb_setb_same|].
  destruct (Z_lt_le_dec x 0).
  - (* negative addresses alias key 1 = address 0 *)
    unfold getb, setb; simpl. unfold key.
    destruct (Pos.eq_dec (Z.to_pos (x + 1)) (Z.to_pos (a + 1))) as [E|E].
    + rewrite E, PositiveMap.gss. lia.
    + rewrite PositiveMap.gso by assumption. apply Hm.
  - rewrite getb_setb_other by lia. apply Hm.
Qed.
Lemma wf_storen n : forall m a v, wf_mem m -> 0 <= a -> wf_mem (storen n m a v).
Proof.
  induction n as [|k IH]; intros m a v Hm Ha; cbn [storen]; [assumption|].
  apply IH; [|lia]. apply wf_setb; [assumption | lia |]. apply Z.mod_pos_bound; lia.
Qed.

Section WordMem.
Variable w : Z.
Hypothesis Hw : 1 <= w.
Notation W := (Machine.W w).
Notation wrap := (Machine.wrap w).
Notation lw := (Machine.lw w).
Notation sw := (Machine.sw w).

Lemma wn_w : Z.of_nat (Machine.wn w) = w.
Proof. unfold Machine.wn; rewrite Z2Nat.id; lia. Qed.
Lemma W_pow : W = 256 ^ Z.of_nat (Machine.wn w).
Proof.
  unfold Machine.W; rewrite wn_w. replace 256 with (2 ^ 8) by reflexivity.
  rewrite <- Z.pow_mul_r by lia. reflexivity.
Qed.

Lemma lw_sw_same m a v : 0 <= a -> lw (sw m a v) a = wrap v.
Proof.
  intros Ha. unfold Machine.lw, Machine.sw. apply loadn_storen; [assumption|].
  rewrite <- W_pow. apply (wrap_range w Hw).
Qed.
Lemma lw_ext m m' a : (forall x, a <= x < a + w -> getb m x = getb m' x) -> lw m a = lw m' a.
Proof. intros H. unfold Machine.lw. apply loadn_ext. now rewrite wn_w. Qed.
Lemma lw_sw_other m a v b : 0 <= a -> 0 <= b -> (b + w <= a \/ a + w <= b) -> lw (sw m a v) b = lw m b.
Proof.
  intros Ha Hb H. apply lw_ext. intros x Hx. unfold Machine.sw.
  apply storen_outside; [assumption | lia |]. rewrite wn_w. lia.
Qed.
Lemma lb_sw_other m a v b : 0 <= a -> 0 <= b -> (b < a \/ a + w <= b) -> lb (sw m a v) b = lb m b.
Proof. intros Ha Hb H. unfold Machine.lb, Machine.sw. apply storen_outside; try assumption. rewrite wn_w. lia. Qed.
Lemma lw_sb_other m a v b : 0 <= a -> 0 <= b -> (a < b \/ b + w <= a) -> lw (Machine.sb m a v) b = lw m b.
Proof.
  intros Ha Hb H. apply lw_ext. intros x Hx. apply getb_setb_other; lia.
Qed.
Lemma lb_sb_same m a v : lb (Machine.sb m a v) a = v mod 256.
Proof. apply getb_setb_same. Qed.
Lemma lb_sb_other m a v b : 0 <= a -> 0 <= b -> b <> a -> lb (Machine.sb m a v) b = lb m b.
Proof. intros; now apply getb_setb_other. Qed.
Lemma msize_sw m a v : msize (sw m a v) = msize m.
Proof. apply msize_storen. Qed.
Lemma lw_range m a : wf_mem m -> 0 <= lw m a < W.
Proof. intros Hm. unfold Machine.lw. rewrite W_pow. now apply loadn_range. Qed.
Lemma wf_sw m a v : wf_mem m -> 0 <= a -> wf_mem (sw m a v).
Proof. intros. now apply wf_storen. Qed.
Lemma wf_sb m a v : wf_mem m -> 0 <= a -> wf_mem (Machine.sb m a v).
Proof. intros. apply wf_setb; try assumption. apply Z.mod_pos_bound; lia. Qed.

Lemma inb_true m a n : 0 <= a -> a + n <= msize m -> inb m a n = true.
Proof. intros; unfold inb. apply andb_true_intro; split; apply Z.leb_le; lia. Qed.
Lemma inb_sw m a v b n : inb (sw m a v) b n = inb m b n.
Proof. unfold inb. now rewrite msize_sw. Qed.

(* negative immediates: -z as an offset operand *)
Lemma sgn_neg_imm z : 0 < z <= W / 2 -> Machine.sgn w (wrap (- z)) = - z.
Proof. intros H. apply (sgn_wrap_small w Hw). pose proof (half_pos w Hw). lia. Qed.
End WordMem.

(* reading through stores, `autorewrite with mem`: a rule fires only where its side conditions
   (addresses non-negative, words apart) follow from the context by `lia`, so the set is meant for
   goals with few hypotheses; elsewhere the rules are named, store by store. *)
#[export] Hint Rewrite lw_sw_same lw_sw_other inb_sw msize_sw using solve [assumption | lia] : mem.

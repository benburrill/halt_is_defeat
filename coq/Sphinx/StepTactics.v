(* What the proofs about the regenerated runtime library `GenStdlib.stdlib_code w B`
   (Codegen/Stdlib*.v) share, for an arbitrary word size `w >= 2`: the predicates `agree` and
   `bytes_from` in which their theorems are stated, and one step lemma for every instruction kind
   the library uses, each an instance of an `act_*` lemma or of an idiom of Idioms.v.

   A program counter is always written `b + k`, base plus offset: the successor `b + (k + 1)` of a
   literal offset is again a literal up to conversion, so consecutive steps compose by
   `runs_trans` with nothing to normalise.  `block_at code b k l` says that the list `l` sits in
   the code memory from `b + k` on; a routine that occurs several times in the library is proved
   once about such a block at a variable position.

   The routines keep their intermediate values in r0..r2 and never name the memories they pass
   through: `regs w m0 F m a b c` says that m is the well-formed entry memory m0, whose frame
   pointer is F, with a, b, c in r0, r1, r2.  Registers are addressed as the listing addresses
   them, fp at `1 * w`, r0..r2 at `2 * w`..`4 * w`, the stack from `5 * w` on: the head of the
   state section that generator.py gen_lines lays out (ap, fp, r0, r1, r2, stack_start). *)
From Coq Require Import ZArith List Bool Lia.
From HidV Require Import Machine Halts WordLemmas MemLemmas Idioms.
Import ListNotations.
Open Scope Z_scope.

Lemma W_ge_65536 w : 2 <= w -> 65536 <= Machine.W w.
Proof. exact (W_ge_pow w 2). Qed.

(* sequencing without reshaping the event list *)
Lemma silent_then act s s' l s'' : runs act s [] s' -> runs act s' l s'' -> runs act s l s''.
Proof. exact (runs_trans act s [] s' l s''). Qed.
Lemma out_then act s e s' l s'' : runs act s [e] s' -> runs act s' l s'' -> runs act s (e :: l) s''.
Proof. exact (runs_trans act s [e] s' l s''). Qed.
Arguments silent_then {act s s' l s''}.
Arguments out_then {act s e s' l s''}.

(* k + 1 + ... + 1, j times: for a literal j this is, up to conversion, the offset that j steps
   from k produce - a literal again if k is one, and `k + 1 + 1` as it stands if k is a variable *)
Fixpoint after (k : Z) (j : nat) : Z := match j with O => k | S j => after k j + 1 end.
Lemma after_nat k j : after k j = k + Z.of_nat j.
Proof. induction j as [|j IH]; cbn [after]; lia. Qed.
Lemma after_shift k j : after (k + 1) j = after k (S j).
Proof. induction j as [|j IH]; cbn [after] in *; congruence. Qed.

Definition block_at (code : Z -> option instr) (b k : Z) (l : list instr) : Prop :=
  forall j i, nth_error l j = Some i -> code (b + after k j) = Some i.

Lemma block_tl {code b k i l} : block_at code b k (i :: l) -> block_at code b (k + 1) l.
Proof. intros C j x H. rewrite after_shift. exact (C (S j) x H). Qed.
Lemma nth_error_sub {A} len : forall n (l : list A) j x,
  nth_error (firstn len (skipn n l)) j = Some x -> nth_error l (n + j) = Some x.
Proof.
  induction n as [|n IHn]; cbn [skipn Nat.add].
  - induction len as [|len IH]; intros [|y l] [|j] x; cbn [firstn nth_error]; try discriminate; auto.
  - intros [|y l] j x; [destruct len, j; discriminate | apply IHn].
Qed.
Lemma block_sub {code b k l} n len :
  block_at code b k l -> block_at code b (after k n) (firstn len (skipn n l)).
Proof.
  intros C j i H. rewrite <- (C (n + j)%nat i (nth_error_sub len n l j i H)).
  rewrite !after_nat. f_equal. lia.
Qed.

(* same size, equal outside r0..r2 *)
Definition agree (w : Z) (m m0 : mem) : Prop :=
  msize m = msize m0 /\ forall x, 0 <= x -> (x < 2 * w \/ 5 * w <= x) -> getb m x = getb m0 x.

(* what a routine promises: the events evs, then some state (ra, m') with Q m' *)
Definition lands act (s : state) (evs : list event) (ra : Z) (Q : mem -> Prop) : Prop :=
  exists m', runs act s evs (mk ra m') /\ Q m'.
Lemma lands_after act s l s' evs ra Q : runs act s l s' -> lands act s' evs ra Q -> lands act s (l ++ evs) ra Q.
Proof. intros R (m' & R' & H). exists m'. split; [exact (runs_trans act _ _ _ _ _ R R') | exact H]. Qed.
Arguments lands_after {act s l s' evs ra Q}.
(* ... under the calling convention: back at the return address saved below the frame pointer F of
   the entry memory m0, of which only r0..r2 have changed; the specifications write_*_spec state
   this unfolded *)
Definition returns (w : Z) act (m0 : mem) (F : Z) (s : state) (evs : list event) : Prop :=
  lands act s evs (Machine.lw w m0 (F - w)) (fun m' => agree w m' m0 /\ wf_mem m').

Fixpoint bytes_from (m0 : mem) (p : Z) (n : nat) : list Z :=
  match n with O => [] | S k => getb m0 p :: bytes_from m0 (p + 1) k end.

Lemma bytes_from_length m p n : length (bytes_from m p n) = n.
Proof. revert p; induction n as [|n IH]; intros p; cbn [bytes_from length]; [reflexivity | now rewrite IH]. Qed.
Lemma bytes_from_ext n : forall m m' p, (forall x, p <= x < p + Z.of_nat n -> getb m x = getb m' x) ->
  bytes_from m p n = bytes_from m' p n.
Proof.
  induction n as [|n IH]; intros m m' p H; cbn [bytes_from]; [reflexivity|].
  rewrite (H p) by lia. f_equal. apply IH. intros x Hx. apply H. lia.
Qed.
Lemma bytes_from_nth n : forall m p i, (i < n)%nat -> nth i (bytes_from m p n) 0 = getb m (p + Z.of_nat i).
Proof.
  induction n as [|n IH]; intros m p i Hi; [lia|]. cbn [bytes_from]. destruct i as [|i]; cbn [nth].
  - f_equal. lia.
  - rewrite IH by lia. f_equal. lia.
Qed.
Lemma bytes_from_app n1 : forall n2 m p,
  bytes_from m p (n1 + n2) = bytes_from m p n1 ++ bytes_from m (p + Z.of_nat n1) n2.
Proof.
  induction n1 as [|n1 IH]; intros n2 m p; cbn [bytes_from Nat.add app].
  - f_equal. lia.
  - f_equal. rewrite IH. f_equal. f_equal. lia.
Qed.

Inductive sreg := SR0 | SR1 | SR2.
Definition sra (w : Z) (r : sreg) : Z := match r with SR0 => 2 * w | SR1 => 3 * w | SR2 => 4 * w end.

Section Agree.
Variable w : Z.
Hypothesis Hw : 2 <= w.
Notation lw := (Machine.lw w).
Notation sw := (Machine.sw w).
Notation agree := (agree w).

Lemma sra_range r : 2 * w <= sra w r /\ sra w r + w <= 5 * w.
Proof. destruct r; cbn [sra]; lia. Qed.

Lemma agree_refl m : agree m m.
Proof. split; [reflexivity | intros; reflexivity]. Qed.
Lemma agree_trans m1 m2 m3 : agree m1 m2 -> agree m2 m3 -> agree m1 m3.
Proof.
  intros [S1 A1] [S2 A2]; split; [congruence|]. intros x Hx Hr. rewrite (A1 x Hx Hr). apply A2; assumption.
Qed.
Lemma agree_sw m m0 r v : agree m m0 -> agree (sw m (sra w r) v) m0.
Proof.
  intros [S A]; split; [rewrite msize_sw; exact S|]. intros x Hx Hr. pose proof (sra_range r). unfold Machine.sw.
  rewrite storen_outside; [apply A; assumption | lia | lia |]. rewrite wn_w by lia. lia.
Qed.
Lemma agree_lw m m0 a : agree m m0 -> 0 <= a -> (a + w <= 2 * w \/ 5 * w <= a) -> lw m a = lw m0 a.
Proof.
  intros [S A] Ha0 Ha. apply lw_ext; [lia|]. intros x Hx. apply A; lia.
Qed.
Lemma agree_lb m m0 a : agree m m0 -> 0 <= a -> (a < 2 * w \/ 5 * w <= a) -> Machine.lb m a = Machine.lb m0 a.
Proof. intros [S A] Ha0 Ha. apply A; assumption. Qed.
Lemma agree_sb m m0 a v : agree m m0 -> 0 <= a -> agree (Machine.sb m a v) (Machine.sb m0 a v).
Proof.
  intros [S A] Ha; split; [exact S|]. intros x Hx Hr. unfold Machine.sb.
  destruct (Z.eq_dec x a) as [->|N]; [now rewrite !getb_setb_same|].
  rewrite !getb_setb_other by assumption. apply A; assumption.
Qed.

Lemma lw_sw_reg_other m a v b : 0 <= a -> 0 <= b -> (b + w <= a \/ a + w <= b) -> lw (sw m a v) b = lw m b.
Proof. intros. apply lw_sw_other; try lia. Qed.
End Agree.

Section Step.
Context {w : Z} {cmem : mem} (Hw : 2 <= w).
Notation oval := (Idioms.oval w cmem).
Notation lw := (Machine.lw w).
Notation sw := (Machine.sw w).
Notation W := (Machine.W w).
Notation wrap := (Machine.wrap w).
Notation sgn := (Machine.sgn w).

Lemma oval_word {m} z : 0 <= z < W -> oval m (Imm z) = Some z.
Proof. intros H. exact (oval_label w cmem m z (wrap_small w z H)). Qed.
(* ... a literal byte; the test is decided by evaluation *)
Lemma oval_byte {m} z : (0 <=? z) && (z <? 256) = true -> oval m (Imm z) = Some z.
Proof. intros H. apply oval_word. pose proof (W_ge w ltac:(lia)). lia. Qed.

(* the test at the target of a two-way branch is the negation of the one on the fall-through; the
   pairs are those of GenTables.halt_inversion, the table bool_expr_branch takes them from *)
Definition cinv (c : cond) : cond :=
  match c with
  | Ceq => Cne | Cne => Ceq | Clt => Cge | Cge => Clt | Cgt => Cle | Cle => Cgt
  | Cltu => Cgeu | Cgeu => Cltu | Cgtu => Cleu | Cleu => Cgtu
  end.
Lemma cinv_holds c x y : Machine.cond_holds w (cinv c) x y = negb (Machine.cond_holds w c x y).
Proof.
  destruct c; cbn [cinv Machine.cond_holds];
    rewrite ?negb_involutive, ?Z.leb_antisym, ?Z.ltb_antisym, ?negb_involutive; reflexivity.
Qed.

(* F is a non-negative signed word, so that `[fp]` plus a signed offset is F plus that offset, and
   the word below F, which holds the return address, lies above the registers. *)
Definition regs (m0 : mem) (F : Z) (m : mem) (a b c : Z) : Prop :=
  (wf_mem m0 /\ lw m0 (1 * w) = F /\ 5 * w <= F - w /\ F <= msize m0 /\ F < W / 2) /\
  agree w m m0 /\ wf_mem m /\ lw m (2 * w) = a /\ lw m (3 * w) = b /\ lw m (4 * w) = c.

Section Regs.
Context {m0 : mem} {F : Z} {m : mem} {v0 v1 v2 : Z} (G : regs m0 F m v0 v1 v2).

Lemma regs_frame : 5 * w <= F - w /\ F <= msize m0 /\ F < W / 2.
Proof. apply G. Qed.
Lemma regs_agree : agree w m m0.
Proof. apply G. Qed.
Lemma regs_msize : msize m = msize m0 /\ 6 * w <= msize m0.
Proof. destruct regs_frame as (H1 & H2 & _). destruct regs_agree as [S _]. lia. Qed.
Lemma regs_inb r : inb m (sra w r) w = true.
Proof. destruct regs_msize as [S H]. pose proof (sra_range w Hw r). apply inb_true; lia. Qed.

Lemma regs_set r v : regs m0 F (sw m (sra w r) v)
  (match r with SR0 => wrap v | _ => v0 end) (match r with SR1 => wrap v | _ => v1 end)
  (match r with SR2 => wrap v | _ => v2 end).
Proof.
  destruct G as (Fr & A & Wf & E0 & E1 & E2). pose proof (sra_range w Hw r) as Hr.
  split; [exact Fr|]. split; [exact (agree_sw w Hw m m0 r v A)|]. split; [apply wf_sw; [exact Wf | lia]|].
  destruct r; cbn [sra]; repeat split;
    first [ apply lw_sw_same; lia | rewrite lw_sw_other by lia; assumption ].
Qed.
Lemma regs_put r v : 0 <= v < W -> regs m0 F (sw m (sra w r) v)
  (match r with SR0 => v | _ => v0 end) (match r with SR1 => v | _ => v1 end) (match r with SR2 => v | _ => v2 end).
Proof. intros H. rewrite <- (wrap_small w v H) at 2 3 4. apply regs_set. Qed.

Lemma regs_sb x v : 5 * w <= x -> regs (Machine.sb m0 x v) F (Machine.sb m x v) v0 v1 v2.
Proof.
  intros Hx. destruct G as ((Wf0 & E & H) & A & Wf & E0 & E1 & E2).
  split; [split; [apply wf_sb; [exact Wf0 | lia] | split; [rewrite lw_sb_other by lia; exact E | exact H]]|].
  split; [apply agree_sb; [exact A | lia]|]. split; [apply wf_sb; [exact Wf | lia]|].
  rewrite !lw_sb_other by lia. auto.
Qed.

Lemma oval_reg r : oval m (St (sra w r)) = Some (match r with SR0 => v0 | SR1 => v1 | SR2 => v2 end).
Proof.
  rewrite (oval_st w cmem m _ (regs_inb r)). destruct G as (_ & _ & _ & E0 & E1 & E2).
  destruct r; cbn [sra]; congruence.
Qed.
Lemma oval_fp : oval m (St (1 * w)) = Some F.
Proof.
  destruct regs_msize as [S H]. destruct G as ((_ & E & _) & _).
  rewrite (oval_st w cmem) by (apply inb_true; lia). rewrite (agree_lw w Hw m m0 _ regs_agree) by lia. now rewrite E.
Qed.
Lemma regs_range r : 0 <= (match r with SR0 => v0 | SR1 => v1 | SR2 => v2 end) < W.
Proof.
  destruct G as (_ & _ & Wf & E0 & E1 & E2).
  destruct r; [rewrite <- E0 | rewrite <- E1 | rewrite <- E2]; apply lw_range; (lia || exact Wf).
Qed.

End Regs.

Lemma regs_init m F : wf_mem m -> lw m (1 * w) = F -> 5 * w <= F - w -> F <= msize m -> F < W / 2 ->
  regs m F m (lw m (2 * w)) (lw m (3 * w)) (lw m (4 * w)).
Proof. intros. unfold regs. auto 10 using agree_refl. Qed.

Context {code : Z -> option instr}.
Notation act := (Machine.act w code cmem).
Notation runs := (Halts.runs act).

(* one instruction that goes on to the next, from what the act_* lemmas of Idioms.v say it does *)
Lemma step_next b k m m' e : act (mk (b + k) m) = ANext (mk (b + k + 1) m') e ->
  runs (mk (b + k) m) (evl e) (mk (b + (k + 1)) m').
Proof. rewrite Z.add_assoc. apply runs_next. Qed.

Lemma step_yield {b k m x v} : code (b + k) = Some (IYield x) -> oval m x = Some v ->
  runs (mk (b + k) m) [EOut (v mod 256)] (mk (b + (k + 1)) m).
Proof. intros C V. exact (step_next _ _ _ _ _ (act_yield w code cmem _ _ _ _ C V)). Qed.
Lemma step_yield_byte {b k m c} : code (b + k) = Some (IYield (Imm c)) -> (0 <=? c) && (c <? 256) = true ->
  runs (mk (b + k) m) [EOut c] (mk (b + (k + 1)) m).
Proof.
  intros C H. rewrite <- (Z.mod_small c 256) by lia. exact (step_yield C (oval_byte c H)).
Qed.
Lemma yields_runs {cs b k m} : block_at code b k (map (fun c => IYield (Imm c)) cs) ->
  forallb (fun c => (0 <=? c) && (c <? 256)) cs = true ->
  runs (mk (b + k) m) (map EOut cs) (mk (b + after k (length cs)) m).
Proof.
  revert k. induction cs as [|c cs IH]; intros k C H; [apply runs_refl|].
  cbn [forallb] in H. apply andb_prop in H. destruct H as [Hc H].
  cbn [length]. rewrite <- after_shift.
  exact (out_then (step_yield_byte (C 0%nat _ eq_refl) Hc) (IH (k + 1) (block_tl C) H)).
Qed.
Lemma step_flag {b k m f} : code (b + k) = Some (IFlag f) ->
  runs (mk (b + k) m) [EFlag f] (mk (b + (k + 1)) m).
Proof. intros C. exact (step_next _ _ _ _ _ (act_flag w code cmem _ _ _ C)). Qed.
Lemma step_sb {b k m x y a v} : code (b + k) = Some (IStore WByte x y) ->
  oval m x = Some a -> oval m y = Some v -> 0 <= a -> a + 1 <= msize m ->
  runs (mk (b + k) m) [] (mk (b + (k + 1)) (Machine.sb m a v)).
Proof.
  intros C X Y H0 H1.
  exact (step_next _ _ _ _ None (act_sbs w code cmem _ _ _ _ _ _ C X Y (inb_true m a 1 H0 H1))).
Qed.

Lemma step_goto {b k m x t} : code (b + k) = Some (IJ x) -> code (b + (k + 1)) = Some IHalt ->
  oval m x = Some t -> runs (mk (b + k) m) [] (mk t m).
Proof. exact (goto_at w code cmem b k m x t). Qed.

(* j T; hcc x,y; ...  T: hcc' x,y : to T + 1 when cc holds, to the instruction after the test
   when it does not *)
Lemma step_branch {b k kt m c x y vx vy} : code (b + k) = Some (IJ (Imm (b + kt))) ->
  code (b + (k + 1)) = Some (IHc c x y) -> code (b + kt) = Some (IHc (cinv c) x y) -> 0 <= b + kt < W ->
  oval m x = Some vx -> oval m y = Some vy ->
  runs (mk (b + k) m) [] (mk (b + (if Machine.cond_holds w c vx vy then kt + 1 else k + 1 + 1)) m).
Proof.
  intros CJ CF CT Ht X Y. rewrite Z.add_assoc in CF.
  pose proof (branch_idiom w code cmem _ m _ _ c _ x y vx vy CJ CF (oval_word _ Ht) CT (cinv_holds c) X Y) as R.
  destruct (Machine.cond_holds w c vx vy); [rewrite Z.add_assoc | replace (b + (k + 1 + 1)) with (b + k + 2) by ring];
    exact R.
Qed.

Section RegSteps.
Context {m0 : mem} {F : Z} {m : mem} {v0 v1 v2 : Z} (G : regs m0 F m v0 v1 v2).

Lemma step_arith {b k op} r {x y vx vy v} : code (b + k) = Some (IArith op (St (sra w r)) x y) ->
  oval m x = Some vx -> oval m y = Some vy -> Machine.arith w op vx vy = Some v ->
  runs (mk (b + k) m) [] (mk (b + (k + 1)) (sw m (sra w r) v)).
Proof.
  intros C X Y A. exact (step_next _ _ _ _ None (act_arith w code cmem _ _ _ _ _ _ _ _ _ C X Y A (regs_inb G r))).
Qed.

(* a word or byte below the frame pointer, `o` the negative offset *)
Lemma step_arg {b k wd} r {o} : code (b + k) = Some (ILoadO wd SState (St (sra w r)) (St (1 * w)) (Imm o)) ->
  5 * w <= F + o -> F + o + (match wd with WWord => w | WByte => 1 end) <= F ->
  runs (mk (b + k) m) [] (mk (b + (k + 1))
    (sw m (sra w r) (match wd with WWord => lw m0 (F + o) | WByte => Machine.lb m0 (F + o) end))).
Proof.
  intros C H1 H2. destruct (regs_msize G) as [S H]. destruct (regs_frame G) as (HF1 & HF2 & HF3).
  pose proof (half_pos w ltac:(lia)). pose proof (W_even w ltac:(lia)).
  assert (E : sgn F + sgn (wrap o) = F + o).
  { rewrite (sgn_small w F) by lia. replace o with (- - o) at 1 by lia.
    rewrite (sgn_neg_imm w ltac:(lia) (- o)) by (destruct wd; lia). lia. }
  refine (step_next _ _ _ _ None (act_loado w code cmem _ _ _ _ _ _ _ _ _ _ C (oval_fp G) (oval_imm w cmem m o) _ (regs_inb G r))).
  rewrite E, (load_in w cmem) by (destruct wd; apply inb_true; lia). f_equal.
  destruct wd; [apply (agree_lw w Hw m m0 _ (regs_agree G)) | apply (agree_lb w m m0 _ (regs_agree G))]; lia.
Qed.

(* a word or byte of the source section `sc` at the address held by x; a state source must not
   overlap r0..r2 *)
Lemma step_load {b k wd sc} r {x p} : code (b + k) = Some (ILoad wd sc (St (sra w r)) x) ->
  oval m x = Some p ->
  let M := match sc with SState => m0 | SConst => cmem end in
  let n := match wd with WWord => w | WByte => 1 end in
  0 <= p -> p + n <= msize M -> (sc = SState -> p + n <= 2 * w \/ 5 * w <= p) ->
  runs (mk (b + k) m) [] (mk (b + (k + 1))
    (sw m (sra w r) (match wd with WWord => lw M p | WByte => Machine.lb M p end))).
Proof.
  intros C X M n H0 H1 H2. destruct (regs_msize G) as [S H].
  refine (step_next _ _ _ _ None (act_load w code cmem _ _ _ _ _ _ _ _ C X _ (regs_inb G r))).
  destruct sc; subst M; cbn zeta in H1.
  - specialize (H2 eq_refl). rewrite (load_in w cmem) by (destruct wd; apply inb_true; lia). f_equal.
    destruct wd; [apply (agree_lw w Hw m m0 _ (regs_agree G)) | apply (agree_lb w m m0 _ (regs_agree G))]; lia.
  - exact (load_in w cmem _ m wd SConst p (inb_true _ _ _ H0 H1)).
Qed.

(* return: lwso [r0],[fp],-1w; j [r0]; halt *)
Definition ret_code : list instr :=
  [ILoadO WWord SState (St (2 * w)) (St (1 * w)) (Imm (- (1 * w))); IJ (St (2 * w)); IHalt].
Lemma ret_runs b k : block_at code b k ret_code -> returns w act m0 F (mk (b + k) m) [].
Proof.
  intros C. destruct (regs_frame G) as (HF1 & _).
  assert (Hr : 0 <= lw m0 (F - w) < W) by (apply lw_range; [lia | apply G]).
  unfold returns. replace (F - w) with (F + - (1 * w)) in * by lia.
  pose proof (regs_put G SR0 _ Hr) as G1.
  exists (sw m (2 * w) (lw m0 (F + - (1 * w)))). split; [|split; apply G1].
  refine (silent_then (step_arg (wd := WWord) SR0 (C 0%nat _ eq_refl) _ _)
                      (step_goto (C 1%nat _ eq_refl) (C 2%nat _ eq_refl) (oval_reg G1 SR0))); lia.
Qed.
End RegSteps.
End Step.
Arguments regs : clear implicits.
Arguments ret_code : clear implicits.
Arguments ret_runs {w} cmem Hw {code m0 F m v0 v1 v2} G {b k}.
